(* C04 layer A for the executable model: the instrumented run of Forest/ExplicitAlgBuild.v
   - erases to Alg's run (erasure),
   - adds only families of the specification relation `added` (families_sound),
   - adds every family of `added` over the columns it builds (families_complete),
   hence stores exactly the derivation trees of the input when it accepts (model_forest_exact).
   Facts about the run are proved as invariants: of the worklist loop (ipc_loop_inv) and of the loop over the
   input (iparse_loop_inv). *)
From Coq Require Import List Arith Bool Lia.
From LV Require Import Cfg.Grammar Cfg.Analysis Earley.Spec Earley.Alg Earley.Alg_proofs
  Forest.ExplicitBuild Forest.ExplicitBuild_proofs Forest.ExplicitAlgBuild.
Import ListNotations.

Lemma nth_error_app_mid {A} (pre : list A) x rest : nth_error (pre ++ x :: rest) (length pre) = Some x.
Proof. rewrite nth_error_app2, Nat.sub_diag by lia. reflexivity. Qed.

Lemma cols_sound_snoc (ch : nat -> item -> Prop) cols c :
  (forall j x, In x (nth j cols []) -> ch j x) -> (forall x, In x c -> ch (length cols) x) ->
  forall j x, In x (nth j (cols ++ [c]) []) -> ch j x.
Proof.
  intros H Hc j x Hx. destruct (Nat.lt_ge_cases j (length cols)) as [Hlt|Hge].
  - rewrite app_nth1 in Hx by auto. auto.
  - rewrite app_nth2 in Hx by auto. destruct (j - length cols) as [|m] eqn:Em; simpl in Hx.
    + replace j with (length cols) by lia. auto.
    + destruct m; destruct Hx.
Qed.

(* the worklist loop of predict_and_complete *)
Section Worklist.
  Variable predictions : nat -> list rule.
  Variable tok : Type.
  Notation ipc_loop := (ipc_loop predictions tok).

  Lemma ipc_loop_erase fuel i cols : forall st acc,
    option_map fst (ipc_loop fuel i cols st acc) = pc_loop predictions fuel i cols st.
  Proof.
    induction fuel as [|f IH]; intros st acc; simpl; destruct (pc_work st); simpl; auto.
  Qed.

  Lemma ipc_loop_some fuel i cols st acc st' acc' :
    ipc_loop fuel i cols st acc = Some (st', acc') -> pc_loop predictions fuel i cols st = Some st'.
  Proof. intros H. rewrite <- (ipc_loop_erase fuel i cols st acc), H. reflexivity. Qed.

  Lemma ipc_loop_none fuel i cols st acc :
    ipc_loop fuel i cols st acc = None -> pc_loop predictions fuel i cols st = None.
  Proof. intros H. rewrite <- (ipc_loop_erase fuel i cols st acc), H. reflexivity. Qed.

  (* what the body of `while items:` preserves holds when the loop ends, and the work list is empty then *)
  Lemma ipc_loop_inv (I : pc_state -> list (fam tok) -> Prop) i cols :
    (forall col x work scan held acc, I (mkPC col (x :: work) scan held) acc ->
       I (pc_step predictions i cols x (mkPC col work scan held))
         (acc ++ step_fams tok i cols x (mkPC col work scan held))) ->
    forall fuel st acc st' acc', I st acc -> ipc_loop fuel i cols st acc = Some (st', acc') ->
      I st' acc' /\ pc_work st' = [].
  Proof.
    intros Hstep. induction fuel as [|f IH]; intros st acc st' acc' HI H; destruct st as [col work scan held];
      cbn [ExplicitAlgBuild.ipc_loop pc_work pc_col pc_scan pc_held] in H; destruct work as [|x work];
      try discriminate; try (inversion H; subst; auto; fail).
    eapply IH; [|exact H]. apply Hstep; auto.
  Qed.
End Worklist.

Section Erase.
  Variable G : grammar.
  Variable predictions : nat -> list rule.
  Variable tok : Type.
  Variable tmatch : nat -> tok -> bool.
  Variable start : nat.

  Notation iparse_loop := (iparse_loop G predictions tok tmatch start).

  Lemma iparse_loop_erase toks : forall i cols scans col scanq acc,
    fst (iparse_loop toks i cols scans col scanq acc) = parse_loop G predictions tok tmatch start toks i cols scans col scanq.
  Proof.
    induction toks as [|tk rest IH]; intros i cols scans col scanq acc; cbn [ExplicitAlgBuild.iparse_loop Alg.parse_loop];
      unfold ipredict_and_complete, predict_and_complete;
      destruct (ipc_loop predictions tok (pc_fuel G i) i cols (mkPC col (rev col) scanq []) acc) as [[st acc1]|] eqn:E.
    - rewrite (ipc_loop_some _ _ _ _ _ _ _ _ _ E). reflexivity.
    - rewrite (ipc_loop_none _ _ _ _ _ _ _ E). reflexivity.
    - rewrite (ipc_loop_some _ _ _ _ _ _ _ _ _ E).
      destruct (fst (scan tok tmatch tk (pc_scan st))), (snd (scan tok tmatch tk (pc_scan st))); auto.
    - rewrite (ipc_loop_none _ _ _ _ _ _ _ E). reflexivity.
  Qed.

  (* forgetting the add_family log gives the recogniser's run *)
  Theorem erasure toks : fst (iparse G predictions tok tmatch start toks) = parse G predictions tok tmatch start toks.
  Proof. unfold iparse, parse. apply iparse_loop_erase. Qed.
End Erase.

(* the loop over the input: an invariant I of its state gives R of the result if R holds of a run that stops
   in a state satisfying I, or at the end of the input after one more column *)
Section ParseLoop.
  Variable G : grammar.
  Variable predictions : nat -> list rule.
  Variable tok : Type.
  Variable tmatch : nat -> tok -> bool.
  Variable start : nat.

  Notation iparse_loop := (iparse_loop G predictions tok tmatch start).
  Notation column := (ipredict_and_complete predictions tok).

  Variable I : list tok -> nat -> list (list item) -> list (list item) -> list item -> list item -> list (fam tok) -> Prop.
  Variable R : result * list (fam tok) -> Prop.
  Hypothesis I_stop : forall toks i cols scans col scanq acc o,
    I toks i cols scans col scanq acc -> R (mkRes o cols scans, acc).
  Hypothesis I_eof : forall i cols scans col scanq acc st acc1 o,
    I [] i cols scans col scanq acc -> column (pc_fuel G i) i cols col scanq acc = Some (st, acc1) ->
    R (mkRes o (cols ++ [pc_col st]) (scans ++ [pc_scan st]), acc1).
  Hypothesis I_next : forall tk rest i cols scans col scanq acc st acc1,
    I (tk :: rest) i cols scans col scanq acc -> column (pc_fuel G i) i cols col scanq acc = Some (st, acc1) ->
    I rest (S i) (cols ++ [pc_col st]) (scans ++ [pc_scan st])
      (fst (scan tok tmatch tk (pc_scan st))) (snd (scan tok tmatch tk (pc_scan st)))
      (acc1 ++ scan_fams tok tmatch i tk (pc_scan st)).

  Lemma iparse_loop_inv : forall toks i cols scans col scanq acc,
    I toks i cols scans col scanq acc -> R (iparse_loop toks i cols scans col scanq acc).
  Proof.
    induction toks as [|tk rest IH]; intros i cols scans col scanq acc HI; cbn [ExplicitAlgBuild.iparse_loop];
      destruct (column (pc_fuel G i) i cols col scanq acc) as [[st acc1]|] eqn:E; try (eapply I_stop; eauto; fail).
    - eapply I_eof; eauto.
    - pose proof (I_next _ _ _ _ _ _ _ _ _ _ HI E) as HN. revert HN. cbv zeta.
      destruct (scan tok tmatch tk (pc_scan st)) as [[|z nc] [|z' nq]]; cbn [fst snd]; intros HN;
        [eapply I_stop; eauto | apply IH; exact HN ..].
  Qed.

End ParseLoop.

(* a property P of families holds of the whole log of a predict_and_complete call, if it holds of the family of
   each call site when the items involved are in a chart ch that the columns stay within *)
Section LogSound.
  Variable G : grammar.
  Variable predictions : nat -> list rule.
  Variable tok : Type.
  Hypothesis pred_sound : forall a r, In r (predictions a) -> In r G /\ Analysis_proofs.lc_reach G a (lhs r).
  Variable ch : nat -> item -> Prop.
  Hypothesis ch_pred : forall k x a r,
    ch k x -> expect x = Some (NT a) -> In r G -> lhs r = a -> ch k (mkItem r 0 k).
  Hypothesis ch_comp : forall i k y x a,
    ch i y -> expect y = Some (NT a) -> ch k x -> expect x = None -> orig x = i ->
    lhs (irule x) = a -> ch k (advance y).
  Variable P : fam tok -> Prop.
  Variable i : nat.
  Variable cols : list (list item).
  Hypothesis cols_sound : forall j x, In x (nth j cols []) -> ch j x.
  Hypothesis P_empty : forall x, ch i x -> expect x = None -> dot x = 0 ->
    P (NSym tok (lhs (irule x)) (orig x) i, (irule x, None, None)).
  Hypothesis P_comp : forall m a o x,
    ch m o -> expect o = Some (NT a) -> ch i x -> expect x = None -> orig x = m -> lhs (irule x) = a ->
    P (comp_fam tok i m a o).

  Notation pc_sound := (pc_sound ch i).

  Lemma step_fams_all x col work scan held :
    pc_sound (mkPC col (x :: work) scan held) -> Forall P (step_fams tok i cols x (mkPC col work scan held)).
  Proof.
    intros (S1 & S2 & S3 & S4). assert (Hx : ch i x) by (apply S3; left; auto).
    cbn [pc_col pc_work pc_scan pc_held] in *.
    unfold ExplicitAlgBuild.step_fams. cbn [pc_col pc_held].
    destruct (expect x) as [[t|a]|] eqn:E; [constructor| |].
    - destruct (nat_memP a held) as [Hin|]; constructor; [|constructor].
      destruct (S4 a Hin) as (z & Hz & Hez & Hoz & Hlz). eapply P_comp; eauto.
    - apply Forall_app. split.
      + destruct (dot x) eqn:Ed; constructor; auto.
      + apply Forall_forall. intros f Hf. apply in_map_iff in Hf. destruct Hf as (o & <- & Ho).
        apply filter_In in Ho. destruct Ho as (Ho & He). apply expects_nt_spec in He.
        eapply P_comp; eauto.
        destruct (Nat.eqb_spec (orig x) i) as [-> |]; auto.
  Qed.

  (* one predict_and_complete call on a column and a scan buffer within ch *)
  Lemma column_all col scanq acc st acc1 :
    (forall x, In x col -> ch i x) -> (forall x, In x scanq -> ch i x) -> Forall P acc ->
    ipredict_and_complete predictions tok (pc_fuel G i) i cols col scanq acc = Some (st, acc1) ->
    pc_sound st /\ Forall P acc1.
  Proof.
    intros Sc Sq HF H. unfold ipredict_and_complete in H.
    apply (ipc_loop_inv predictions tok (fun st acc => pc_sound st /\ Forall P acc) i cols) in H; [tauto| |].
    - intros c x work scan held acc0 (S0 & HF0). split.
      + apply (step_sound G predictions pred_sound ch ch_pred ch_comp i cols cols_sound); auto.
      + apply Forall_app. split; auto. apply step_fams_all; auto.
    - split; auto. repeat split; cbn; auto; [intros x Hx; apply Sc, in_rev, Hx | intros a []].
  Qed.
End LogSound.

Section Families.
  Variable G : grammar.
  Variable predictions : nat -> list rule.
  Variable tok : Type.
  Variable tmatch : nat -> tok -> bool.
  Variable start : nat.
  Variable w : list tok.
  Hypothesis pred_sound : forall a r, In r (predictions a) -> In r G /\ Analysis_proofs.lc_reach G a (lhs r).
  Hypothesis pred_direct : forall a r, In r G -> lhs r = a -> In r (predictions a).

  Notation chart := (chart G tok tmatch w start).
  Notation added := (added G tok tmatch w start).
  Notation fam := (fam tok).
  Notation ipc_loop := (ipc_loop predictions tok).
  Notation iparse_loop := (iparse_loop G predictions tok tmatch start).
  Notation column := (ipredict_and_complete predictions tok).
  Notation step_fams := (step_fams tok).
  Notation scan_fams := (scan_fams tok tmatch).
  Notation comp_fam := (comp_fam tok).

  Definition Padd (f : fam) : Prop := added (fst f) (snd f).

  Lemma empty_added i x : chart i x -> expect x = None -> dot x = 0 ->
    Padd (NSym tok (lhs (irule x)) (orig x) i, (irule x, None, None)).
  Proof.
    intros Hx E Ed. pose proof (chart_dot0 _ _ _ _ _ _ _ Hx Ed) as Ho.
    pose proof (expect_none_complete _ _ _ _ _ _ _ Hx E) as Hlen.
    destruct x as [r d j]. cbn [irule dot orig] in *. subst.
    apply add_empty; auto. destruct (rhs r); auto; discriminate.
  Qed.

  (* a completed item x = (r', |r'|, m) in column i and an originator o in column m give an add_comp family
     (the model's inode and the specification's, ExplicitBuild_proofs.inode, have the same body) *)
  Lemma comp_fam_added i m a o x :
    chart m o -> expect o = Some (NT a) -> chart i x -> expect x = None -> orig x = m -> lhs (irule x) = a ->
    Padd (comp_fam i m a o).
  Proof.
    intros Ho Heo Hx Hex Hox Hl. pose proof (expect_none_complete _ _ _ _ _ _ _ Hx Hex) as Hd.
    destruct o as [r d j]. destruct x as [r' d' m']. unfold expect in *. cbn [irule dot orig] in *. subst.
    unfold Padd, ExplicitAlgBuild.comp_fam. cbn [fst snd irule dot orig].
    eapply add_comp; eauto.
  Qed.

  Lemma scan_fams_sound i tk scanq :
    (forall x, In x scanq -> chart i x) -> nth_error w i = Some tk -> Forall Padd (scan_fams i tk scanq).
  Proof.
    intros Hs Hn. apply Forall_forall. intros f Hf.
    unfold ExplicitAlgBuild.scan_fams in Hf. apply in_flat_map in Hf. destruct Hf as (x & Hx & Hf).
    unfold scan_fam in Hf. destruct (expect x) as [[t|a]|] eqn:E; try destruct Hf.
    destruct (tmatch t tk) eqn:M; [|destruct Hf]. destruct Hf as [<- |[]]. unfold Padd. cbn [fst snd].
    specialize (Hs x Hx). destruct x as [r d j]. unfold expect in E. cbn [irule dot orig] in *.
    eapply add_scan; eauto.
  Qed.

  Lemma scan_spec tk Q :
    (forall z, In z (fst (scan tok tmatch tk Q)) -> is_term_item z = false) /\
    (forall z, In z (snd (scan tok tmatch tk Q)) -> is_term_item z = true) /\
    (forall z, In z (fst (scan tok tmatch tk Q)) \/ In z (snd (scan tok tmatch tk Q)) ->
       exists x t, In x Q /\ expect x = Some (T t) /\ tmatch t tk = true /\ z = advance x).
  Proof.
    destruct (scan tok tmatch tk Q) as [nc nq] eqn:E. unfold scan in E. cbn [fst snd].
    destruct (places_spec _ _ (scan_step_eq tok tmatch tk) _ _ _ _ _ E) as (_ & _ & _ & A4 & A5 & _).
    repeat split.
    - intros z Hz. destruct (A4 z Hz) as [[]|(? & _)]. auto.
    - intros z Hz. destruct (A5 z Hz) as [[]|(? & _)]. auto.
    - intros z Hz.
      assert (Hsrc : exists x, In x Q /\ scan_pick tok tmatch tk x = Some z).
      { destruct Hz as [Hz|Hz]; [destruct (A4 z Hz) as [[]|(_ & H)] | destruct (A5 z Hz) as [[]|(_ & H)]]; exact H. }
      destruct Hsrc as (x & Hx & Hp). apply scan_pick_spec in Hp. destruct Hp as (t & ? & ? & ?). exists x, t. auto.
  Qed.

  Definition at_pos (toks : list tok) (i : nat) : Prop := exists pre, w = pre ++ toks /\ length pre = i.

  Lemma at_pos_next tk rest i : at_pos (tk :: rest) i -> nth_error w i = Some tk /\ at_pos rest (S i).
  Proof.
    intros (pre & -> & <-). split; [apply nth_error_app_mid|].
    exists (pre ++ [tk]). rewrite <- app_assoc, app_length. split; auto. simpl. lia.
  Qed.

  Lemma at_pos_end i : at_pos [] i -> nth_error w i = None.
  Proof. intros (pre & -> & <-). rewrite app_nil_r. apply nth_error_None. lia. Qed.

  Definition sound_inv (toks : list tok) (i : nat) (cols scans : list (list item)) (col scanq : list item)
             (acc : list fam) : Prop :=
    at_pos toks i /\ length cols = i /\ (forall j x, In x (nth j cols []) -> chart j x) /\
    (forall x, In x col -> chart i x) /\ (forall x, In x scanq -> chart i x) /\ Forall Padd acc.

  Lemma column_sound toks i cols scans col scanq acc st acc1 :
    sound_inv toks i cols scans col scanq acc -> column (pc_fuel G i) i cols col scanq acc = Some (st, acc1) ->
    pc_sound chart i st /\ Forall Padd acc1.
  Proof.
    intros (_ & _ & Hcols & Sc & Sq & HF).
    apply (column_all G predictions tok pred_sound chart
             (chart_pred' G tok tmatch start w) (chart_comp' G tok tmatch start w) Padd i cols Hcols
             (empty_added i) (comp_fam_added i)); auto.
  Qed.

  Lemma iparse_loop_sound toks i cols scans col scanq acc :
    sound_inv toks i cols scans col scanq acc -> Forall Padd (snd (iparse_loop toks i cols scans col scanq acc)).
  Proof.
    apply (iparse_loop_inv G predictions tok tmatch start sound_inv (fun r => Forall Padd (snd r))).
    - intros ? ? ? ? ? ? ? ? H. apply H.
    - intros ? ? ? ? ? ? ? ? ? H E. apply (column_sound _ _ _ _ _ _ _ _ _ H E).
    - intros tk rest j cs ss c q a st a1 H E. destruct (column_sound _ _ _ _ _ _ _ _ _ H E) as ((S1 & S2 & _) & HF1).
      destruct H as (Hpos & Hlen & Hcols & _). destruct (at_pos_next _ _ _ Hpos) as (Hn & Hpos').
      destruct (scan_spec tk (pc_scan st)) as (_ & _ & Hsc).
      assert (Hnext : forall z, In z (fst (scan tok tmatch tk (pc_scan st))) \/ In z (snd (scan tok tmatch tk (pc_scan st))) ->
                chart (S j) z).
      { intros z Hz. destruct (Hsc z Hz) as (x & t & Hx & He & Hm & ->). eapply chart_scan'; eauto. }
      repeat split; auto.
      + rewrite app_length. simpl. lia.
      + apply cols_sound_snoc; auto. rewrite Hlen. auto.
      + apply Forall_app. split; auto. apply scan_fams_sound; auto.
  Qed.

  Theorem families_sound : forall f, In f (snd (iparse G predictions tok tmatch start w)) -> added (fst f) (snd f).
  Proof.
    apply Forall_forall. unfold iparse. destruct (initial predictions start) as [c0 q0] eqn:E. cbn [fst snd].
    destruct (initial_spec G predictions tok tmatch start w pred_sound pred_direct _ _ E) as (_ & Sc & Sq & _).
    apply iparse_loop_sound. repeat split; auto.
    - exists []. auto.
    - intros j x Hx. destruct j; destruct Hx.
  Qed.

  (* completeness of one predict_and_complete call; P = the items already popped (Alg_proofs.pc_inv) *)
  Section ColumnC.
    Variable i : nat.
    Variable cols : list (list item).
    Notation pc_inv := (pc_inv G i cols).

    Record fam_inv (C : list item) (acc : list fam) : Prop := mkFI {
      fi_empty : forall x, In x C -> expect x = None -> dot x = 0 ->
                 In (NSym tok (lhs (irule x)) (orig x) i, (irule x, None, None)) acc;
      fi_old : forall x y, In x C -> expect x = None -> orig x <> i -> In y (nth (orig x) cols []) ->
                 expect y = Some (NT (lhs (irule x))) -> In (comp_fam i (orig x) (lhs (irule x)) y) acc;
      fi_here : forall x y, In x C -> In y C -> expect x = None -> orig x = i ->
                 expect y = Some (NT (lhs (irule x))) -> In (comp_fam i i (lhs (irule x)) y) acc
    }.

    Lemma fam_inv_sub C C' acc : incl C' C -> fam_inv C acc -> fam_inv C' acc.
    Proof.
      intros H F. constructor; intros.
      - apply (fi_empty _ _ F); auto.
      - apply (fi_old _ _ F); auto.
      - apply (fi_here _ _ F); auto.
    Qed.

    Lemma step_fam_inv P x col work scan held acc :
      pc_inv P (mkPC col (x :: work) scan held) -> fam_inv P acc ->
      fam_inv (x :: P) (acc ++ step_fams i cols x (mkPC col work scan held)).
    Proof.
      intros I F. constructor.
      - intros z [<- |Hz] He Hd; apply in_or_app.
        + right. unfold ExplicitAlgBuild.step_fams. rewrite He, Hd. apply in_or_app. left. left. reflexivity.
        + left. apply (fi_empty _ _ F); auto.
      - intros z y [<- |Hz] He Ho Hy Hey; apply in_or_app.
        + right. unfold ExplicitAlgBuild.step_fams. rewrite He. apply in_or_app. right.
          rewrite (proj2 (Nat.eqb_neq _ _) Ho). apply in_map. apply filter_In. split; auto.
          apply expects_nt_spec; auto.
        + left. apply (fi_old _ _ F); auto.
      - intros z y [<- |Hz] [<- |Hy] He Ho Hey; apply in_or_app.
        + congruence.
        + (* the completed item is popped after the originator: the completer finds it in the column *)
          right. unfold ExplicitAlgBuild.step_fams. rewrite He. apply in_or_app. right.
          rewrite (proj2 (Nat.eqb_eq _ _) Ho). rewrite Ho. apply in_map. apply filter_In.
          split; [|apply expects_nt_spec; auto]. cbn [pc_col]. apply (inv_P_col _ _ _ _ _ I); auto.
        + (* the originator is popped after the completed (empty) item: the predictor finds the held completion *)
          right. unfold ExplicitAlgBuild.step_fams. rewrite Hey.
          pose proof (inv_held _ _ _ _ _ I z Hz He Ho) as Hh. cbn [pc_held] in *.
          destruct (nat_memP (lhs (irule z)) held); [left; reflexivity|contradiction].
        + left. apply (fi_here _ _ F); auto.
    Qed.

    Lemma icolumn_complete col0 scan0 acc st acc1 :
      (forall x, In x col0 -> is_term_item x = false) -> (forall x, In x scan0 -> is_term_item x = true) ->
      column (pc_fuel G i) i cols col0 scan0 acc = Some (st, acc1) ->
      incl acc acc1 /\ fam_inv (pc_col st) acc1.
    Proof.
      intros Dc Dq H. unfold ipredict_and_complete in H.
      apply (ipc_loop_inv predictions tok (fun st a => incl acc a /\ exists P, pc_inv P st /\ fam_inv P a) i cols) in H.
      - destruct H as ((Hinc & P & IP & FP) & W). split; auto. apply (fam_inv_sub P); auto.
        intros x Hx. destruct (inv_col_P _ _ _ _ _ IP x Hx) as [?|Hw]; auto. rewrite W in Hw. destruct Hw.
      - intros col x work scan held a (Hinc & P & IP & FP). split; [apply incl_appl; auto|].
        exists (x :: P). split; [apply (step_inv G predictions pred_direct i cols); auto | apply step_fam_inv; auto].
      - split; [apply incl_refl|]. exists []. split; [|constructor; intros; contradiction].
        constructor; cbn; auto; try (intros; contradiction).
        + intros x F; destruct F.
        + intros x Hx. right. apply in_rev in Hx. exact Hx.
        + intros x Hx. apply in_rev; auto.
    Qed.
  End ColumnC.

  Definition col_done (C : nat -> list item) (fams : list fam) (k : nat) : Prop :=
    (forall x, In x (C k) -> expect x = None -> dot x = 0 ->
               In (NSym tok (lhs (irule x)) (orig x) k, (irule x, None, None)) fams) /\
    (forall x y, In x (C k) -> expect x = None -> orig x <= k -> In y (C (orig x)) ->
               expect y = Some (NT (lhs (irule x))) -> In (comp_fam k (orig x) (lhs (irule x)) y) fams).

  Lemma col_done_mono C fams C' fams' k :
    (forall m, m <= k -> C' m = C m) -> incl fams fams' -> col_done C fams k -> col_done C' fams' k.
  Proof.
    intros HC Hf (D1 & D2). split; rewrite (HC k (le_n k)).
    - intros; apply Hf, D1; auto.
    - intros x y Hx He Ho Hy Hey. rewrite HC in Hy by auto. apply Hf, D2; auto.
  Qed.

  Lemma fam_inv_done i cols c acc : length cols = i -> fam_inv i cols c acc -> col_done (colf (cols ++ [c])) acc i.
  Proof.
    intros Hl F. pose proof (colf_app_eq cols c [] i Hl) as Ec. split; rewrite Ec.
    - apply (fi_empty _ _ _ _ F).
    - intros x y Hx He Ho Hy Hey. destruct (Nat.eq_dec (orig x) i) as [Heq|Hne].
      + rewrite Heq in *. rewrite Ec in Hy. apply (fi_here _ _ _ _ F); auto.
      + rewrite colf_app_lt in Hy by lia. apply (fi_old _ _ _ _ F); auto.
  Qed.

  Lemma column_done i cols col scanq acc st acc1 :
    length cols = i -> (forall x, In x col -> is_term_item x = false) -> (forall x, In x scanq -> is_term_item x = true) ->
    (forall k, k < i -> col_done (colf cols) acc k) ->
    column (pc_fuel G i) i cols col scanq acc = Some (st, acc1) ->
    incl acc acc1 /\ forall k, k < S i -> col_done (colf (cols ++ [pc_col st])) acc1 k.
  Proof.
    intros Hlc Dc Dq Hold E. destruct (icolumn_complete i cols _ _ _ _ _ Dc Dq E) as (Hinc & F). split; auto.
    intros k Hk. destruct (Nat.eq_dec k i) as [-> |Hne]; [apply fam_inv_done; auto|].
    apply (col_done_mono (colf cols) acc); auto; [|apply Hold; lia]. intros m Hm. apply colf_app_lt. lia.
  Qed.

  Definition col_ok (C Q : nat -> list item) (fams : list fam) (k : nat) : Prop :=
    col_done C fams k /\
    (forall x tk, In x (Q k) -> nth_error w k = Some tk -> incl (scan_fam tok tmatch k tk x) fams).

  Definition complete_inv (toks : list tok) (i : nat) (cols scans : list (list item)) (col scanq : list item)
             (acc : list fam) : Prop :=
    at_pos toks i /\ length cols = i /\ length scans = i /\
    (forall x, In x col -> is_term_item x = false) /\ (forall x, In x scanq -> is_term_item x = true) /\
    (forall k, k < i -> col_ok (colf cols) (colf scans) acc k).

  Lemma column_complete toks i cols scans col scanq acc st acc1 :
    complete_inv toks i cols scans col scanq acc -> column (pc_fuel G i) i cols col scanq acc = Some (st, acc1) ->
    forall k, k < S i ->
      col_ok (colf (cols ++ [pc_col st])) (colf (scans ++ [pc_scan st]))
             (acc1 ++ match toks with [] => [] | tk :: _ => scan_fams i tk (pc_scan st) end) k.
  Proof.
    intros (Hpos & Hlc & Hls & Dc & Dq & Hold) E k Hk.
    destruct (column_done i cols _ _ _ _ _ Hlc Dc Dq (fun m Hm => proj1 (Hold m Hm)) E) as (Hinc & HD).
    split; [apply (col_done_mono (colf (cols ++ [pc_col st])) acc1); auto; apply incl_appl, incl_refl|].
    intros x tk Hx Hn z Hz. apply in_or_app. destruct (Nat.eq_dec k i) as [-> |Hne].
    - (* the scanner of the new column *)
      right. rewrite (colf_app_eq scans _ [] i Hls) in Hx. destruct toks as [|tk' rest].
      + rewrite (at_pos_end _ Hpos) in Hn. discriminate.
      + destruct (at_pos_next _ _ _ Hpos) as (Hn' & _). rewrite Hn' in Hn. inversion Hn; subst tk'.
        apply in_flat_map. exists x; auto.
    - left. rewrite colf_app_lt in Hx by lia. apply Hinc. apply (proj2 (Hold k ltac:(lia)) x tk); auto.
  Qed.

  Lemma iparse_loop_complete toks i cols scans col scanq acc :
    complete_inv toks i cols scans col scanq acc ->
    let r := iparse_loop toks i cols scans col scanq acc in
    forall k, k < length (r_cols (fst r)) -> col_ok (colf (r_cols (fst r))) (colf (r_scans (fst r))) (snd r) k.
  Proof.
    apply (iparse_loop_inv G predictions tok tmatch start complete_inv
             (fun r => forall k, k < length (r_cols (fst r)) ->
                                 col_ok (colf (r_cols (fst r))) (colf (r_scans (fst r))) (snd r) k)).
    - intros ? j ? ? ? ? ? ? (_ & Hlc & _ & _ & _ & Hold) k Hk. cbn [fst snd r_cols r_scans] in *. apply Hold. lia.
    - intros j cs ss c q a st a1 o H E k Hk. cbn [fst snd r_cols r_scans] in *.
      rewrite <- (app_nil_r a1). apply (column_complete [] _ _ _ _ _ _ _ _ H E).
      rewrite app_length in Hk. simpl in Hk. destruct H as (_ & <- & _). lia.
    - intros tk rest j cs ss c q a st a1 H E. pose proof (column_complete _ _ _ _ _ _ _ _ _ H E) as HC.
      destruct H as (Hpos & Hlc & Hls & _). destruct (scan_spec tk (pc_scan st)) as (Dc' & Dq' & _).
      apply at_pos_next in Hpos. unfold complete_inv. rewrite !app_length, Hlc, Hls. cbn [length].
      split; [tauto|]. do 2 (split; [lia|]). auto.
  Qed.

  Notation ires := (iparse G predictions tok tmatch start w).
  Notation C := (colf (r_cols (fst ires))).
  Notation Q := (colf (r_scans (fst ires))).

  Lemma ires_closed : closed G tok tmatch start w C Q (length (r_cols (fst ires))).
  Proof.
    rewrite erasure. destruct (parse_ok G predictions tok tmatch start w pred_sound pred_direct) as (n & L1 & L2 & Cl & _).
    rewrite L1. exact Cl.
  Qed.

  Lemma ires_col_ok k : k < length (r_cols (fst ires)) -> col_ok C Q (snd ires) k.
  Proof.
    intros Hk. unfold iparse in *. destruct (initial predictions start) as [c0 q0] eqn:E. cbn [fst snd] in *.
    destruct (initial_spec G predictions tok tmatch start w pred_sound pred_direct _ _ E) as (_ & _ & _ & Dc & Dq & _).
    apply iparse_loop_complete; auto.
    split; [exists []; auto|]. do 4 (split; auto). intros k0 Hk0. lia.
  Qed.

  Lemma in_C k x : k < length (r_cols (fst ires)) -> chart k x -> is_term_item x = false -> In x (C k).
  Proof.
    intros Hk Hc Ht. eapply inT_C; eauto using ires_closed. eapply closed_complete; eauto using ires_closed.
  Qed.
  Lemma in_Q k x : k < length (r_cols (fst ires)) -> chart k x -> is_term_item x = true -> In x (Q k).
  Proof.
    intros Hk Hc Ht. eapply inT_Q; eauto using ires_closed. eapply closed_complete; eauto using ires_closed.
  Qed.

  Theorem families_complete_upto lbl f :
    added lbl f ->
    (forall k x, chart k x -> k < length (r_cols (fst ires))) ->
    In (lbl, f) (snd ires).
  Proof.
    intros H Hall. destruct H as [k r Hc Hr|k r d j t x Hc Hn Hw Hm|k r d j a r' i Hc Hn Hc' Hl].
    - pose proof (Hall _ _ Hc) as Hk. destruct (ires_col_ok k Hk) as ((F1 & _) & _).
      assert (He : expect (mkItem r 0 k) = None) by (unfold expect; cbn [irule dot]; rewrite Hr; reflexivity).
      specialize (F1 (mkItem r 0 k)). cbn [irule dot orig] in F1. apply F1; auto.
      apply in_C; auto using term_item_None.
    - pose proof (Hall _ _ Hc) as Hk. destruct (ires_col_ok k Hk) as (_ & F3).
      assert (He : expect (mkItem r d j) = Some (T t)) by exact Hn.
      assert (Hin : In (mkItem r d j) (Q k)).
      { apply in_Q; auto. apply (term_item_T _ _ He). }
      apply (F3 _ _ Hin Hw). unfold scan_fam. rewrite He, Hm. left. reflexivity.
    - pose proof (Hall _ _ Hc') as Hk. destruct (ires_col_ok k Hk) as ((_ & F2) & _).
      assert (Hik : i <= k) by (apply chart_wf in Hc'; cbn [orig] in Hc'; lia).
      pose proof (expect_complete r' i) as Hex.
      assert (Hey : expect (mkItem r d j) = Some (NT a)) by exact Hn.
      assert (Hx : In (mkItem r' (length (rhs r')) i) (C k)).
      { apply in_C; auto using term_item_None. }
      assert (Hy : In (mkItem r d j) (C i)).
      { apply in_C; [lia | auto | apply (term_item_NT _ _ Hey)]. }
      specialize (F2 _ (mkItem r d j) Hx Hex). cbn [irule dot orig] in F2. rewrite Hl in F2.
      apply F2; auto.
  Qed.

  Lemma full_run : r_out (fst ires) = Accept \/ r_out (fst ires) = RejectEOF ->
    forall k x, chart k x -> k < length (r_cols (fst ires)).
  Proof.
    intros Ho k x Hc. apply chart_le in Hc.
    rewrite erasure in *. destruct (parse_ok G predictions tok tmatch start w pred_sound pred_direct) as (n & L1 & _ & _ & H).
    rewrite L1. destruct Ho as [Ho|Ho]; rewrite Ho in H; destruct H; lia.
  Qed.

  Theorem families_complete lbl f :
    r_out (fst ires) = Accept \/ r_out (fst ires) = RejectEOF -> added lbl f -> In (lbl, f) (snd ires).
  Proof. intros Ho H. apply families_complete_upto; auto. apply full_run; auto. Qed.

  (* the model's forest = the specification's forest, so it stores exactly the derivation trees of w *)
  Theorem model_forest_is_spec :
    r_out (fst ires) = Accept \/ r_out (fst ires) = RejectEOF ->
    forall lbl f, in_forest tok (snd ires) lbl f <-> added lbl f.
  Proof.
    intros Ho lbl f. unfold in_forest. split.
    - intros H. apply (families_sound (lbl, f) H).
    - apply families_complete; auto.
  Qed.

  Variable occurs : tok -> nat -> bool.
  Hypothesis occurs_spec : forall x i, occurs x i = true <-> nth_error w i = Some x.

  Theorem model_forest_exact :
    r_out (fst ires) = Accept \/ r_out (fst ires) = RejectEOF ->
    forall ds, den tok (in_forest tok (snd ires)) (NSym tok start 0 (length w)) ds
               <-> exists d, ds = [d] /\ wfd G tok tmatch d (NT start) /\ yield tok d = w.
  Proof.
    intros Ho ds. rewrite <- (A_exact_chart G tok tmatch w start occurs occurs_spec). split; apply den_mono;
      intros lbl f; apply model_forest_is_spec; auto.
  Qed.

  (* whenever a derivation tree of w exists the run accepts (C01) and its forest contains the tree *)
  Theorem model_forest_complete d :
    wfd G tok tmatch d (NT start) -> yield tok d = w ->
    r_out (fst ires) = Accept /\ den tok (in_forest tok (snd ires)) (NSym tok start 0 (length w)) [d].
  Proof.
    intros Hw Hy.
    assert (Hacc : r_out (fst ires) = Accept).
    { rewrite erasure.
      assert (Hd : derives G tok tmatch [NT start] w).
      { rewrite <- Hy. apply (wfd_derives G tok tmatch d _ Hw). }
      apply (accepts_iff_sentence_gen G predictions tok tmatch start w pred_sound pred_direct) in Hd.
      unfold accepts in Hd. destruct (r_out (parse G predictions tok tmatch start w)); auto; discriminate. }
    split; auto. apply model_forest_exact; eauto.
  Qed.
End Families.

(* lark's basic-lexer configuration: tokens are terminal ids, predictions = expand_rule *)
Section IBasic.
  Variable G : grammar.
  Variable start : nat.
  Variable toks : list nat.

  Definition occurs_nat (x i : nat) : bool :=
    match nth_error toks i with Some y => Nat.eqb x y | None => false end.
  Lemma occurs_nat_spec x i : occurs_nat x i = true <-> nth_error toks i = Some x.
  Proof.
    unfold occurs_nat. destruct (nth_error toks i) as [y|]; split; try discriminate.
    - intros H. apply Nat.eqb_eq in H. subst; auto.
    - intros H. inversion H. apply Nat.eqb_refl.
  Qed.

  Notation ires := (iearley_parse G start toks).

  Theorem iearley_erasure : fst ires = earley_parse G start toks.
  Proof. apply erasure. Qed.

  Theorem iearley_families_sound f : In f (snd ires) -> added G nat Nat.eqb toks start (fst f) (snd f).
  Proof. apply (families_sound G (pred_lookup G (pred_table G)) nat Nat.eqb start toks (pred_lookup_sound G) (pred_lookup_direct G)). Qed.

  Theorem iearley_families_complete lbl f :
    r_out (fst ires) = Accept \/ r_out (fst ires) = RejectEOF ->
    added G nat Nat.eqb toks start lbl f -> In (lbl, f) (snd ires).
  Proof. apply (families_complete G (pred_lookup G (pred_table G)) nat Nat.eqb start toks (pred_lookup_sound G) (pred_lookup_direct G)). Qed.

  Theorem iearley_forest_exact :
    r_out (fst ires) = Accept \/ r_out (fst ires) = RejectEOF ->
    forall ds, den nat (in_forest nat (snd ires)) (NSym nat start 0 (length toks)) ds
               <-> exists d, ds = [d] /\ wfd G nat Nat.eqb d (NT start) /\ yield nat d = toks.
  Proof.
    apply (model_forest_exact G (pred_lookup G (pred_table G)) nat Nat.eqb start toks (pred_lookup_sound G) (pred_lookup_direct G) occurs_nat occurs_nat_spec).
  Qed.

  Theorem iearley_forest_complete d :
    wfd G nat Nat.eqb d (NT start) -> yield nat d = toks ->
    r_out (fst ires) = Accept /\ den nat (in_forest nat (snd ires)) (NSym nat start 0 (length toks)) [d].
  Proof.
    apply (model_forest_complete G (pred_lookup G (pred_table G)) nat Nat.eqb start toks (pred_lookup_sound G) (pred_lookup_direct G) occurs_nat occurs_nat_spec).
  Qed.
End IBasic.
