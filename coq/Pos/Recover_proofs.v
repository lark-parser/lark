(* Forks and on_error recovery keep exact coordinates (C06); Token position plumbing. *)
From Coq Require Import ZArith List Bool Lia String.
From LV Require Import Pos.PosBase Gen.LineCounter Gen.LexStep Gen.CounterCopy Gen.TokenFields Pos.Coord
  Pos.LineCounter_proofs Pos.LexCoords Pos.LexCoords_proofs Pos.Current Pos.Recover.
Import ListNotations.
Local Open Scope Z_scope.

(* regenerated-file lemmas: they stop compiling when the copy drops a slot, when a slot is added that the
   model does not know, or when the recovery step stops being feed(text[p:p+1]) with newline counting *)
Lemma fork_keeps_counter c : lc_copy c = c.
Proof. destruct c; reflexivity. Qed.

Lemma fork_keeps_newline_char : lc_copy_keeps_newline_char = true.
Proof. reflexivity. Qed.

Lemma slots_modelled : lc_slots = ["char_pos"; "line"; "column"; "line_start_pos"; "newline_char"]%string.
Proof. reflexivity. Qed.

Lemma recover_bounds p : recover_lo p = p /\ recover_hi p = p + 1 /\ recover_test_newline = true.
Proof. repeat split; reflexivity. Qed.

Lemma token_slots_modelled :
  token_slots = ["type"; "start_pos"; "value"; "line"; "column"; "end_line"; "end_column"; "end_pos"]%string.
Proof. reflexivity. Qed.

Section Tok.
Context {A term : Type}.
Lemma borrow_keeps_positions (ty : term) (v : list A) (t : token A term) :
  let b := borrow_pos ty v t in
  t_type b = ty /\ t_value b = v /\ t_start b = t_start t /\ t_line b = t_line t /\ t_column b = t_column t /\
  t_end_line b = t_end_line t /\ t_end_column b = t_end_column t /\ t_end_pos b = t_end_pos t.
Proof. repeat split; reflexivity. Qed.

Lemma update_keeps_positions oty ov (t : token A term) :
  let b := tok_update oty ov t in
  t_start b = t_start t /\ t_line b = t_line t /\ t_column b = t_column t /\
  t_end_line b = t_end_line t /\ t_end_column b = t_end_column t /\ t_end_pos b = t_end_pos t /\
  (oty = None -> t_type b = t_type t) /\ (ov = None -> t_value b = t_value t).
Proof. repeat split; try reflexivity; intros ->; reflexivity. Qed.

Lemma deepcopy_id (t : token A term) : tok_deepcopy t = t.
Proof. destruct t; reflexivity. Qed.
Lemma reduce_id (t : token A term) : tok_reduce t = t.
Proof. destruct t; reflexivity. Qed.
End Tok.

Lemma uc_fields_id p l c : uc_fields p l c = (p, l, c).
Proof. reflexivity. Qed.

Section RecoverCoords.
Context {A : Type} (eqb : A -> A -> bool) (nl : A) {term : Type}.
Variable scan : list term -> list A -> Z -> Z -> option (nat * term).
Variable ignore : term -> bool.
Variable newline_types : term -> bool.

Lemma recover_skip_tracks_coord (T : list A) (p : nat) c :
  (p < List.length T)%nat -> at_coord eqb nl T p c -> at_coord eqb nl T (p + 1) (recover_skip eqb nl T c).
Proof.
  intros Hp Hc. unfold recover_skip. destruct (recover_bounds (char_pos c)) as (-> & -> & ->).
  destruct Hc as (Hcp & Hrest). rewrite Hcp. change 1 with (Z.of_nat 1). rewrite slice_len.
  apply feed_tracks_coord; [lia|split; assumption|left; reflexivity].
Qed.

Definition event_ok (T : list A) (lo hi : nat) (ev : event (A:=A) (term:=term)) : Prop :=
  match ev with
  | EvTok t => tok_ok eqb nl T lo hi t
  | EvErr p l c => outcome_ok eqb nl T lo hi (Unexpected p l c)
  end.

Section Window.
Variable T : list A.
Variable e : nat.
Hypothesis e_le : (e <= List.length T)%nat.
Hypothesis scan_bounded : forall h (p n : nat) ty,
  scan h T (Z.of_nat p) (Z.of_nat e) = Some (n, ty) -> (p + n <= e)%nat.

Lemma lex_loop_rec_ok (a : nat) fuel : forall hist (p : nat) c evs ok,
  (a <= p <= e)%nat -> at_coord eqb nl T p c ->
  lex_loop_rec eqb nl scan ignore newline_types fuel hist T (Z.of_nat e) c = (evs, ok) ->
  Forall (event_ok T a e) evs.
Proof.
  induction fuel as [|f IH]; intros hist p c evs ok Hp Hc; cbn [lex_loop_rec].
  - intros [= <- <-]. constructor.
  - pose proof (lex_step_ok eqb nl scan ignore newline_types T e e_le scan_bounded (testnl_void eqb nl scan newline_types T e) hist p c (proj2 Hp) Hc) as S.
    destruct (lex_step eqb nl scan ignore newline_types hist T (Z.of_nat e) c) as [|c0|c'|t c'].
    + intros [= <- <-]. constructor.
    + destruct S as (-> & Hlt).
      assert (Hc' : at_coord eqb nl T (p + 1) (recover_skip eqb nl T c))
        by (apply recover_skip_tracks_coord; [lia|exact Hc]).
      destruct (lex_loop_rec eqb nl scan ignore newline_types f hist T (Z.of_nat e) _) as [evs' ok'] eqn:E.
      intros [= <- <-]. constructor; [|exact (IH hist (p + 1)%nat _ evs' ok' ltac:(lia) Hc' E)].
      destruct Hc as (Hcp & Hln & Hcol & _). cbn [event_ok outcome_ok].
      exists p. split; [exact Hcp|]. split; [lia|]. unfold coord. congruence.
    + destruct S as (n & Hn & Hc'). apply (IH hist (p + n)%nat c' evs ok); [lia|exact Hc'].
    + destruct S as (n & Hn & Hc' & _ & _ & Hok).
      destruct (lex_loop_rec eqb nl scan ignore newline_types f _ T (Z.of_nat e) c') as [evs' ok'] eqn:E.
      intros [= <- <-]. constructor; [apply Hok; lia|].
      exact (IH _ (p + n)%nat c' evs' ok' ltac:(lia) Hc' E).
Qed.

(* on_error recovery: every token lexed after any number of skipped characters - newlines included - and every
   reported error position carry exact coordinates *)
Theorem lexer_coords_recovering (a : nat) snap evs ok :
  (a <= e)%nat ->
  (snap = None \/ snap = Some (line_of eqb nl T a, line_start_of eqb nl T a)) ->
  lex_slice_rec eqb nl scan ignore newline_types T (Z.of_nat a) (Z.of_nat e) snap = (evs, ok) ->
  Forall (event_ok T a e) evs.
Proof.
  intros Ha Hs. unfold lex_slice_rec. apply lex_loop_rec_ok with (p := a); [lia|].
  apply from_text_slice_coord; [lia|exact Hs].
Qed.

(* fork: the copy of a counter standing at exact coordinates lexes tokens with exact coordinates *)
Theorem lexer_coords_fork fuel hist (p : nat) c ts o :
  (p <= e)%nat -> at_coord eqb nl T p c ->
  lex_fork eqb nl scan ignore newline_types fuel hist T (Z.of_nat e) c = (ts, o) ->
  Forall (tok_ok eqb nl T p e) ts /\ chain (Z.of_nat p) ts /\ outcome_ok eqb nl T p e o.
Proof.
  intros Hp Hc. unfold lex_fork. rewrite fork_keeps_counter.
  apply (lex_loop_ok eqb nl scan ignore newline_types T e e_le scan_bounded (testnl_void eqb nl scan newline_types T e)); [lia|exact Hc].
Qed.

End Window.
End RecoverCoords.
