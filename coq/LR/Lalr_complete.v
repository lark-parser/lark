(* Completeness of the model LALR parser for conflict-free tables:
   the model driver, run on the model table of a grammar whose table has no shift/reduce and no
   reduce/reduce conflict, accepts every sentence.  The driver is shown to follow any derivation
   tree of the sentence (children left to right, then the reduction), the right action being
   present by La_complete.v and being the only one by conflict-freedom. *)
From Coq Require Import List Arith Bool ZArith Lia.
From LV Require Import Cfg.Grammar LR.Driver LR.Driver_proofs LR.Automaton LR.Automaton_proofs
     LR.Automaton_wf LR.Automaton_la LR.Automaton_complete LR.La_complete.
Import ListNotations.

Lemma derives_forest rules ss w :
  derives rules nat (tmatch nat (fun k => k)) ss w ->
  exists cs, wf_forest nat (fun k => k) rules cs /\ map (root nat (fun k => k)) cs = ss /\
             flat_map (yield nat) cs = w.
Proof.
  induction 1 as [| t k ss w Hm Hd IH | a r ss w1 w2 Hin Hl Hd1 IH1 Hd2 IH2].
  - exists []. repeat split. constructor.
  - destruct IH as (cs & Hw & Hr & Hy). exists (Leaf k :: cs). unfold tmatch in Hm. apply Nat.eqb_eq in Hm.
    repeat split; simpl; try congruence. constructor; simpl; auto.
  - destruct IH1 as (cs1 & Hw1 & Hr1 & Hy1). destruct IH2 as (cs2 & Hw2 & Hr2 & Hy2).
    exists (Node r cs1 :: cs2). repeat split; simpl; try congruence.
    constructor; auto. apply wf_node_iff. auto.
Qed.

Definition conflict_free (A : lr0) (LA : list (nat * nat * nat)) : Prop :=
  forall q s, In s (la_terms LA q) -> trans A q (T s) = None /\ length (la_rules LA q s) <= 1.

Section Steps.
  Variable P : ptable.
  Notation cfg := (config nat).
  Notation act := (pt_action P).

  Inductive rstep (a : nat) : cfg -> cfg -> Prop :=
  | rstep_intro q ss vs r q2 ss2 q3 :
      act q (T a) = Some (Reduce r) ->
      skipn (length (rhs r)) (q :: ss) = q2 :: ss2 ->
      act q2 (NT (lhs r)) = Some (Shift q3) ->
      rstep a (mkConfig (q :: ss) vs)
              (mkConfig (q3 :: q2 :: ss2)
                        (Node r (rev (firstn (length (rhs r)) vs)) :: skipn (length (rhs r)) vs)).

  Inductive rsteps (a : nat) : cfg -> cfg -> Prop :=
  | rs_refl c : rsteps a c c
  | rs_step c c1 c2 : rstep a c c1 -> rsteps a c1 c2 -> rsteps a c c2.

  Lemma rsteps_trans a c1 c2 c3 : rsteps a c1 c2 -> rsteps a c2 c3 -> rsteps a c1 c3.
  Proof. induction 1; auto. intros. econstructor; eauto. Qed.

  Lemma rsteps_snoc a c1 c2 c3 : rsteps a c1 c2 -> rstep a c2 c3 -> rsteps a c1 c3.
  Proof. intros H1 H2. eapply rsteps_trans; eauto. econstructor; eauto. constructor. Qed.

  Lemma rstep_node a r cs ps q ss vs q' :
    length ps = length cs -> length (rhs r) = length cs ->
    act (hd q ps) (T a) = Some (Reduce r) -> act q (NT (lhs r)) = Some (Shift q') ->
    rstep a (mkConfig (ps ++ q :: ss) (rev cs ++ vs)) (mkConfig (q' :: q :: ss) (Node r cs :: vs)).
  Proof.
    intros Hlen Hlr Hact Hg.
    assert (Hps : exists ps', ps ++ q :: ss = hd q ps :: ps') by (destruct ps; simpl; eauto).
    destruct Hps as (ps' & Eps).
    pose proof (rstep_intro a (hd q ps) ps' (rev cs ++ vs) r q ss q' Hact) as Hst.
    rewrite <- Eps, Hlr, (skipn_app_len ps _ _ Hlen), firstn_rev_app, skipn_rev_app, rev_involutive in Hst.
    now apply Hst.
  Qed.

  Definition top (c : cfg) : nat := hd 0 (sstack c).

  (* feed the tokens of w (reductions, then a shift, for each), then reduce under look-ahead a *)
  Inductive run : cfg -> list nat -> nat -> cfg -> Prop :=
  | run_nil c a c' : rsteps a c c' -> run c [] a c'
  | run_cons c k w a c1 q ss q' c' :
      rsteps k c c1 -> sstack c1 = q :: ss -> act q (T k) = Some (Shift q') ->
      run (mkConfig (q' :: q :: ss) (Leaf k :: vstack c1)) w a c' ->
      run c (k :: w) a c'.

  Lemma run_app c w1 b c1 : run c w1 b c1 -> forall w2 a c2, run c1 w2 a c2 -> b = hd a w2 -> run c (w1 ++ w2) a c2.
  Proof.
    induction 1 as [c b c1 Hs | c k w b c1 q ss q' c' Hs Hst Ha Hr IH]; intros w2 a c2 H2 Hb; simpl.
    - destruct H2 as [c1' a c2 Hs2 | c1' k w a c1'' q ss q' c2 Hs2 Hst Ha Hr]; simpl in Hb; subst b.
      + constructor. eapply rsteps_trans; eauto.
      + apply run_cons with (c1 := c1'') (q := q) (ss := ss) (q' := q'); auto. eapply rsteps_trans; eauto.
    - apply run_cons with (c1 := c1) (q := q) (ss := ss) (q' := q'); auto.
  Qed.

  Lemma run_snoc c w a c1 : run c w a c1 -> forall c2, rstep a c1 c2 -> run c w a c2.
  Proof.
    induction 1 as [c a c1 Hs | c k w a c1 q ss q' c' Hs Hst Ha Hr IH]; intros c2 Hc2.
    - constructor. eapply rsteps_snoc; eauto.
    - apply run_cons with (c1 := c1) (q := q) (ss := ss) (q' := q'); auto.
  Qed.

  Notation feed := (feed nat (fun k => k) P).

  (* one reduce step is one iteration of feed_token's loop *)
  Lemma feed_rstep a c c1 : rstep a c c1 -> forall f e,
    feed (S f) c a e = if e && Nat.eqb (top c1) (pt_end P) then Accepted (hd (Leaf a) (vstack c1))
                       else feed f c1 a e.
  Proof.
    intros [q0 ss0 vs0 r q2 ss2 q3 Hr Hsk Hg] f e. simpl. rewrite Hr. simpl in Hsk. now rewrite Hsk, Hg.
  Qed.

  Lemma feed_shift a c c1 : rsteps a c c1 -> forall q ss q', sstack c1 = q :: ss ->
    act q (T a) = Some (Shift q') -> q' <> pt_end P ->
    exists f, forall f', f <= f' ->
      feed f' c a false = Shifted (mkConfig (q' :: q :: ss) (Leaf a :: vstack c1)).
  Proof.
    induction 1 as [c | c c1 c2 Hst Hs IH]; intros q ss q' Hss Ha Hne.
    - exists 1. intros f' Hf. destruct f' as [|f']; [lia|]. simpl. rewrite Hss, Ha.
      destruct (Nat.eqb_spec q' (pt_end P)); [contradiction|reflexivity].
    - destruct (IH q ss q' Hss Ha Hne) as (f & Hf). exists (S f). intros f' Hf'.
      destruct f' as [|f']; [lia|]. rewrite (feed_rstep _ _ _ Hst). apply Hf. lia.
  Qed.

  (* with is_end set, reductions that lead from a state other than the end state into the end state
     are accepted at the first goto that enters it *)
  Lemma feed_accept a c c2 : rsteps a c c2 -> top c <> pt_end P -> top c2 = pt_end P ->
    exists f, forall f', f <= f' -> exists t, feed f' c a true = Accepted t.
  Proof.
    induction 1 as [c | c c1 c2 Hst Hs IH]; intros Hc Ht; [contradiction|].
    destruct (Nat.eqb_spec (top c1) (pt_end P)) as [E|E].
    - exists 1. intros [|f'] Hf; [lia|]. rewrite (feed_rstep _ _ _ Hst).
      rewrite (proj2 (Nat.eqb_eq _ _) E). simpl. eauto.
    - destruct (IH E Ht) as (f & Hf). exists (S f). intros [|f'] Hf'; [lia|].
      rewrite (feed_rstep _ _ _ Hst), (proj2 (Nat.eqb_neq _ _) E). simpl. apply Hf. lia.
  Qed.

  Notation feed_all := (feed_all nat (fun k => k) P).

  Lemma run_feed_all c w a c' : run c w a c' ->
    (forall q k q', act q (T k) = Some (Shift q') -> q' <> pt_end P) -> top c <> pt_end P ->
    exists c1 f, (forall f', f <= f' -> feed_all f' c w = Shifted c1) /\ rsteps a c1 c' /\ top c1 <> pt_end P.
  Proof.
    intros H Hne. induction H as [c a c' Hs | c k w a c1 q ss q' c' Hs Hst Ha Hr IH]; intros Ht.
    - exists c, 0. repeat split; auto.
    - destruct (feed_shift k c c1 Hs q ss q' Hst Ha (Hne _ _ _ Ha)) as (f1 & Hf1).
      destruct IH as (c2 & f2 & Hf2 & Hs2 & Ht2).
      { unfold top. simpl. eapply Hne; eauto. }
      exists c2, (max f1 f2). repeat split; auto. intros f' Hf. simpl.
      rewrite Hf1 by lia. apply Hf2. lia.
  Qed.
End Steps.

Section Model.
  Variable rules : list rule.
  Variable prio : list Z.
  Variable tEND fuel : nat.
  Variable A : lr0.
  Variable rel : relations.
  Variable LA : list (nat * nat * nat).
  Variable R : rows.
  Variable r0 rootnt start qe : nat.
  Hypothesis HT : compute_lalr rules prio [r0] tEND fuel = ATable A rel LA R.
  Hypothesis Hv : r0 < length rules.
  Hypothesis Hr0 : rule_at rules r0 = mkRule rootnt [NT start].
  Hypothesis fresh : forall r, In r rules -> ~ In (NT rootnt) (rhs r).
  Hypothesis Hqe : end_state rules [r0] A 0 = Some qe.
  Hypothesis CF : conflict_free A LA.

  Notation P := (model_ptable R 0 qe).
  Notation act := (pt_action P).
  Notation rule_at := (rule_at rules).
  Notation nts := (nt_transitions rules A).
  Notation FollowOf := (FollowOf rules tEND A r0).
  Notation wf_tree := (wf_tree nat (fun k => k) rules).
  Notation wf_forest := (wf_forest nat (fun k => k) rules).
  Notation root := (root nat (fun k => k)).
  Notation yield := (yield nat).
  Notation tsize := (tsize nat).

  Let HB : build_lr0 rules [r0] fuel = Some A := ATable_built HT.
  Let ND := NoDup_one r0.

  Lemma LA_eq : LA = la_triples (compute_relations rules [r0] tEND A).
  Proof. destruct (ATable_inv HT) as (_ & E1 & E2 & _). now rewrite E2, E1. Qed.

  Lemma act_eq q X : q < nstates A -> act q X = assoc_sym X (row rules prio A LA q).
  Proof.
    intros Hq. rewrite (action_row HT). apply Nat.ltb_lt in Hq. now rewrite Hq.
  Qed.

  Lemma act_shift q X q' : trans A q X = Some q' -> act q X = Some (Shift q').
  Proof.
    intros H. destruct (trans_spec HB ND _ _ _ H) as (Hq & _).
    rewrite act_eq by exact Hq. now apply shift_preferred.
  Qed.

  Lemma assoc_reduce_entries q a i :
    In a (la_terms LA q) -> decide prio (la_rules LA q a) = Use i ->
    mem_sym (T a) (map fst (trans_of A q)) = false ->
    assoc_sym (T a) (reduce_entries rules prio A LA q) = Some (Reduce (rule_at i)).
  Proof.
    intros Ha Hd Hm. unfold reduce_entries.
    induction (la_terms LA q) as [|s l IH]; [contradiction|]. simpl.
    destruct (Nat.eq_dec s a) as [->|Hne].
    - rewrite Hd, Hm. simpl. now rewrite Nat.eqb_refl.
    - destruct Ha as [Ha|Ha]; [contradiction|].
      rewrite assoc_sym_app.
      assert (E : assoc_sym (T a) (match decide prio (la_rules LA q s) with
                                   | Use r => if mem_sym (T s) (map fst (trans_of A q)) then []
                                              else [(T s, Reduce (rule_at r))]
                                   | Collision => [] end) = None).
      { destruct (decide prio (la_rules LA q s)); auto.
        destruct (mem_sym (T s) (map fst (trans_of A q))); auto; simpl;
          destruct (Nat.eqb_spec a s); try congruence; reflexivity. }
      rewrite E. auto.
  Qed.

  Lemma act_reduce q a i : q < nstates A -> In (q, a, i) LA -> act q (T a) = Some (Reduce (rule_at i)).
  Proof.
    intros Hq HLA. rewrite act_eq by exact Hq.
    assert (Ha : In a (la_terms LA q)) by (apply la_terms_In; eauto).
    apply la_rules_In in HLA.
    destruct (CF q a Ha) as (Hnt & Hlen).
    assert (El : la_rules LA q a = [i]).
    { destruct (la_rules LA q a) as [|x [|y l]]; simpl in *; try lia; try contradiction.
      destruct HLA as [->|[]]. reflexivity. }
    unfold row. rewrite assoc_sym_app, assoc_shift_entries.
    unfold trans in Hnt. rewrite Hnt. simpl.
    apply assoc_reduce_entries; auto.
    - now rewrite El.
    - now apply assoc_trans_mem.
  Qed.

  Lemma trans_item q X q' : trans A q X = Some q' ->
    q < nstates A /\ exists it, In it (closure_of A q) /\ next_sym rules it = Some X.
  Proof.
    intros H. destruct (trans_spec HB ND _ _ _ H) as (Hq & HX & _). split; auto.
    now apply next_syms_In.
  Qed.

  Definition follows (t : dtree nat) : Prop :=
    wf_tree t -> forall q ss vs b q',
      trans A q (root t) = Some q' ->
      (forall r cs, t = Node r cs -> FollowOf (q, lhs r) b) ->
      run P (mkConfig (q :: ss) vs) (yield t) b (mkConfig (q' :: q :: ss) (t :: vs)).

  Lemma sim_forest a y i :
    In y nts -> In (i, 0) (closure_of A (fst y)) -> lhs (rule_at i) = snd y -> FollowOf y a ->
    forall cs, Forall follows cs -> wf_forest cs ->
    forall pre q ss vs, rhs (rule_at i) = pre ++ map root cs -> goto_star A (fst y) pre = Some q ->
    exists ps, length ps = length cs /\
               run P (mkConfig (q :: ss) vs) (flat_map yield cs) a (mkConfig (ps ++ q :: ss) (rev cs ++ vs)) /\
               goto_star A q (map root cs) = Some (hd q ps).
  Proof.
    intros Hy Hit Hl HF cs. induction cs as [|c cs IH]; intros Hcs Hw pre q ss vs Er Hg.
    - exists []. repeat split. simpl. constructor. constructor.
    - inversion Hw as [|? ? Hwc Hwcs]; inversion Hcs as [|? ? Hc Hcs']; subst. simpl in Er.
      destruct (item_after HB i pre (root c) (map root cs) (fst y) q Hit Er Hg) as (Hitq & Hn).
      destruct (item_trans HB _ _ _ Hitq Hn) as (q1 & Hq1).
      assert (Hrun1 : run P (mkConfig (q :: ss) vs) (yield c) (hd a (flat_map yield cs))
                          (mkConfig (q1 :: q :: ss) (c :: vs))).
      { apply Hc; auto. intros r' csc ->. simpl in *.
        apply (la_complete_child rules tEND fuel A r0 HB y i pre (lhs r') (map root cs) q a cs); auto. }
      destruct (IH Hcs' Hwcs (pre ++ [root c]) q1 (q :: ss) (c :: vs)) as (ps & Hlen & Hrun2 & Hg2).
      { rewrite <- app_assoc. exact Er. }
      { rewrite goto_star_app, Hg. simpl. now rewrite Hq1. }
      exists (ps ++ [q1]). split; [rewrite app_length; simpl; lia|]. split.
      + simpl. rewrite <- !app_assoc. simpl. eapply run_app; eauto.
      + simpl. rewrite Hq1, hd_snoc. exact Hg2.
  Qed.

  Lemma sim_tree t : follows t.
  Proof.
    induction t as [k|r cs IH] using (dtree_ind' nat); intros Hw q ss vs b q' Ht HF.
    - simpl. apply run_cons with (c1 := mkConfig (q :: ss) vs) (q := q) (ss := ss) (q' := q').
      + constructor.
      + reflexivity.
      + now apply act_shift.
      + simpl. constructor. constructor.
    - apply wf_node_iff in Hw. destruct Hw as (Hin & Hr & Hwcs).
      destruct (rule_index rules r Hin) as (i & Hi & Ei).
      destruct (trans_item _ _ _ Ht) as (Hq & it & Hit & Hn). simpl in Hn.
      assert (Hy : In (q, lhs r) nts) by (apply (nts_In HB); eauto).
      assert (Hi0 : In (i, 0) (closure_of A q)).
      { eapply (predicted rules fuel A r0 HB); eauto. now rewrite Ei. }
      destruct (sim_forest b (q, lhs r) i Hy Hi0 (f_equal lhs Ei) (HF r cs eq_refl) cs IH Hwcs)
        with (pre := @nil symbol) (q := q) (ss := ss) (vs := vs) as (ps & Hlen & Hrun & Hg); auto.
      { simpl. now rewrite Ei, Hr. }
      assert (Hlr : length (rhs r) = length cs) by (rewrite <- Hr; apply map_length).
      assert (HLA : In (hd q ps, b, i) LA).
      { rewrite LA_eq. apply (la_complete_reduce rules tEND fuel A r0 HB (q, lhs r) i (hd q ps) b); auto.
        - simpl. now rewrite Ei.
        - simpl. now rewrite Ei, <- Hr.
        - exact (HF r cs eq_refl). }
      assert (Hqn : hd q ps < nstates A).
      { rewrite LA_eq in HLA. destruct (la_triples_lookback _ _ _ _ _ _ _ HLA) as (x & _ & Hlb).
        apply lookback_In in Hlb. exact (item_state_lt HB ND _ _ (proj2 (proj2 Hlb))). }
      pose proof (act_reduce _ _ _ Hqn HLA) as Hact. rewrite Ei in Hact.
      simpl yield. eapply run_snoc; [exact Hrun|]. apply rstep_node; auto. now apply act_shift.
  Qed.

  Lemma sim n : forall t, tsize t <= n -> wf_tree t -> forall q ss vs b q',
    trans A q (root t) = Some q' ->
    (forall r cs, t = Node r cs -> FollowOf (q, lhs r) b) ->
    run P (mkConfig (q :: ss) vs) (yield t) b (mkConfig (q' :: q :: ss) (t :: vs)).
  Proof using HT Hv CF. intros t _. apply sim_tree. Qed.

  (* the end state is the goto of the start state on [start]: its kernel holds (r0, 1), which only
     a goto from a state with the root item can produce, and that state is the start state *)
  Lemma goto_end : trans A 0 (NT start) = Some qe.
  Proof.
    pose proof (root_item0 HB) as H00.
    pose proof (root_next_sym rules _ _ _ Hr0) as Hn0.
    destruct (item_trans HB _ _ _ H00 Hn0) as (q' & Hq').
    destruct (trans_spec HB ND _ _ _ Hq') as (_ & _ & Hkq').
    destruct (end_state_kernel HB ND 0 r0 qe eq_refl) as (Ke & HKe & Hit); auto.
    { rewrite Hr0. discriminate. }
    rewrite Hr0 in Hit. simpl in Hit.
    destruct (built_shape HB ND) as (_ & _ & _ & Hrk & _).
    destruct (rk_cases _ _ _ _ (Hrk Ke (nth_error_In _ _ HKe))) as [(r & _ & ->)|(_ & K0 & X & HK0 & ->)].
    - destruct Hit as [Hit|[]]. discriminate.
    - apply goto_kernel_In in Hit. destruct Hit as (d' & Hd & Hcl & Hnx). simpl in Hd, Hcl, Hnx.
      inversion Hd; subst d'. rewrite Hn0 in Hnx. inversion Hnx; subst X.
      rewrite (root_item_kernel HB ND r0 rootnt start K0 Hr0 fresh HK0 Hcl) in HKe.
      rewrite (closure_of_kernel HB ND 0 [(r0, 0)]) in Hkq'
        by (now apply (root_kernel_at HB ND 0 r0)).
      now rewrite (kernel_inj HB ND _ _ _ HKe Hkq').
  Qed.

  Lemma WIm : wf_items rules P start (model_items rules A).
  Proof.
    apply (model_wf_items rules prio [r0] tEND fuel A rel LA R HT ND) with (r0 := r0) (rootnt := rootnt); auto.
    intros r [<-|[]]. exact Hv.
  Qed.

  Lemma shift_not_end q k q' : act q (T k) = Some (Shift q') -> q' <> pt_end P.
  Proof.
    intros Ha E. simpl in E. subst q'. destruct (wi_end _ _ _ _ WIm _ _ Ha) as (_ & E). discriminate.
  Qed.

  Lemma sentence_run w : derives rules nat (tmatch nat (fun k => k)) [NT start] w ->
    exists t, run P (mkConfig [0] []) w tEND (mkConfig [qe; 0] [t]).
  Proof.
    intros Hd. destruct (derives_forest rules _ _ Hd) as (cs & Hw & Hr & Hy).
    destruct cs as [|t [|t2 cs]]; try discriminate. simpl in Hr, Hy. rewrite app_nil_r in Hy.
    inversion Hr as [Hrt]. inversion Hw as [|? ? Hwt _]; subst. exists t.
    apply sim_tree; auto.
    - rewrite Hrt. exact goto_end.
    - intros r cs ->. simpl in Hrt. inversion Hrt as [E]. rewrite E.
      exact (follow_root HB rootnt start Hr0).
  Qed.

  Theorem model_complete w :
    derives rules nat (tmatch nat (fun k => k)) [NT start] w ->
    exists f t, parse nat (fun k => k) P f w tEND = Accepted t.
  Proof.
    intros Hd. destruct (sentence_run w Hd) as (t & Hrun).
    assert (Htop : top (mkConfig [0] (@nil (dtree nat))) <> pt_end P).
    { unfold top. simpl. intros E. apply (trans_not_root HB ND 0 (NT start) 0 r0 eq_refl).
      pose proof goto_end as Hg. now rewrite <- E in Hg. }
    destruct (run_feed_all P _ _ _ _ Hrun shift_not_end Htop) as (c1 & f1 & Hf1 & Hs & Ht1).
    destruct (feed_accept P tEND _ _ Hs Ht1 eq_refl) as (f2 & Hf2).
    destruct (Hf2 (max f1 f2)) as (t' & Ht'); [lia|].
    exists (max f1 f2), t'. unfold parse. change (init_config P) with (mkConfig [0] (@nil (dtree nat))).
    rewrite Hf1 by lia. exact Ht'.
  Qed.
End Model.

Theorem model_complete_user (G : grammar) (prio : list Z) (rootnt start tEND fuel : nat)
        (A : lr0) (rel : relations) (LA : list (nat * nat * nat)) (R : rows) (qe : nat) (w : list nat) :
  compute_lalr (G ++ [mkRule rootnt [NT start]]) prio [length G] tEND fuel = ATable A rel LA R ->
  (forall r, In r G -> ~ In (NT rootnt) (rhs r)) -> start <> rootnt ->
  end_state (G ++ [mkRule rootnt [NT start]]) [length G] A 0 = Some qe ->
  conflict_free A LA ->
  derives G nat (tmatch nat (fun k => k)) [NT start] w ->
  exists f t, parse nat (fun k => k) (ptable_of_rows R 0 qe) f w tEND = Accepted t.
Proof.
  intros HT Hfresh Hne Hqe CF Hd.
  apply (model_complete _ prio tEND fuel A rel LA R (length G) rootnt start qe HT
           (user_root_lt G rootnt start) (user_root_rule G rootnt start) (user_fresh G rootnt start Hfresh Hne) Hqe CF w).
  eapply derives_incl; [apply user_incl|exact Hd].
Qed.

Definition conflict_free_b (A : lr0) (LA : list (nat * nat * nat)) : bool :=
  forallb (fun t : nat * nat * nat =>
             let '(q, s, _) := t in
             match trans A q (T s) with None => true | Some _ => false end &&
             Nat.leb (length (la_rules LA q s)) 1) LA.

Lemma conflict_free_b_sound A LA : conflict_free_b A LA = true -> conflict_free A LA.
Proof.
  intros H q s Hs. apply la_terms_In in Hs. destruct Hs as (r & Hin).
  unfold conflict_free_b in H. rewrite forallb_forall in H. specialize (H _ Hin). simpl in H.
  apply andb_true_iff in H. destruct H as (H1 & H2). apply Nat.leb_le in H2. split; auto.
  destruct (trans A q (T s)); [discriminate|reflexivity].
Qed.
