(* C14 - proofs about the scan-loop model Scan/Scan.v. *)
From Coq Require Import List Arith Bool Lia.
From LV Require Import Gen.ScanHoles Scan.Scan.
Import ListNotations.

(* facts about the regenerated constants: if lark's source changes them, these break *)
Lemma fail_step_is_1 : scan_fail_step = 1. Proof. reflexivity. Qed.
Lemma longest_init_is_0 : scan_longest_init = 0. Proof. reflexivity. Qed.
Lemma after_nl_is_1 : lc_after_nl = 1. Proof. reflexivity. Qed.
Lemma lc_init_is : (lc_init_pos, lc_init_line, lc_init_lsp) = (0, 1, 0). Proof. reflexivity. Qed.

Lemma last_cons {A} (t : A) r d : last (t :: r) d = last r t.
Proof.
  revert t d. induction r as [|x r IH]; intros t d; [reflexivity|].
  change (last (t :: x :: r) d) with (last (x :: r) d).
  rewrite (IH x d), (IH x t). reflexivity.
Qed.

Lemma last_In {A} (r : list A) : forall t, In (last r t) (t :: r).
Proof. induction r as [|x r IH]; intros t; [left; reflexivity|]. rewrite (last_cons x r t). right. apply IH. Qed.

Lemma filter_cons_split {A} (f : A -> bool) l x r :
  filter f l = x :: r ->
  exists pre post, l = pre ++ x :: post /\ Forall (fun y => f y = false) pre /\ f x = true /\ filter f post = r.
Proof.
  induction l as [|y l IH]; cbn [filter]; [discriminate|].
  destruct (f y) eqn:Fy; intros E.
  - injection E as -> <-. exists [], l. repeat split; auto.
  - destruct (IH E) as (pre & post & -> & Hpre & Hx & Hpost).
    exists (y :: pre), post. repeat split; auto.
Qed.

Lemma firstn_app_exact {A} (l1 l2 : list A) : firstn (length l1) (l1 ++ l2) = l1.
Proof. induction l1; cbn; [destruct l2; reflexivity | f_equal; assumption]. Qed.

Section LineCounterProofs.
  Variable isnl : nat -> bool.
  Notation count_nl := (count_nl isnl).
  Notation last_nl := (last_nl isnl).

  Lemma count_nl_app lo n1 n2 : count_nl lo (n1 + n2) = count_nl lo n1 + count_nl (lo + n1) n2.
  Proof.
    revert lo. induction n1 as [|n1 IH]; intros lo; cbn [Scan.count_nl plus].
    - rewrite Nat.add_0_r. reflexivity.
    - rewrite IH. replace (S lo + n1) with (lo + S n1) by lia. lia.
  Qed.

  Lemma last_nl_app lo n1 n2 :
    last_nl lo (n1 + n2) = match last_nl (lo + n1) n2 with Some i => Some i | None => last_nl lo n1 end.
  Proof.
    revert lo. induction n1 as [|n1 IH]; intros lo; cbn [Scan.last_nl plus].
    - rewrite Nat.add_0_r. destruct (last_nl lo n2); reflexivity.
    - rewrite IH. replace (S lo + n1) with (lo + S n1) by lia.
      destruct (last_nl (lo + S n1) n2); reflexivity.
  Qed.

  Lemma count_zero_last_none lo n : count_nl lo n = 0 <-> last_nl lo n = None.
  Proof.
    revert lo. induction n as [|n IH]; intros lo; cbn [Scan.count_nl Scan.last_nl]; [tauto|].
    specialize (IH (S lo)). destruct (isnl lo), (last_nl (S lo) n); split; intros H; try discriminate; try lia.
    - apply IH. lia.
    - reflexivity.
    - cbn [plus]. apply IH. reflexivity.
  Qed.

  (* rindex returns a newline position inside the range *)
  Lemma last_nl_range lo n i : last_nl lo n = Some i -> lo <= i < lo + n /\ isnl i = true.
  Proof.
    revert lo. induction n as [|n IH]; intros lo; cbn [Scan.last_nl]; [discriminate|].
    destruct (last_nl (S lo) n) eqn:E.
    - intros [= ->]. destruct (IH _ E). split; [lia | assumption].
    - destruct (isnl lo) eqn:N; [|discriminate]. intros [= <-]. split; [lia | assumption].
  Qed.

  Lemma advance_to_coord q p : q <= p -> advance_to isnl (coord isnl q) p = coord isnl p.
  Proof.
    intros L. unfold advance_to, coord. cbn [lc_pos lc_line lc_lsp].
    assert (Ep : p = q + (p - q)) by lia.
    pose proof (count_nl_app 0 q (p - q)) as C. pose proof (last_nl_app 0 q (p - q)) as R.
    rewrite <- Ep in C, R. cbn [plus] in C, R.
    unfold line_of, lsp_of. rewrite C, R.
    destruct (0 <? count_nl q (p - q)) eqn:K.
    - apply Nat.ltb_lt in K. destruct (last_nl q (p - q)) eqn:E.
      + rewrite after_nl_is_1. f_equal; lia.
      + apply count_zero_last_none in E. lia.
    - apply Nat.ltb_ge in K. assert (Z0 : count_nl q (p - q) = 0) by lia.
      rewrite Z0. apply count_zero_last_none in Z0. rewrite Z0. f_equal. lia.
  Qed.

  Lemma lc_init_coord : lc_init = coord isnl 0.
  Proof. reflexivity. Qed.

  Lemma from_text_slice_coord a : from_text_slice isnl a = coord isnl a.
  Proof.
    unfold from_text_slice. destruct (0 <? a) eqn:K.
    - rewrite lc_init_coord. apply advance_to_coord. lia.
    - apply Nat.ltb_ge in K. assert (a = 0) by lia. subst. apply lc_init_coord.
  Qed.

  (* line_of / lsp_of really are "1 + number of newlines before p" and "just after the last newline
     before p": the column lc_pos - lc_lsp + 1 counts the characters since that newline *)
  Lemma lsp_of_le p : lsp_of isnl p <= p.
  Proof.
    unfold lsp_of. destruct (last_nl 0 p) eqn:E; [|lia].
    apply last_nl_range in E. lia.
  Qed.

  Lemma lsp_of_after_newline p : lsp_of isnl p = 0 \/ isnl (lsp_of isnl p - 1) = true.
  Proof.
    unfold lsp_of. destruct (last_nl 0 p) eqn:E; [|left; reflexivity].
    right. apply last_nl_range in E. cbn [Nat.sub]. rewrite Nat.sub_0_r. tauto.
  Qed.

  Lemma lsp_of_no_newline_after p i : lsp_of isnl p <= i -> i < p -> isnl i = false.
  Proof.
    unfold lsp_of. intros L1 L2.
    assert (Ep : p = i + (p - i)) by lia.
    pose proof (last_nl_app 0 i (p - i)) as R. rewrite <- Ep in R. cbn [plus] in R.
    destruct (last_nl i (p - i)) eqn:E.
    - rewrite R in L1. apply last_nl_range in E. destruct E as [E1 E2].
      assert (n = i \/ i < n) as [->|Hn] by lia; [lia|lia].
    - apply count_zero_last_none in E.
      destruct (p - i) as [|k] eqn:D; [lia|]. cbn [Scan.count_nl] in E.
      destruct (isnl i); [lia | reflexivity].
  Qed.
End LineCounterProofs.

Section SearchProofs.
  Variable starts : nat -> bool.
  Variable wb : nat.

  Lemma find_from_some n p m : find_from starts n p = Some m ->
    p <= m < p + n /\ starts m = true /\ forall q, p <= q < m -> starts q = false.
  Proof.
    revert p. induction n as [|n IH]; intros p; cbn [find_from]; [discriminate|].
    destruct (starts p) eqn:Sr.
    - intros [= <-]. repeat split; try lia; auto; intros q Hq; lia.
    - intros E. destruct (IH _ E) as (R & T & Lst). repeat split; try lia; auto.
      intros q Hq. assert (q = p \/ S p <= q) as [->|Hq'] by lia; [assumption | apply Lst; lia].
  Qed.

  Lemma find_from_none n p : find_from starts n p = None -> forall q, p <= q < p + n -> starts q = false.
  Proof.
    revert p. induction n as [|n IH]; intros p; cbn [find_from]; [intros _ q Hq; lia|].
    destruct (starts p) eqn:Sr; [discriminate|].
    intros E q Hq. assert (q = p \/ S p <= q) as [->|Hq'] by lia; [assumption | apply (IH _ E); lia].
  Qed.

  Lemma search_of_range p m : search_of starts wb p = Some m -> p <= m /\ m <= wb.
  Proof. unfold search_of. intros E. apply find_from_some in E. lia. Qed.

  Lemma search_of_start p m : search_of starts wb p = Some m -> starts m = true.
  Proof. unfold search_of. intros E. apply find_from_some in E. tauto. Qed.

  Lemma search_of_least p m : search_of starts wb p = Some m -> forall q, p <= q < m -> starts q = false.
  Proof. unfold search_of. intros E. apply find_from_some in E. tauto. Qed.

  Lemma search_of_none p : search_of starts wb p = None -> forall q, p <= q < wb -> starts q = false.
  Proof. unfold search_of. intros E q Hq. apply (find_from_none _ _ E). lia. Qed.
End SearchProofs.

Fixpoint chain (wb lo : nat) (l : list tok) : Prop :=
  match l with
  | [] => True
  | t :: r => lo <= tk_start t /\ tk_start t < tk_end t /\ tk_end t <= wb /\ chain wb (tk_end t) r
  end.

Lemma chain_weaken wb lo lo' l : lo' <= lo -> chain wb lo l -> chain wb lo' l.
Proof. destruct l; cbn; [tauto|]. intros L (A & B & C & D). repeat split; auto; lia. Qed.

Lemma chain_filter wb f lo l : chain wb lo l -> chain wb lo (filter f l).
Proof.
  revert lo. induction l as [|t l IH]; intros lo; cbn [filter chain]; [tauto|].
  intros (A & B & C & D). destruct (f t).
  - cbn [chain]. repeat split; auto.
  - apply (chain_weaken wb (tk_end t)); [lia | auto].
Qed.

Lemma chain_app_l wb lo l1 l2 : chain wb lo (l1 ++ l2) -> chain wb lo l1.
Proof.
  revert lo. induction l1 as [|t l1 IH]; intros lo; cbn [app chain]; [tauto|].
  intros (A & B & C & D). repeat split; auto.
Qed.

Lemma chain_last wb lo t r : chain wb lo (t :: r) ->
  lo <= tk_start t /\ tk_end t <= tk_end (last r t) /\ tk_start t < tk_end (last r t) /\ tk_end (last r t) <= wb.
Proof.
  revert lo t. induction r as [|x r IH]; intros lo t.
  - cbn [chain last]. intros (A & B & C & _). lia.
  - rewrite last_cons. cbn [chain]. intros (A & B & C & D).
    change (chain wb (tk_end t) (x :: r)) in D. destruct (IH _ _ D) as (A' & B' & C' & D'). lia.
Qed.

Lemma chain_in_bounds wb lo l u : chain wb lo l -> In u l -> lo <= tk_start u /\ tk_start u < tk_end u /\ tk_end u <= wb.
Proof.
  revert lo. induction l as [|t l IH]; intros lo; cbn [chain In]; [tauto|].
  intros (A & B & C & D) [<-|I]; [lia|]. specialize (IH _ D I). lia.
Qed.

Lemma chain_le_last wb l : forall lo u d, chain wb lo l -> In u l -> tk_end u <= tk_end (last l d).
Proof.
  induction l as [|t r IH]; intros lo u d C I; [contradiction|]. rewrite last_cons. destruct I as [<-|I].
  - apply chain_last in C. lia.
  - destruct C as (_ & _ & _ & C). apply (IH _ _ _ C I).
Qed.

Lemma chain_disjoint wb lo l u t : chain wb lo l -> In u l -> In t l ->
  u = t \/ tk_end u <= tk_start t \/ tk_end t <= tk_start u.
Proof.
  revert lo. induction l as [|x l IH]; intros lo; cbn [chain In]; [tauto|].
  intros (A & B & C & D) [<-|Iu] [<-|It]; auto.
  - right; left. pose proof (chain_in_bounds _ _ _ _ D It). lia.
  - right; right. pose proof (chain_in_bounds _ _ _ _ D Iu). lia.
  - eapply IH; eauto.
Qed.

Section LoopProofs.
  Variable value : Type.
  Variable isnl : nat -> bool.
  Variable wa wb : nat.
  Variable search : nat -> option nat.
  Variable lex_from : nat -> list tok.
  Variable feed_ok : list tok -> bool.
  Variable end_choice end_trial : list tok -> bool.
  Variable parse_tokens : list tok -> value.

  Notation main_stream := (main_stream lex_from).
  Notation accepts_end := (accepts_end end_choice end_trial).
  Notation stunted := (stunted feed_ok end_choice end_trial).
  Notation loop := (loop isnl search lex_from feed_ok end_choice end_trial).
  Notation scan_iters := (scan_iters isnl wa wb search lex_from feed_ok end_choice end_trial).
  Notation scan_fuel := (scan_fuel wa wb).
  Notation match_of := (match_of value parse_tokens).
  Notation matches_of := (matches_of value parse_tokens).
  Notation scan := (scan value isnl wa wb search lex_from feed_ok end_choice end_trial parse_tokens).

  (* The invariant of the stunted parse's loop over (matched_tokens, longest_match): every non-empty prefix of [fed] was fed
     without error, and [k] is the length of the longest prefix after which $END was accepted (0: none). *)
  Definition fed_inv (fed : list tok) (k : nat) : Prop :=
    (forall j, 0 < j <= length fed -> feed_ok (firstn j fed) = true) /\
    k <= length fed /\
    (k = 0 \/ accepts_end (firstn k fed) = true) /\
    (forall j, k < j <= length fed -> accepts_end (firstn j fed) = false).

  Lemma fed_inv_snoc fed k t : fed_inv fed k -> feed_ok (fed ++ [t]) = true ->
    fed_inv (fed ++ [t]) (if accepts_end (fed ++ [t]) then length (fed ++ [t]) else k).
  Proof.
    intros (Hf & Hk & Ha & Hn) F.
    assert (Len : length (fed ++ [t]) = S (length fed)) by (rewrite app_length; cbn; lia).
    (* a prefix of fed ++ [t] is a prefix of fed, or the whole *)
    assert (Cases : forall j, j <= S (length fed) ->
              firstn j (fed ++ [t]) = firstn j fed /\ j <= length fed \/
              firstn j (fed ++ [t]) = fed ++ [t] /\ j = S (length fed)).
    { intros j L. destruct (le_lt_dec j (length fed)) as [L'|L']; [left | right]; (split; [|lia]).
      - rewrite firstn_app. replace (j - length fed) with 0 by lia. apply app_nil_r.
      - apply firstn_all2. lia. }
    rewrite Len. split; [|destruct (accepts_end (fed ++ [t])) eqn:A; (split; [lia|]); split].
    - intros j Hj. destruct (Cases j) as [(-> & L)|(-> & _)]; [lia | apply Hf; lia | exact F].
    - right. rewrite <- Len, firstn_all. exact A.
    - intros j Hj. lia.
    - destruct Ha as [->|Ha]; [left; reflexivity | right].
      destruct (Cases k) as [(-> & _)|(_ & E)]; [lia | exact Ha | lia].
    - intros j Hj. destruct (Cases j) as [(-> & L)|(-> & _)]; [lia | apply Hn; lia | exact A].
  Qed.

  Lemma stunted_inv rest : forall fed k fed' k', fed_inv fed k -> stunted fed k rest = (fed', k') ->
    fed_inv fed' k' /\
    exists tail, fed ++ rest = fed' ++ tail /\ (tail = [] \/ exists t tl, tail = t :: tl /\ feed_ok (fed' ++ [t]) = false).
  Proof.
    induction rest as [|t rest IH]; intros fed k fed' k' I; cbn [Scan.stunted].
    - intros [= <- <-]. split; [exact I|]. exists []. split; [reflexivity | left; reflexivity].
    - destruct (feed_ok (fed ++ [t])) eqn:F.
      + intros E. apply IH in E; [|apply fed_inv_snoc; assumption]. rewrite <- app_assoc in E. exact E.
      + intros [= <- <-]. split; [exact I|]. exists (t :: rest). split; [reflexivity|].
        right. exists t, rest. split; [reflexivity | exact F].
  Qed.

  Definition iter_ok (it : iter) : Prop :=
    search (it_pos it) = Some (it_m it) /\
    exists tail k,
      main_stream (it_m it) = it_fed it ++ tail /\
      (forall j, 0 < j <= length (it_fed it) -> feed_ok (firstn j (it_fed it)) = true) /\
      (tail = [] \/ exists t tl, tail = t :: tl /\ feed_ok (it_fed it ++ [t]) = false) /\
      it_acc it = firstn k (it_fed it) /\ k <= length (it_fed it) /\
      (k = 0 \/ accepts_end (firstn k (it_fed it)) = true) /\
      (forall j, k < j <= length (it_fed it) -> accepts_end (firstn j (it_fed it)) = false).

  Lemma iter_ok_iff it : iter_ok it <->
    search (it_pos it) = Some (it_m it) /\
    exists tail k, main_stream (it_m it) = it_fed it ++ tail /\
      (tail = [] \/ exists t tl, tail = t :: tl /\ feed_ok (it_fed it ++ [t]) = false) /\
      it_acc it = firstn k (it_fed it) /\ fed_inv (it_fed it) k.
  Proof.
    unfold iter_ok, fed_inv. split; intros (Sr & tail & k & H); (split; [exact Sr|]); exists tail, k.
    - destruct H as (Hm & Hf & Ht & Ha & Hk & He & Hn). exact (conj Hm (conj Ht (conj Ha (conj Hf (conj Hk (conj He Hn)))))).
    - destruct H as (Hm & Ht & Ha & Hf & Hk & He & Hn). exact (conj Hm (conj Hf (conj Ht (conj Ha (conj Hk (conj He Hn)))))).
  Qed.

  Definition turn (pos m : nat) (lc : lcount) : iter :=
    let fk := stunted [] scan_longest_init (main_stream m) in
    mkIter pos m (advance_to isnl lc m) (fst fk) (firstn (snd fk) (fst fk)).

  Lemma loop_step fuel pos lc :
    loop (S fuel) pos lc =
    match search pos with
    | None => ([], Some pos)
    | Some m =>
        let it := turn pos m lc in
        let r := loop fuel (next_pos m (it_acc it)) (it_lc it) in
        (it :: fst r, snd r)
    end.
  Proof.
    cbn [Scan.loop]. destruct (search pos) as [m|]; [|reflexivity]. unfold turn.
    destruct (stunted [] scan_longest_init (main_stream m)) as [fed k]. cbn [fst snd it_acc it_lc].
    destruct (loop fuel (next_pos m (firstn k fed)) (advance_to isnl lc m)). reflexivity.
  Qed.

  Lemma turn_ok pos m lc : search pos = Some m -> iter_ok (turn pos m lc).
  Proof.
    intros Sr. unfold turn. destruct (stunted [] scan_longest_init (main_stream m)) as [fed k] eqn:E.
    apply stunted_inv in E.
    - destruct E as (I & tail & Hm & Ht). apply iter_ok_iff. split; [exact Sr|]. exists tail, k. auto.
    - rewrite longest_init_is_0. split; [|split; [|split]]; cbn; try (intros j Hj); lia.
  Qed.

  Inductive turns : nat -> lcount -> list iter -> Prop :=
  | turns_nil pos lc : turns pos lc []
  | turns_cons pos lc it r : it_pos it = pos -> iter_ok it -> it_lc it = advance_to isnl lc (it_m it) ->
      turns (next_pos (it_m it) (it_acc it)) (it_lc it) r -> turns pos lc (it :: r).

  Lemma loop_turns fuel : forall pos lc, turns pos lc (fst (loop fuel pos lc)).
  Proof.
    induction fuel as [|fuel IH]; intros pos lc; [constructor|].
    rewrite loop_step. destruct (search pos) as [m|] eqn:Sr; [|constructor].
    cbn zeta. cbn [fst]. constructor; [reflexivity | apply turn_ok; exact Sr | reflexivity | apply IH].
  Qed.

  Lemma turns_iter_ok pos lc its : turns pos lc its -> Forall iter_ok its.
  Proof. induction 1; constructor; assumption. Qed.

  Lemma iter_acc_prefix it : iter_ok it -> exists rest, main_stream (it_m it) = it_acc it ++ rest.
  Proof.
    intros OK. apply iter_ok_iff in OK. destruct OK as (_ & tail & k & Hm & _ & Ha & _). exists (skipn k (it_fed it) ++ tail).
    rewrite Hm, Ha, app_assoc, firstn_skipn. reflexivity.
  Qed.

  Lemma iter_acc_accepted it : iter_ok it -> it_acc it <> [] ->
    feed_ok (it_acc it) = true /\ accepts_end (it_acc it) = true.
  Proof.
    intros OK N. apply iter_ok_iff in OK. destruct OK as (_ & tail & k & _ & _ & Hacc & Hfed & Hk & Hend & _).
    rewrite Hacc in *. destruct k as [|k]; [contradiction N; reflexivity|].
    destruct Hend as [Hend|Hend]; [discriminate|]. split; [apply Hfed; lia | exact Hend].
  Qed.

  (* hypotheses about the oracles (checked on the recorded tables at run time) *)
  Hypothesis H_search_range : forall p m, search p = Some m -> p <= m /\ m <= wb.
  Hypothesis H_chain : forall m, chain wb m (lex_from m).

  Lemma main_chain m : chain wb m (main_stream m).
  Proof. apply chain_filter, H_chain. Qed.

  Lemma iter_acc_chain it : iter_ok it -> chain wb (it_m it) (it_acc it) /\ it_pos it <= it_m it /\ it_m it <= wb.
  Proof.
    intros OK. split; [|apply H_search_range, OK].
    destruct (iter_acc_prefix it OK) as (rest & E). pose proof (main_chain (it_m it)) as C.
    rewrite E in C. apply chain_app_l in C. exact C.
  Qed.

  Lemma iter_next_pos it : iter_ok it ->
    it_m it < next_pos (it_m it) (it_acc it) /\ next_pos (it_m it) (it_acc it) <= wb + 1.
  Proof.
    intros OK. destruct (iter_acc_chain it OK) as (C & L1 & L2).
    unfold next_pos. destruct (it_acc it) as [|t r]; [rewrite fail_step_is_1; lia|].
    apply chain_last in C. unfold last_tok. lia.
  Qed.

  Lemma turn_bounds pos m lc : search pos = Some m ->
    pos <= m <= wb /\ m < next_pos m (it_acc (turn pos m lc)) <= wb + 1.
  Proof.
    intros Sr. pose proof (iter_next_pos _ (turn_ok pos m lc Sr)) as N. pose proof (H_search_range _ _ Sr). tauto.
  Qed.

  Lemma loop_terminates fuel : forall pos lc, wb + 2 - pos <= fuel -> pos <= wb + 1 ->
    snd (loop fuel pos lc) <> None.
  Proof.
    induction fuel as [|fuel IH]; intros pos lc F L; [lia|].
    rewrite loop_step. destruct (search pos) as [m|] eqn:Sr; [|discriminate].
    cbn zeta. cbn [snd]. pose proof (turn_bounds pos m lc Sr). apply IH; lia.
  Qed.

  Lemma loop_fuel_irrelevant f1 : forall f2 pos lc, wb + 2 - pos <= f1 -> wb + 2 - pos <= f2 -> pos <= wb + 1 ->
    loop f1 pos lc = loop f2 pos lc.
  Proof.
    induction f1 as [|f1 IH]; intros f2 pos lc F1 F2 L; [lia|].
    destruct f2 as [|f2]; [lia|].
    rewrite !loop_step. destruct (search pos) as [m|] eqn:Sr; [|reflexivity].
    cbn zeta. pose proof (turn_bounds pos m lc Sr). rewrite (IH f2); [reflexivity|lia|lia|lia].
  Qed.

  Hypothesis H_window : wa <= wb.

  Theorem scan_terminates : exists final, snd scan_iters = Some final.
  Proof.
    destruct (snd scan_iters) eqn:E; [eauto|]. exfalso. revert E.
    apply loop_terminates; unfold scan_fuel; lia.
  Qed.

  Fixpoint ordered (lo : nat) (l : list (nat * nat * value)) : Prop :=
    match l with
    | [] => True
    | (s, e, _) :: r => lo <= s /\ s < e /\ e <= wb /\ ordered e r
    end.

  Lemma ordered_weaken lo lo' l : lo' <= lo -> ordered lo l -> ordered lo' l.
  Proof. destruct l as [|[[s e] v] l]; cbn; [tauto|]. intros L (A & B & C & D). repeat split; auto; lia. Qed.

  Fixpoint turns_increase (lo : nat) (its : list iter) : Prop :=
    match its with
    | [] => True
    | it :: r => lo <= it_pos it /\ it_pos it <= it_m it /\ it_m it < next_pos (it_m it) (it_acc it)
                 /\ next_pos (it_m it) (it_acc it) <= wb + 1
                 /\ turns_increase (next_pos (it_m it) (it_acc it)) r
    end.

  Lemma turns_turns_increase pos lc its : turns pos lc its -> turns_increase pos its.
  Proof.
    induction 1 as [|pos lc it r <- OK _ _ IH]; [exact I|]. cbn [turns_increase].
    destruct (iter_acc_chain _ OK) as (_ & L1 & _). destruct (iter_next_pos _ OK).
    repeat split; auto.
  Qed.

  Lemma turns_ordered pos lc its : turns pos lc its -> ordered pos (matches_of its).
  Proof.
    induction 1 as [|pos lc it r <- OK _ _ IH]; [exact I|].
    destruct (iter_acc_chain _ OK) as (C & L1 & L2). destruct (iter_next_pos _ OK) as (N1 & N2).
    unfold Scan.matches_of. cbn [flat_map]. unfold Scan.match_of at 1.
    unfold next_pos in IH, N1. destruct (it_acc it) as [|t r'] eqn:Ea.
    - cbn [app]. eapply ordered_weaken; [|exact IH]. lia.
    - cbn [app ordered]. apply chain_last in C. unfold last_tok in *.
      repeat split; try lia. exact IH.
  Qed.

  Theorem scan_ordered : ordered wa scan /\ turns_increase wa (fst scan_iters).
  Proof. split; [eapply turns_ordered | eapply turns_turns_increase]; apply loop_turns. Qed.

  Lemma turns_coords pos lc its : turns pos lc its -> forall q, lc = coord isnl q -> q <= pos ->
    Forall (fun it => it_lc it = coord isnl (it_m it)) its.
  Proof.
    induction 1 as [|pos lc it r <- OK G _ IH]; intros q -> L; [constructor|].
    destruct (iter_acc_chain _ OK) as (_ & L1 & _). destruct (iter_next_pos _ OK) as (N1 & _).
    assert (A : it_lc it = coord isnl (it_m it)) by (rewrite G; apply advance_to_coord; lia).
    constructor; [exact A | apply (IH (it_m it) A); lia].
  Qed.

  Theorem scan_positions_global :
    Forall (fun it => it_lc it = coord isnl (it_m it)) (fst scan_iters).
  Proof. apply (turns_coords _ _ _ (loop_turns _ _ _) wa); [apply from_text_slice_coord | lia]. Qed.

  Theorem scan_longest_wrt_tokens : Forall iter_ok (fst scan_iters).
  Proof. eapply turns_iter_ok, loop_turns. Qed.

  Lemma in_matches_of its s e v : In (s, e, v) (matches_of its) ->
    exists it t r, In it its /\ it_acc it = t :: r /\
      s = tk_start t /\ e = tk_end (last_tok t r) /\ v = parse_tokens (t :: r).
  Proof.
    unfold Scan.matches_of. intros I. apply in_flat_map in I. destruct I as (it & Iit & Im).
    unfold Scan.match_of in Im. destruct (it_acc it) as [|t r] eqn:Ea; [contradiction|].
    destruct Im as [[= <- <- <-]|[]]. exists it, t, r. repeat split; assumption.
  Qed.

  Lemma scan_iter_ok it : In it (fst scan_iters) -> iter_ok it.
  Proof. apply (proj1 (Forall_forall _ _) scan_longest_wrt_tokens). Qed.

  Lemma filter_prefix_in {A} (f : A -> bool) (l acc rest : list A) x :
    filter f l = acc ++ rest -> In x acc -> In x l /\ f x = true.
  Proof.
    intros E I. assert (I' : In x (filter f l)) by (rewrite E; apply in_or_app; auto).
    apply filter_In in I'. exact I'.
  Qed.

  Theorem scan_no_ignored_edges : forall it, In it (fst scan_iters) -> forall t r, it_acc it = t :: r ->
    let s := tk_start t in let e := tk_end (last_tok t r) in
    match_of it = [(s, e, parse_tokens (it_acc it))] /\
    (exists rest, main_stream (it_m it) = it_acc it ++ rest) /\
    Forall (fun u => tk_ign u = false) (it_acc it) /\
    In t (lex_from (it_m it)) /\ In (last_tok t r) (lex_from (it_m it)) /\
    (exists pre post, lex_from (it_m it) = pre ++ t :: post /\ Forall (fun u => tk_ign u = true) pre) /\
    (forall u, In u (lex_from (it_m it)) -> tk_ign u = true ->
       tk_end u <= s \/ (s <= tk_start u /\ tk_end u <= e) \/ e <= tk_start u).
  Proof.
    intros it I t r Ea s e.
    destruct (iter_acc_prefix it (scan_iter_ok it I)) as (rest & Hpre).
    assert (Hin : forall x, In x (it_acc it) -> In x (lex_from (it_m it)) /\ tk_ign x = false).
    { intros x Ix. destruct (filter_prefix_in _ _ _ _ x Hpre Ix) as (I1 & I2).
      split; [exact I1|]. destruct (tk_ign x); [discriminate | reflexivity]. }
    assert (It : In t (it_acc it)) by (rewrite Ea; left; reflexivity).
    assert (Il : In (last_tok t r) (it_acc it)) by (rewrite Ea; apply last_In).
    split; [unfold Scan.match_of; rewrite Ea; reflexivity|].
    split; [eexists; exact Hpre|].
    split; [rewrite Forall_forall; intros x Ix; apply Hin; exact Ix|].
    split; [apply Hin; exact It|]. split; [apply Hin; exact Il|].
    split.
    - unfold Scan.main_stream in Hpre. rewrite Ea in Hpre. cbn [app] in Hpre.
      apply filter_cons_split in Hpre. destruct Hpre as (pre & post & E & P & _).
      exists pre, post. split; [exact E|]. rewrite Forall_forall in *. intros x Ix. specialize (P _ Ix).
      destruct (tk_ign x); [reflexivity | discriminate].
    - intros u Iu Gu. pose proof (H_chain (it_m it)) as C.
      destruct (Hin _ It) as (It' & Gt). destruct (Hin _ Il) as (Il' & Gl).
      assert (Bt : tk_start t < tk_end t) by (pose proof (chain_in_bounds _ _ _ _ C It'); lia).
      destruct (chain_disjoint _ _ _ u t C Iu It') as [->|[D|D]]; [congruence | left; exact D |].
      destruct (chain_disjoint _ _ _ u (last_tok t r) C Iu Il') as [->|[D'|D']]; [congruence | | right; right; exact D'].
      pose proof (chain_in_bounds _ _ _ _ C Il') as Bl.
      right; left. unfold s, e. split; lia.
  Qed.

  Variable starts : nat -> bool.                      (* a non-ignored start-state terminal matches here *)
  Variable snip_tokens : nat -> nat -> option (list tok).
      (* tokens (positions in the full text) that lexing + feeding text[s:e] *alone* produces;
         None when the lexer or a feed raises before the end of the snippet *)

  (* parse(text[s:e]) *)
  Definition parse_snip (s e : nat) : option value :=
    match snip_tokens s e with
    | Some l => if accepts_end l then Some (parse_tokens l) else None
    | None => None
    end.

  Definition tight (s e : nat) (l : list tok) : Prop :=
    exists t r, l = t :: r /\ tk_start t = s /\ tk_end (last_tok t r) = e.

  Definition H_feed_prefix_closed : Prop := forall x y, feed_ok (x ++ y) = true -> feed_ok x = true.
  (* lexing the snippet alone yields the corresponding prefix of lexing the rest of the text ... *)
  Definition H_stable_prefix_to_snippet : Prop :=
    forall m l rest t r, main_stream m = l ++ rest -> l = t :: r -> feed_ok l = true ->
      snip_tokens (tk_start t) (tk_end (last_tok t r)) = Some l.
  (* ... and conversely (this is the half that greedy tokens crossing the snippet end break: F8) *)
  Definition H_stable_snippet_to_prefix : Prop :=
    forall s e l, snip_tokens s e = Some l -> tight s e l -> accepts_end l = true ->
      feed_ok l = true /\ exists rest, main_stream s = l ++ rest.
  (* lexing from the first token's start gives the same stream as lexing from match_start *)
  Definition H_skip : Prop :=
    forall p m t r, search p = Some m -> main_stream m = t :: r -> main_stream (tk_start t) = t :: r.
  (* at a search result the lexer's first token is a non-ignored one (no ignored terminal wins there) *)
  Definition H_head : Prop :=
    forall p m t r, search p = Some m -> main_stream m = t :: r -> tk_start t = m.
  Definition H_search_least : Prop :=
    forall p m, search p = Some m -> forall q, p <= q < m -> starts q = false.
  Definition H_search_none : Prop :=
    forall p, search p = None -> forall q, p <= q < wb -> starts q = false.
  Definition H_starts : Prop :=
    forall s e t r, snip_tokens s e = Some (t :: r) -> tk_start t = s -> starts s = true.

  Lemma head_skip : H_head -> H_skip.
  Proof. intros Hh p m t r Sr E. rewrite (Hh _ _ _ _ Sr E). exact E. Qed.

  Theorem scan_value_eq_parse : H_stable_prefix_to_snippet ->
    forall s e v, In (s, e, v) scan -> parse_snip s e = Some v.
  Proof using H_window.
    intros Ha s e v I. apply in_matches_of in I. destruct I as (it & t & r & Iit & Ea & -> & -> & ->).
    pose proof (scan_iter_ok it Iit) as OK. destruct (iter_acc_prefix it OK) as (rest & Hpre).
    destruct (iter_acc_accepted it OK) as (Hfed & Hend); [rewrite Ea; discriminate|]. rewrite Ea in Hpre, Hfed, Hend.
    unfold parse_snip. rewrite (Ha _ _ _ t r Hpre eq_refl), Hend; [reflexivity | exact Hfed].
  Qed.

  Lemma accepted_prefix it l rest : H_feed_prefix_closed -> iter_ok it ->
    main_stream (it_m it) = l ++ rest -> feed_ok l = true -> accepts_end l = true ->
    exists post, it_acc it = l ++ post.
  Proof.
    intros Hp OK E F A. apply iter_ok_iff in OK. destruct OK as (_ & tail & k & Hm & Htail & Hacc & _ & _ & _ & Hno).
    assert (Efed : exists post, it_fed it = l ++ post).
    { rewrite Hm in E. apply app_eq_app in E. destruct E as (mid & [(Ef & _)|(El & Et)]); [eauto|].
      (* l cannot go beyond matched_tokens: feeding the next token failed *)
      destruct mid as [|x mid]; [exists []; rewrite El, !app_nil_r; reflexivity | exfalso].
      destruct Htail as [->|(t & tl & -> & Hf)]; [discriminate|]. injection Et as -> _.
      rewrite El in F. change (x :: mid) with ([x] ++ mid) in F. rewrite app_assoc in F.
      apply Hp in F. congruence. }
    destruct Efed as (post & Efed). rewrite Hacc, Efed.
    destruct (le_lt_dec (length l) k) as [L|L].
    - exists (firstn (k - length l) post). rewrite firstn_app, firstn_all2 by exact L. reflexivity.
    - exfalso. rewrite <- (firstn_app_exact l post), <- Efed, Hno in A; [discriminate|].
      rewrite Efed, app_length. lia.
  Qed.

  Theorem scan_longest : H_feed_prefix_closed -> H_stable_snippet_to_prefix -> H_skip ->
    forall s e v, In (s, e, v) scan ->
    forall e' l', snip_tokens s e' = Some l' -> tight s e' l' -> accepts_end l' = true -> e' <= e.
  Proof.
    intros Hp Hb Hs s e v I e' l' Sn T A.
    apply in_matches_of in I. destruct I as (it & t & r & Iit & Ea & -> & -> & ->).
    pose proof (scan_iter_ok it Iit) as OK. destruct (iter_acc_prefix it OK) as (rest0 & Hpre). rewrite Ea in Hpre. cbn [app] in Hpre.
    destruct (Hb _ _ _ Sn T A) as (Fl & rest & El).
    rewrite (Hs _ _ _ _ (proj1 OK) Hpre) in El. rewrite <- Hpre in El.
    destruct (accepted_prefix it l' rest Hp OK El Fl A) as (post & Eacc). rewrite Ea in Eacc.
    destruct T as (t' & r' & -> & _ & <-). unfold last_tok. rewrite <- (last_cons t r t).
    destruct (iter_acc_chain it OK) as (C & _). rewrite Ea in C.
    apply (chain_le_last _ _ _ _ _ C). rewrite Eacc. apply in_or_app. left. apply last_In.
  Qed.

  Lemma no_miss_loop : H_feed_prefix_closed -> H_stable_snippet_to_prefix -> H_head ->
    H_search_least -> H_search_none -> H_starts ->
    forall fuel pos lc, wb + 2 - pos <= fuel -> pos <= wb + 1 ->
    forall p e l, pos <= p -> e <= wb -> snip_tokens p e = Some l -> tight p e l -> accepts_end l = true ->
    exists s' e' v, In (s', e', v) (matches_of (fst (loop fuel pos lc))) /\ s' <= p < e'.
  Proof.
    intros Hp Hb Hh Hl Hn Hst.
    induction fuel as [|fuel IH]; intros pos lc F L p e l Lp Le Sn T A; [lia|].
    destruct (Hb _ _ _ Sn T A) as (Fl & rest & El).
    assert (St : starts p = true /\ p < e /\ l <> []).
    { destruct T as (t & r & -> & T1 & T2). split; [eapply Hst; eauto|]. split; [|discriminate].
      pose proof (main_chain p) as C. rewrite El in C. apply chain_app_l, chain_last in C.
      unfold last_tok in T2. lia. }
    destruct St as (St & Lpe & Nl).
    rewrite loop_step. destruct (search pos) as [m|] eqn:Sr.
    2:{ exfalso. rewrite (Hn _ Sr p) in St; [discriminate | lia]. }
    cbn zeta. cbn [fst].
    pose proof (turn_ok pos m lc Sr) as OK. destruct (turn_bounds pos m lc Sr) as (B1 & B2).
    destruct (iter_acc_prefix _ OK) as (rest0 & Hpre).
    set (it := turn pos m lc) in *. change (it_m it) with m in Hpre.
    assert (Mp : m <= p).
    { destruct (le_lt_dec m p); [assumption|]. rewrite (Hl _ _ Sr p) in St; [discriminate | lia]. }
    (* when the next search starts at or before p, a later turn reports the covering match *)
    assert (Rec : next_pos m (it_acc it) <= p -> exists s' e' v,
              In (s', e', v) (matches_of (it :: fst (loop fuel (next_pos m (it_acc it)) (it_lc it)))) /\ s' <= p < e').
    { intros Lnp. destruct (IH (next_pos m (it_acc it)) (it_lc it) ltac:(lia) ltac:(lia) p e l Lnp Le Sn T A) as (s' & e' & v & I & R).
      exists s', e', v. split; [|exact R]. unfold Scan.matches_of. cbn [flat_map]. apply in_or_app. right. exact I. }
    destruct (it_acc it) as [|t r] eqn:Ea.
    - (* nothing accepted from m: no snippet parses from m, so m < p, and the search resumes at m + 1 *)
      apply Rec. unfold next_pos. rewrite fail_step_is_1. enough (p <> m) by lia. intros ->.
      destruct (accepted_prefix it l rest Hp OK El Fl A) as (post & E). rewrite Ea in E.
      destruct l; [contradiction | discriminate].
    - (* the match starts at m (no ignored terminal wins there) and either covers p or ends at or before it *)
      pose proof (Hh _ _ _ _ Sr Hpre) as Hd.
      destruct (le_lt_dec (tk_end (last_tok t r)) p) as [Lq|Lq]; [apply Rec; exact Lq|].
      exists (tk_start t), (tk_end (last_tok t r)), (parse_tokens (t :: r)). split; [|lia].
      unfold Scan.matches_of. cbn [flat_map]. apply in_or_app. left.
      unfold Scan.match_of. rewrite Ea. left. reflexivity.
  Qed.

  Theorem scan_no_miss : H_feed_prefix_closed -> H_stable_snippet_to_prefix -> H_head ->
    H_search_least -> H_search_none -> H_starts ->
    forall p e l, wa <= p -> e <= wb -> snip_tokens p e = Some l -> tight p e l -> accepts_end l = true ->
    exists s' e' v, In (s', e', v) scan /\ s' <= p < e'.
  Proof.
    intros Hp Hb Hh Hl Hn Hst p e l Lp Le Sn T A.
    apply (no_miss_loop Hp Hb Hh Hl Hn Hst scan_fuel wa (from_text_slice isnl wa)
             ltac:(unfold scan_fuel; lia) ltac:(lia) p e l Lp Le Sn T A).
  Qed.
End LoopProofs.
