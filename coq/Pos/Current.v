(* Regenerated-file lemmas: facts about the regenerated Gen/LexStep.v and Gen/DynStep.v.
   They stop compiling if next_token passes test_newline from the spelling heuristic (F1),
   or if the dynamic scanner's newline test stops recognising a representation (F2). *)
From Coq Require Import ZArith List Bool Lia.
From LV Require Import Pos.PosBase Gen.LineCounter Gen.LexStep Gen.DynStep Pos.Coord
  Pos.LineCounter_proofs Pos.LexCoords Pos.LexCoords_proofs Pos.Repr_proofs.
Import ListNotations.
Local Open Scope Z_scope.

(* next_token counts newlines in every token (repair of F1) *)
Lemma h_testnl_true {term} (nt : term -> bool) ty : h_testnl nt ty = true.
Proof. reflexivity. Qed.

Section Current.
Context {A : Type} (eqb : A -> A -> bool) (nl : A) {term : Type}.
Variable scan : list term -> list A -> Z -> Z -> option (nat * term).
Variable ignore : term -> bool.
Variable newline_types : term -> bool.

(* so H_nl, the side condition on terminals lexed with test_newline = False, is void *)
Lemma testnl_void (T : list A) (e : nat) h (p n : nat) ty :
  scan h T (Z.of_nat p) (Z.of_nat e) = Some (n, ty) ->
  h_testnl newline_types ty = false -> has_no_newline eqb nl (firstn n (skipn p T)).
Proof. intros _. rewrite h_testnl_true. discriminate. Qed.

Theorem lexer_coords (T : list A) (a e : nat) snap ts o :
  (a <= e)%nat -> (e <= length T)%nat ->
  (forall h (p n : nat) ty, scan h T (Z.of_nat p) (Z.of_nat e) = Some (n, ty) -> (p + n <= e)%nat) ->
  (snap = None \/ snap = Some (line_of eqb nl T a, line_start_of eqb nl T a)) ->
  lex_slice eqb nl scan ignore newline_types T (Z.of_nat a) (Z.of_nat e) snap = (ts, o) ->
  Forall (tok_ok eqb nl T a e) ts /\ chain (Z.of_nat a) ts /\ outcome_ok eqb nl T a e o.
Proof.
  intros Ha He Hb Hs. apply lexer_coords_gen; auto. apply testnl_void.
Qed.

Theorem window_shift_current (T : list A) (a b : nat) :
  (a <= b)%nat -> (b <= length T)%nat ->
  (forall h (p n : nat) ty, scan h T (Z.of_nat p) (Z.of_nat b) = Some (n, ty) -> (p + n <= b)%nat) ->
  (forall h (p : nat), (a <= p < b)%nat ->
     scan h T (Z.of_nat p) (Z.of_nat b) = scan h (sub T a b) (Z.of_nat (p - a)) (Z.of_nat (b - a))) ->
  lex_slice eqb nl scan ignore newline_types T (Z.of_nat a) (Z.of_nat b) None =
  shift_result eqb nl T a (lex_slice eqb nl scan ignore newline_types (sub T a b) 0 (Z.of_nat (b - a)) None).
Proof.
  intros Hab Hb Hsb Hcf. apply window_shift; auto. apply testnl_void.
Qed.

Lemma isnl_str_spec x : isnl_str eqb nl x = eqb x nl.
Proof. unfold isnl_str, dyn_isnl. apply orb_false_r. Qed.

(* repair of F2 *)
Lemma isnl_bytes_spec x : isnl_bytes eqb nl x = eqb x nl.
Proof. unfold isnl_bytes, dyn_isnl. reflexivity. Qed.

Theorem dyn_coords_str (T : list A) i : (i <= length T)%nat -> dyn_at (isnl_str eqb nl) T i = coord eqb nl T i.
Proof. apply dyn_at_coord. exact isnl_str_spec. Qed.

Theorem dyn_coords_bytes (T : list A) i : (i <= length T)%nat -> dyn_at (isnl_bytes eqb nl) T i = coord eqb nl T i.
Proof. apply dyn_at_coord. exact isnl_bytes_spec. Qed.

End Current.
