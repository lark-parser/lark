(* C15: the representation of the input does not matter (model level).
   window_shift : lexing the window [a, b) of a buffer T = lexing the extracted substring, re-based
   bytes_eq_str : lexing an encoded text = lexing the text, values encoded *)
From Coq Require Import ZArith List Bool Lia Arith.
From LV Require Import Pos.PosBase Gen.LineCounter Gen.LexStep Pos.Coord
  Pos.LineCounter_proofs Pos.LexCoords Pos.LexCoords_proofs.
Import ListNotations.
Local Open Scope Z_scope.

Section WindowShift.
Context {A : Type} (eqb : A -> A -> bool) (nl : A) {term : Type}.
Variable scan : list term -> list A -> Z -> Z -> option (nat * term).
Variable ignore : term -> bool.
Variable newline_types : term -> bool.

Variable T : list A.
Variables a b : nat.
Hypothesis a_le_b : (a <= b)%nat.
Hypothesis b_le : (b <= length T)%nat.

Definition sub : list A := firstn (b - a) (skipn a T).

Lemma sub_length : length sub = (b - a)%nat.
Proof. unfold sub. apply window_length. lia. Qed.

Hypothesis scan_bounded : forall h (p n : nat) ty,
  scan h T (Z.of_nat p) (Z.of_nat b) = Some (n, ty) -> (p + n <= b)%nat.
Hypothesis H_nl : forall h (p n : nat) ty,
  scan h T (Z.of_nat p) (Z.of_nat b) = Some (n, ty) ->
  h_testnl newline_types ty = false -> has_no_newline eqb nl (firstn n (skipn p T)).
(* H_ctxfree: a match at p in the window [a,b) of T is the match at p-a in T[a:b] *)
Hypothesis H_ctxfree : forall h (p : nat), (a <= p < b)%nat ->
  scan h T (Z.of_nat p) (Z.of_nat b) = scan h sub (Z.of_nat (p - a)) (Z.of_nat (b - a)).

Definition lnT (z : Z) : Z := line_of eqb nl T (Z.to_nat z).
Definition colT (z : Z) : Z := col_of eqb nl T (Z.to_nat z).

Definition shift_result (r : list (token A term) * outcome) : list (token A term) * outcome :=
  (map (shift_tok (Z.of_nat a) lnT colT) (fst r), shift_outcome (Z.of_nat a) lnT colT (snd r)).

Lemma lnT_nat (p : nat) : lnT (Z.of_nat p) = line_of eqb nl T p.
Proof. unfold lnT. rewrite Nat2Z.id. reflexivity. Qed.

Lemma colT_nat (p : nat) : colT (Z.of_nat p) = col_of eqb nl T p.
Proof. unfold colT. rewrite Nat2Z.id. reflexivity. Qed.

(* of the counter on the substring only the offset matters: shift_tok recomputes line and column *)
Lemma lex_loop_shift fuel : forall hist (p : nat) cT cS,
  (a <= p <= b)%nat -> at_coord eqb nl T p cT -> char_pos cS = Z.of_nat (p - a) ->
  lex_loop eqb nl scan ignore newline_types fuel hist T (Z.of_nat b) cT =
  shift_result (lex_loop eqb nl scan ignore newline_types fuel hist sub (Z.of_nat (b - a)) cS).
Proof.
  induction fuel as [|f IH]; intros hist p cT cS Hp HT HS; cbn [lex_loop]; [reflexivity|].
  unfold lex_step. pose proof HT as (HTp & HTl & HTc & _). rewrite HTp, HS.
  assert (Epa : Z.of_nat (p - a) + Z.of_nat a = Z.of_nat p) by lia.
  replace (h_more (Z.of_nat p) (Z.of_nat b))
    with (h_more (Z.of_nat (p - a)) (Z.of_nat (b - a))).
  2:{ rewrite <- (h_more_shift _ _ (Z.of_nat a)). f_equal; lia. }
  destruct (h_more (Z.of_nat (p - a)) (Z.of_nat (b - a))) eqn:Hm; [|reflexivity].
  apply h_more_lt in Hm.
  pose proof (H_ctxfree hist p ltac:(lia)) as Ecf. rewrite Ecf.
  destruct (scan hist sub (Z.of_nat (p - a)) (Z.of_nat (b - a))) as [[n ty]|].
  2:{ unfold shift_result. cbn [fst snd map shift_outcome].
      rewrite HS, Epa, lnT_nat, colT_nat, HTp, HTl, HTc. reflexivity. }
  pose proof (scan_bounded _ _ _ _ Ecf) as Hb.
  rewrite !slice_len. replace (firstn n (skipn (p - a) sub)) with (firstn n (skipn p T))
    by (symmetry; apply window_sub; lia).
  set (value := firstn n (skipn p T)).
  set (tn := h_testnl newline_types ty).
  pose proof (feed_match_coord eqb nl scan newline_types T b b_le scan_bounded H_nl _ _ _ _ _ HT Ecf
              : at_coord eqb nl T (p + n) (feed eqb nl cT value tn)) as HT'.
  assert (HS' : char_pos (feed eqb nl cS value tn) = Z.of_nat (p + n - a)).
  { rewrite feed_char_pos, HS. unfold value. rewrite window_length; lia. }
  specialize (IH (if ignore ty then hist else ty :: hist) (p + n)%nat _ _ ltac:(lia) HT' HS').
  destruct (ignore ty); [exact IH|].
  cbn [t_type]. rewrite IH.
  destruct (lex_loop eqb nl scan ignore newline_types f (ty :: hist) sub (Z.of_nat (b - a)) _) as [ts o].
  unfold shift_result. cbn [fst snd map]. f_equal. f_equal.
  destruct HT' as (HTp' & HTl' & HTc' & _).
  unfold shift_tok. cbn [t_type t_value t_start t_end_pos]. rewrite HS', Epa.
  replace (Z.of_nat (p + n - a) + Z.of_nat a) with (Z.of_nat (p + n)) by lia.
  rewrite !lnT_nat, !colT_nat, HTl, HTc, HTp', HTl', HTc'. reflexivity.
Qed.

Theorem window_shift :
  lex_slice eqb nl scan ignore newline_types T (Z.of_nat a) (Z.of_nat b) None =
  shift_result (lex_slice eqb nl scan ignore newline_types sub 0 (Z.of_nat (b - a)) None).
Proof.
  unfold lex_slice.
  replace (Z.to_nat (Z.of_nat (b - a) - 0)) with (Z.to_nat (Z.of_nat b - Z.of_nat a)) by lia.
  apply lex_loop_shift with (p := a); [lia| |].
  - apply from_text_slice_coord; [lia|left; reflexivity].
  - rewrite Nat.sub_diag. reflexivity.
Qed.

End WindowShift.

Section BytesEqStr.
Context {A B : Type} (eqbA : A -> A -> bool) (nlA : A) (eqbB : B -> B -> bool) (nlB : B).
Variable enc : A -> B.
(* the encoding maps the newline to the newline and nothing else to it *)
Hypothesis enc_nl : forall x, eqbB (enc x) nlB = eqbA x nlA.
Context {term : Type}.
Variable scanA : list term -> list A -> Z -> Z -> option (nat * term).
Variable scanB : list term -> list B -> Z -> Z -> option (nat * term).
Variable ignore : term -> bool.
Variable newline_types : term -> bool.

Lemma count_nl_map l : count_nl eqbB nlB (map enc l) = count_nl eqbA nlA l.
Proof. induction l as [|x l IH]; cbn [map count_nl]; [reflexivity|]. rewrite enc_nl, IH. reflexivity. Qed.

Lemma rindex_nl_map l : rindex_nl eqbB nlB (map enc l) = rindex_nl eqbA nlA l.
Proof. induction l as [|x l IH]; cbn [map rindex_nl]; [reflexivity|]. rewrite enc_nl, IH. reflexivity. Qed.

Lemma slice_map (l : list A) lo hi : slice (map enc l) lo hi = map enc (slice l lo hi).
Proof. unfold slice. rewrite skipn_map, firstn_map. reflexivity. Qed.

Lemma feed_map c v tn : feed eqbB nlB c (map enc v) tn = feed eqbA nlA c v tn.
Proof.
  unfold feed, rindex_z. rewrite count_nl_map, rindex_nl_map, map_length.
  reflexivity.
Qed.

Lemma advance_to_map c T pos : advance_to eqbB nlB c (map enc T) pos = advance_to eqbA nlA c T pos.
Proof.
  unfold advance_to, count_range, rindex_range, rindex_z.
  rewrite !slice_map, count_nl_map, rindex_nl_map. reflexivity.
Qed.

Lemma from_text_slice_map T a snap :
  from_text_slice eqbB nlB (map enc T) a snap = from_text_slice eqbA nlA T a snap.
Proof. unfold from_text_slice. destruct snap as [[? ?]|]; [reflexivity|]. rewrite advance_to_map. reflexivity. Qed.

Variable T : list A.
(* H_ascii: the bytes-compiled terminals match on the encoded text what the str-compiled ones
   match on the text *)
Hypothesis H_ascii : forall h p e, scanB h (map enc T) p e = scanA h T p e.

Definition enc_result (r : list (token A term) * outcome) : list (token B term) * outcome :=
  (map (enc_tok enc) (fst r), snd r).

Lemma lex_loop_enc fuel : forall hist e c,
  lex_loop eqbB nlB scanB ignore newline_types fuel hist (map enc T) e c =
  enc_result (lex_loop eqbA nlA scanA ignore newline_types fuel hist T e c).
Proof.
  induction fuel as [|f IH]; intros hist e c; cbn [lex_loop]; [reflexivity|].
  unfold lex_step. rewrite H_ascii.
  destruct (h_more (char_pos c) e); [|reflexivity].
  destruct (scanA hist T (char_pos c) e) as [[n ty]|]; [|reflexivity].
  rewrite slice_map, feed_map.
  destruct (ignore ty); [apply IH|].
  cbn [t_type]. rewrite IH.
  destruct (lex_loop eqbA nlA scanA ignore newline_types f (ty :: hist) T e _) as [ts o].
  reflexivity.
Qed.

Theorem bytes_eq_str a e snap :
  lex_slice eqbB nlB scanB ignore newline_types (map enc T) a e snap =
  enc_result (lex_slice eqbA nlA scanA ignore newline_types T a e snap).
Proof. unfold lex_slice. rewrite from_text_slice_map. apply lex_loop_enc. Qed.

End BytesEqStr.
