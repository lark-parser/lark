(* Positions of the tokens the Indenter emits (C18). *)
From Coq Require Import ZArith List Bool String Ascii Lia.
From LV Require Import Base.Prelude Sys.IndenterBase Gen.IndenterHoles Sys.Indenter Sys.Indenter_proofs Sys.IndenterPos.
Import ListNotations.

(* the position model's first half of the loop body is the one Indenter_proofs.phase1_spec / run_cons speak of *)
Lemma phase1_eq : IndenterPos.phase1 = Indenter_proofs.phase1.
Proof. reflexivity. Qed.

Section PosProofs.
Variable P : Type.

Lemma run_pos_forget cfg ts : forall st last,
  let '(o, s, e) := run_pos P cfg st last ts in (map fst o, s, e) = run cfg st (map fst ts).
Proof.
  induction ts as [|[t p] rest IH]; intros st last; cbn [run_pos map fst].
  - cbn [run]. destruct (final_pops cfg (stack st)) as [[o s] e].
    assert (M : map fst (map (fun t : tok => (t, last)) o) = o) by (rewrite map_map; cbn [fst]; apply map_id).
    destruct e; cbn; rewrite M; reflexivity.
  - rewrite run_cons, phase1_eq. destruct (Indenter_proofs.phase1 cfg st t) as [[o1 st1] e1].
    assert (M : map fst (map (fun x : tok => (x, Some p)) o1) = o1) by (rewrite map_map; cbn [fst]; apply map_id).
    destruct e1; [rewrite M; reflexivity|].
    destruct (step_paren cfg st1 t) as [st2 e2]. destruct e2; [rewrite M; reflexivity|].
    specialize (IH st2 (Some p)). destruct (run_pos P cfg st2 (Some p) rest) as [[o s] e].
    destruct (run cfg st2 (map fst rest)) as [[o' s'] e']. inversion IH; subst.
    rewrite map_app, M. reflexivity.
Qed.

Lemma pop_while_out cfg indent istr stk : forall o s e,
  pop_while cfg indent istr stk = (o, s, e) -> Forall (fun x => ttype x = dedent_type cfg) o.
Proof.
  induction stk as [|x r IH]; intros o s e Hp; cbn in Hp.
  - inversion Hp; constructor.
  - destruct (h_lt indent x).
    + destruct (pop_while cfg indent istr r) as [[o' s'] e'] eqn:Hr. inversion Hp; subst.
      constructor; [reflexivity|]. eapply IH; eauto.
    + destruct (h_ne indent x); inversion Hp; constructor.
Qed.

(* what the tokens handle_NL / the pass-through produce look like *)
Lemma phase1_out cfg st t o1 st1 e1 :
  IndenterPos.phase1 cfg st t = (o1, st1, e1) ->
  Forall (fun x => x = t \/ (ttype t = nl_type cfg /\ (ttype x = indent_type cfg \/ ttype x = dedent_type cfg))) o1.
Proof.
  unfold IndenterPos.phase1. destruct (String.eqb (ttype t) (nl_type cfg)) eqn:E.
  2:{ intros H; inversion H; subst. constructor; auto. }
  apply String.eqb_eq in E. unfold handle_NL.
  destruct (h_inparen (paren st)); [intros H; inversion H; constructor|].
  destruct (after_last_nl (tval t)) as [istr|]; [|intros H; inversion H; subst; constructor; auto].
  destruct (stack st) as [|top rs] eqn:Hs; [intros H; inversion H; subst; constructor; auto|].
  destruct (h_gt (h_indent cfg istr) top).
  - intros H; inversion H; subst. constructor; [auto|]. constructor; [right; cbn; auto|constructor].
  - destruct (pop_while cfg (h_indent cfg istr) istr (top :: rs)) as [[o s] e] eqn:Hp.
    pose proof (pop_while_out _ _ _ _ _ _ _ Hp) as Hd. intros H; inversion H; subst.
    constructor; [auto|]. eapply Forall_impl; [|exact Hd]. cbn. intros a Ha. right. auto.
Qed.

Lemma final_pops_out cfg stk o s e : final_pops cfg stk = (o, s, e) -> Forall (fun x => ttype x = dedent_type cfg) o.
Proof.
  revert o s e. induction stk as [|x r IH]; intros o s e H; cbn in H.
  - destruct (h_more []); inversion H; constructor.
  - destruct (h_more (x :: r)); [|inversion H; constructor].
    destruct (final_pops cfg r) as [[o' s'] e'] eqn:Hr. inversion H; subst. constructor; [reflexivity|]. eapply IH; eauto.
Qed.

Lemma last_cons {A} (r : list A) : forall t d, List.last (t :: r) d = List.last r t.
Proof.
  induction r as [|x r IH]; intros t d; [reflexivity|].
  change (List.last (t :: x :: r) d) with (List.last (x :: r) d). rewrite (IH x d), (IH x t). reflexivity.
Qed.

(* INDENT / DEDENT positions: every token of the output is an input token at its own position, or an INDENT / DEDENT carrying
   the position of a NEWLINE token of the input (the one whose handling emitted it), or one of the end-of-stream DEDENTs,
   carrying the position of the last token of the stream (of [last] when the stream given is empty). *)
Theorem run_pos_positions cfg ts : forall st last o s e,
  run_pos P cfg st last ts = (o, s, e) ->
  Forall (fun x : otok P =>
            (exists p, snd x = Some p /\ In (fst x, p) ts) \/
            (exists t p, snd x = Some p /\ In (t, p) ts /\ ttype t = nl_type cfg /\
                         (ttype (fst x) = indent_type cfg \/ ttype (fst x) = dedent_type cfg)) \/
            (ttype (fst x) = dedent_type cfg /\ snd x = List.last (map (fun tp => Some (snd tp)) ts) last)) o.
Proof.
  induction ts as [|[t p] rest IH]; intros st last o s e H; cbn [run_pos] in H.
  - destruct (final_pops cfg (stack st)) as [[o1 s1] e1] eqn:Hf.
    pose proof (final_pops_out _ _ _ _ _ Hf) as Hd.
    assert (o = map (fun t => (t, last)) o1) by (destruct e1; inversion H; auto). subst o.
    apply Forall_map. eapply Forall_impl; [|exact Hd]. intros x Hx. right; right. cbn. auto.
  - destruct (IndenterPos.phase1 cfg st t) as [[o1 st1] e1] eqn:Hph.
    pose proof (phase1_out _ _ _ _ _ _ Hph) as Hout.
    (* the output is what this token produced, then nothing (error) or the output of the run over the rest *)
    assert (Ho : exists o', o = map (fun x => (x, Some p)) o1 ++ o' /\
                   (o' = [] \/ exists st2 s2 e2, run_pos P cfg st2 (Some p) rest = (o', s2, e2))).
    { destruct e1; [inversion H; exists []; rewrite app_nil_r; auto|].
      destruct (step_paren cfg st1 t) as [st2 e2]. destruct e2; [inversion H; exists []; rewrite app_nil_r; auto|].
      destruct (run_pos P cfg st2 (Some p) rest) as [[o2 s2] e2] eqn:Hr. inversion H. exists o2. split; eauto. }
    destruct Ho as (o' & -> & Ho). apply Forall_app. split.
    { apply Forall_map. eapply Forall_impl; [|exact Hout]. intros x [-> | (Hnl & Hty)]; cbn [fst snd].
      - left. exists p. cbn. auto.
      - right; left. exists t, p. cbn. auto. }
    destruct Ho as [->|(st2 & s2 & e2 & Hr)]; [constructor|].
    specialize (IH _ _ _ _ _ Hr). eapply Forall_impl; [|exact IH].
    intros x [ (p0 & A & B) | [ (t0 & p0 & A & B & C) | (A & B) ] ].
    + left. exists p0. split; auto. right; auto.
    + right; left. exists t0, p0. split; auto. split; [right; auto|auto].
    + right; right. split; auto. rewrite B. cbn [map snd]. symmetry. apply last_cons.
Qed.

(* the explicit zero-position Token(...) of _process is dead code: process() starts at level [0], so a stream without
   tokens ends without any DEDENT *)
Theorem no_zero_position_dedent cfg : process_pos P cfg [] = ([], mkSt h_p0 [h_i0], Done).
Proof. reflexivity. Qed.
End PosProofs.
