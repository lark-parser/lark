(* C14 - proofs about the instantiation Scan/ScanInst.v: the hypotheses of the abstract scan theorems are
   derived from the lexer / driver models and a few stated properties of the regex oracle. *)
From Coq Require Import List Arith Bool Lia ZArith.
From LV Require Import Cfg.Grammar Gen.ScanHoles Scan.Scan Scan.Scan_proofs Scan.ScanInst.
From LV Require Pos.PosBase Gen.LineCounter Gen.LexStep Pos.Coord Pos.LineCounter_proofs Pos.LexCoords
  Pos.LexCoords_proofs Pos.Repr_proofs Pos.Current Pos.TreeShift Pos.TreeShift_proofs Shape.Chain LR.Driver.
Import ListNotations.

Lemma filter_prefix_split {X} (f : X -> bool) raw : forall l rest, l <> [] -> filter f raw = l ++ rest ->
  exists raw1 raw2, raw = raw1 ++ raw2 /\ filter f raw1 = l /\ raw1 <> [] /\ forall d, last raw1 d = last l d.
Proof.
  induction raw as [|x raw IH]; intros l rest Hl E; cbn [filter] in E.
  - destruct l; [contradiction | discriminate].
  - destruct (f x) eqn:Fx.
    + destruct l as [|y l]; [contradiction|]. cbn [app] in E. injection E as -> E.
      destruct l as [|z l].
      * exists [y], raw. cbn [app filter]. rewrite Fx. repeat split; auto; discriminate.
      * destruct (IH (z :: l) rest ltac:(discriminate) E) as (r1 & r2 & -> & F1 & N1 & L1).
        exists (y :: r1), r2. cbn [app filter]. rewrite Fx, F1. repeat split; auto; try discriminate.
        intros d. destruct r1 as [|a r1]; [contradiction|].
        change (last (a :: r1) d = last (z :: l) d). apply L1.
    + destruct (IH l rest Hl E) as (r1 & r2 & -> & F1 & N1 & L1).
      exists (x :: r1), r2. cbn [app filter]. rewrite Fx. repeat split; auto; try discriminate.
      intros d. destruct r1 as [|a r1]; [contradiction|].
      change (last (x :: a :: r1) d) with (last (a :: r1) d). apply L1.
Qed.

Definition ends_at (l : list tok) (p e : nat) : Prop :=
  match l with [] => e = p | t :: r => tk_end (last r t) = e end.

Lemma ends_at_cons t r p : ends_at (t :: r) p (tk_end (last r t)).
Proof. reflexivity. Qed.

Lemma ends_at_snoc a x p : ends_at (a ++ [x]) p (tk_end x).
Proof. destruct a as [|t a]; [reflexivity|]. cbn [app ends_at]. now rewrite last_last. Qed.

Section RawLexProofs.
  Context {A : Type}.
  Variable scan : list nat -> list A -> Z -> Z -> option (nat * nat).
  Variable ignore : nat -> bool.
  Variable T : list A.
  Notation rawlex := (rawlex scan ignore T).

  (* zero-width terminals are rejected when the lexer is built *)
  Definition scan_positive : Prop := forall h p e n ty,
    scan h T (Z.of_nat p) (Z.of_nat e) = Some (n, ty) -> 0 < n.
  (* the engine honours endpos *)
  Definition scan_bounded : Prop := forall h p e n ty,
    scan h T (Z.of_nat p) (Z.of_nat e) = Some (n, ty) -> p + n <= e.
  (* no look-ahead: cutting the text anywhere after the end of a match does not change the match *)
  Definition scan_endfree : Prop := forall h p e e' n ty,
    scan h T (Z.of_nat p) (Z.of_nat e') = Some (n, ty) -> p + n <= e -> e <= e' ->
    scan h T (Z.of_nat p) (Z.of_nat e) = Some (n, ty).

  Lemma rawlex_step f h p e :
    rawlex (S f) h p e =
    if p <? e then
      match scan h T (Z.of_nat p) (Z.of_nat e) with
      | None => ([], RErr p)
      | Some (n, ty) =>
          (mkTok ty p (p + n) (ignore ty)
             :: fst (rawlex f (if ignore ty then h else ty :: h) (p + n) e),
           snd (rawlex f (if ignore ty then h else ty :: h) (p + n) e))
      end
    else ([], RDone).
  Proof. cbn [ScanInst.rawlex]. destruct (p <? e); [|reflexivity]. destruct (scan _ _ _ _) as [[n ty]|]; reflexivity. Qed.

  Lemma rawlex_cons_inv f h p e t l o : rawlex f h p e = (t :: l, o) ->
    exists f' n ty, f = S f' /\ p < e /\ scan h T (Z.of_nat p) (Z.of_nat e) = Some (n, ty) /\
      t = mkTok ty p (p + n) (ignore ty) /\ rawlex f' (if ignore ty then h else ty :: h) (p + n) e = (l, o).
  Proof.
    destruct f as [|f']; [discriminate|]. rewrite rawlex_step.
    destruct (Nat.ltb_spec p e) as [Lt|_]; [|discriminate].
    destruct (scan h T (Z.of_nat p) (Z.of_nat e)) as [[n ty]|] eqn:Es; [|discriminate].
    destruct (rawlex f' (if ignore ty then h else ty :: h) (p + n) e) as [a b] eqn:Er. cbn [fst snd].
    intros [= <- <- <-]. exists f', n, ty. repeat split; auto.
  Qed.

  Hypothesis Hpos : scan_positive.
  Hypothesis Hbnd : scan_bounded.

  (* the tokens tile [p, ...) inside the window: the chain hypothesis of the abstract theorems *)
  Lemma rawlex_chain e f : forall h p, chain e p (fst (rawlex f h p e)).
  Proof.
    induction f as [|f IH]; intros h p; [exact I|].
    rewrite rawlex_step. destruct (p <? e) eqn:Lt; [|exact I].
    destruct (scan h T (Z.of_nat p) (Z.of_nat e)) as [[n ty]|] eqn:Es; [|exact I].
    pose proof (Hpos _ _ _ _ _ Es). pose proof (Hbnd _ _ _ _ _ Es).
    cbn [fst chain tk_start tk_end]. repeat split; try lia. apply IH.
  Qed.

  Lemma chain_mono_wb wb wb' lo l : wb <= wb' -> chain wb lo l -> chain wb' lo l.
  Proof.
    intros L. revert lo. induction l as [|t l IH]; intros lo; cbn [chain]; [tauto|].
    intros (H1 & H2 & H3 & H4). repeat split; auto; lia.
  Qed.

  Lemma rawlex_fuel e f1 : forall f2 h p, e - p < f1 -> e - p < f2 -> rawlex f1 h p e = rawlex f2 h p e.
  Proof.
    induction f1 as [|f1 IH]; intros f2 h p L1 L2; [lia|]. destruct f2 as [|f2]; [lia|].
    rewrite !rawlex_step. destruct (p <? e) eqn:Lt; [|reflexivity].
    destruct (scan h T (Z.of_nat p) (Z.of_nat e)) as [[n ty]|] eqn:Es; [|reflexivity].
    pose proof (Hpos _ _ _ _ _ Es). apply Nat.ltb_lt in Lt.
    rewrite (IH f2); [reflexivity | lia | lia].
  Qed.

  Lemma rawlex_skip e pre : forall f h p t rest o, e - p < f ->
    rawlex f h p e = (pre ++ t :: rest, o) -> Forall (fun u => tk_ign u = true) pre ->
    forall f', e - tk_start t < f' -> rawlex f' h (tk_start t) e = (t :: rest, o).
  Proof.
    induction pre as [|x pre IH]; intros f h p t rest o Lf E Fp f' Lf'; cbn [app] in E;
      destruct (rawlex_cons_inv _ _ _ _ _ _ _ E) as (f0 & n & ty & -> & Lt & Es & Et & Er).
    - rewrite <- E. rewrite Et in *. apply rawlex_fuel; cbn [tk_start] in *; lia.
    - pose proof (Hpos _ _ _ _ _ Es). pose proof (Forall_inv Fp) as Gx. cbn beta in Gx.
      rewrite Et in Gx. cbn [tk_ign] in Gx. rewrite Gx in Er.
      apply (IH f0 h (p + n) t rest o); auto; [lia | exact (Forall_inv_tail Fp)].
  Qed.

  Hypothesis Hend : scan_endfree.

  Lemma rawlex_restrict wb e l1 : forall f h p l2 o, wb - p < f -> p <= e -> e <= wb ->
    rawlex f h p wb = (l1 ++ l2, o) -> ends_at l1 p e ->
    forall f', e - p < f' -> rawlex f' h p e = (l1, RDone).
  Proof.
    induction l1 as [|t l1 IH]; intros f h p l2 o Lf L1 L2 E N f' Lf'; cbn [ends_at] in N.
    - rewrite N. destruct f' as [|f']; [lia|]. rewrite rawlex_step, Nat.ltb_irrefl. reflexivity.
    - pose proof (rawlex_chain wb f h p) as C. rewrite E in C. cbn [fst] in C.
      cbn [app] in E. destruct (rawlex_cons_inv _ _ _ _ _ _ _ E) as (f0 & n & ty & -> & Lt & Es & Et & Er).
      pose proof (Hpos _ _ _ _ _ Es) as Hn.
      assert (Ee : tk_end t = p + n) by (rewrite Et; reflexivity).
      (* the first token ends before e *)
      assert (Le : p + n <= e).
      { apply chain_app_l, chain_last in C. lia. }
      pose proof (Hend _ _ _ _ _ _ Es Le L2) as Es'.
      destruct f' as [|f']; [lia|]. rewrite rawlex_step.
      destruct (Nat.ltb_spec p e); [|lia]. rewrite Es'.
      rewrite (IH f0 _ (p + n) l2 o); try lia; [rewrite Et; reflexivity | exact Er |].
      destruct l1 as [|a l1]; [cbn [last] in N; cbn [ends_at]; lia | rewrite last_cons in N; exact N].
  Qed.
End RawLexProofs.

Section DriverFacts.
  Context {A : Type}.
  Variable tnum : nat -> nat.
  Variable P : Driver.ptable.
  Variable fuel : nat.
  Notation ltoken := (LexCoords.token A nat).
  Notation run := (TreeShift.run_tokens (A := A) tnum P fuel).

  Definition shifted (o : Driver.outcome ltoken) : bool :=
    match o with Driver.Shifted _ => true | _ => false end.

  (* feeding is prefix-closed: if x ++ y can be fed, so can x; and feeding x ++ y is feeding y from where
     x left the parser (the parser a trial was made on is a value: a trial cannot disturb it) *)
  Lemma run_tokens_app x : forall c y,
    run c (x ++ y) =
    match run c x with
    | (Driver.Shifted c', _) => run c' y
    | r => r
    end.
  Proof.
    induction x as [|k x IH]; intros c y; [reflexivity|].
    cbn [app TreeShift.run_tokens].
    destruct (Driver.feed ltoken (TreeShift.ttype tnum) P fuel c k false); try reflexivity. apply IH.
  Qed.

  Lemma run_tokens_prefix x y c : shifted (fst (run c (x ++ y))) = true -> shifted (fst (run c x)) = true.
  Proof.
    rewrite run_tokens_app. destruct (run c x) as [[c'| | | | |] k]; cbn [fst shifted]; auto.
  Qed.

  Lemma feed_end_accepted c k d :
    Driver.feed ltoken (TreeShift.ttype tnum) P fuel c k true = Driver.Accepted d ->
    exists q ss a, Driver.sstack c = q :: ss /\ Driver.pt_action P q (Grammar.T (TreeShift.ttype tnum k)) = Some a.
  Proof.
    destruct fuel as [|f]; cbn [Driver.feed]; [discriminate|].
    destruct (Driver.sstack c) as [|q ss]; [discriminate|].
    destruct (Driver.pt_action P q (Grammar.T (TreeShift.ttype tnum k))) as [a|] eqn:Ea; [|discriminate].
    intros _. exists q, ss, a. split; [reflexivity | exact Ea].
  Qed.
End DriverFacts.

Section InstProofs.
  Context {A : Type}.
  Variable eqb : A -> A -> bool.
  Variable nl : A.
  Variable scan : list nat -> list A -> Z -> Z -> option (nat * nat).
  Variable ignore newline_types : nat -> bool.
  Variable T : list A.
  Variable wa wb : nat.
  Variable starts : nat -> bool.
  Variable rr : rule -> Chain.rrec.
  Variable mp : bool.
  Variable tnum : nat -> nat.
  Variable end_term : nat.
  Variable P : Driver.ptable.
  Variable fuel : nat.

  Notation ltoken := (LexCoords.token A nat).
  Notation presult := (TreeShift.presult A nat).
  Notation rawlex := (ScanInst.rawlex scan ignore T).
  Notation lexI := (ScanInst.lexI scan ignore T wb).
  Notation retok := (ScanInst.retok eqb nl T).
  Notation drive := (ScanInst.drive eqb nl T tnum P fuel).
  Notation feed_okI := (ScanInst.feed_okI eqb nl T tnum P fuel).
  Notation end_tokenI := (ScanInst.end_tokenI eqb nl T end_term).
  Notation end_choiceI := (ScanInst.end_choiceI eqb nl T tnum end_term P fuel).
  Notation end_trialI := (ScanInst.end_trialI eqb nl T tnum end_term P fuel).
  Notation parse_tokensI := (ScanInst.parse_tokensI eqb nl T rr mp tnum end_term P fuel).
  Notation searchI := (ScanInst.searchI wb starts).
  Notation snip_tokensI := (ScanInst.snip_tokensI eqb nl scan ignore T tnum P fuel).
  Notation boundaryb := (ScanInst.boundaryb scan ignore T wb).
  Notation snip_tokensB := (ScanInst.snip_tokensB eqb nl scan ignore T wb tnum P fuel).
  Notation isnlI := (ScanInst.isnlI eqb nl T).
  Notation itersI := (ScanInst.itersI eqb nl scan ignore T wa wb starts tnum end_term P fuel).
  Notation scanI := (ScanInst.scanI eqb nl scan ignore T wa wb starts rr mp tnum end_term P fuel).
  Notation parse_windowI := (ScanInst.parse_windowI eqb nl scan ignore newline_types T rr mp tnum end_term P fuel).
  Notation acceptsI := (accepts_end end_choiceI end_trialI).

  Hypothesis Hpos : scan_positive scan T.
  Hypothesis Hbnd : scan_bounded scan T.

  Lemma lexI_chain m : chain wb m (lexI m).
  Proof. apply rawlex_chain; assumption. Qed.

  Lemma searchI_range p m : searchI p = Some m -> p <= m /\ m <= wb.
  Proof. apply search_of_range. Qed.

  Lemma searchI_lt p m : searchI p = Some m -> m < wb /\ starts m = true.
  Proof.
    unfold ScanInst.searchI, search_of. intros E. apply find_from_some in E. split; [lia | tauto].
  Qed.

  Lemma feed_okI_prefix_closed : H_feed_prefix_closed feed_okI.
  Proof.
    intros x y. unfold ScanInst.feed_okI, ScanInst.drive. rewrite map_app.
    apply (run_tokens_prefix tnum P fuel).
  Qed.

  Lemma end_token_type l : TreeShift.ttype tnum (end_tokenI l) = tnum end_term.
  Proof. unfold ScanInst.end_tokenI, TreeShift.end_token, TreeShift.ttype. destruct (TreeShift.last_tok _); reflexivity. Qed.

  (* '$END' in choices() is implied by a successful trial: the guard only saves work *)
  Lemma acceptsI_trial l : acceptsI l = end_trialI l.
  Proof.
    unfold accepts_end, ScanInst.end_choiceI, ScanInst.end_trialI.
    destruct (fst (drive l)) as [c| | | | |]; try reflexivity.
    destruct (Driver.feed ltoken (TreeShift.ttype tnum) P fuel c (end_tokenI l) true) as [|d| | | |] eqn:E;
      try apply andb_false_r.
    apply feed_end_accepted in E. destruct E as (q & ss & a & -> & Ea).
    rewrite end_token_type in Ea. rewrite Ea. reflexivity.
  Qed.

  Hypothesis Hend : scan_endfree scan T.

  Lemma main_stream_filter m : main_stream lexI m = filter nonign (lexI m).
  Proof. reflexivity. Qed.

  Lemma lexI_raw m : exists o, rawlex (S (wb - m)) [] m wb = (lexI m, o).
  Proof. unfold ScanInst.lexI, lex_fromI. destruct (rawlex (S (wb - m)) [] m wb) as [a b]. eauto. Qed.

  Lemma nonign_false_ign pre : Forall (fun y => nonign y = false) pre -> Forall (fun u => tk_ign u = true) pre.
  Proof. apply Forall_impl. intros u. unfold nonign. destruct (tk_ign u); [reflexivity | discriminate]. Qed.

  (* lexing again from the start of the first non-ignored token gives that token and what followed it: the lexer is
     memoryless in the start state *)
  Lemma lexI_first m t r : main_stream lexI m = t :: r ->
    tk_start t <= wb /\ nonign t = true /\
    exists post o, rawlex (S (wb - tk_start t)) [] (tk_start t) wb = (t :: post, o) /\ filter nonign post = r.
  Proof.
    intros Em. rewrite main_stream_filter in Em.
    destruct (filter_cons_split _ _ _ _ Em) as (pre & post & Eraw & Fpre & Ft & Fpost).
    apply nonign_false_ign in Fpre.
    destruct (lexI_raw m) as (o & Er). pose proof (lexI_chain m) as C. rewrite Eraw in Er, C.
    pose proof (chain_in_bounds _ _ _ _ C (in_elt t pre post)) as Bt.
    split; [lia|]. split; [exact Ft|]. exists post, o. split; [|exact Fpost].
    apply (rawlex_skip scan ignore T Hpos wb pre (S (wb - m)) [] m); auto; lia.
  Qed.

  (* prefix -> snippet: needs only that the regex oracle has no look-ahead *)
  Lemma stable_prefix_to_snippet : H_stable_prefix_to_snippet lexI feed_okI snip_tokensI.
  Proof.
    intros m l rest t r Em -> Fl. cbn [app] in Em.
    destruct (lexI_first m t (r ++ rest) Em) as (Bt & Ft & post0 & o & Es & Fpost).
    set (s := tk_start t) in *.
    (* the raw tokens from s on, cut where the prefix ends *)
    destruct (filter_prefix_split nonign (t :: post0) (t :: r) rest ltac:(discriminate)
                ltac:(cbn [filter]; rewrite Ft, Fpost; reflexivity)) as (raw1 & raw2 & Eraw & F1 & N1 & L1).
    destruct raw1 as [|t' post]; [contradiction|]. injection Eraw as <- ->.
    pose proof (rawlex_chain scan ignore T Hpos Hbnd wb (S (wb - s)) [] s) as Cs.
    rewrite Es in Cs. cbn [fst] in Cs.
    change (t :: post ++ raw2) with ((t :: post) ++ raw2) in Cs, Es.
    pose proof (chain_app_l _ _ _ _ Cs) as Cl. apply chain_last in Cl.
    (* the end of the snippet is the end of the last raw token of the prefix *)
    assert (Elast : last post t = last_tok t r) by (unfold last_tok; rewrite <- (last_cons t post t), <- (last_cons t r t); apply L1).
    set (e := tk_end (last_tok t r)) in *.
    pose proof (rawlex_restrict scan ignore T Hpos Hbnd Hend wb e (t :: post) (S (wb - s)) [] s raw2 o
                  ltac:(lia) ltac:(unfold e; rewrite <- Elast; lia) ltac:(unfold e; rewrite <- Elast; lia) Es
                  ltac:(unfold e; rewrite <- Elast; apply ends_at_cons) (S (e - s)) ltac:(lia)) as Rr.
    unfold ScanInst.snip_tokensI. fold s e. rewrite Rr, F1, Fl. reflexivity.
  Qed.

  Lemma snip_tokensB_some s e l :
    snip_tokensB s e = Some l <-> e <= wb /\ boundaryb s e = true /\ snip_tokensI s e = Some l.
  Proof.
    unfold ScanInst.snip_tokensB. destruct (Nat.leb_spec e wb) as [L|L]; cbn [andb].
    - destruct (boundaryb s e); [split; [auto | intros (_ & _ & E); exact E] | split; [discriminate | intros (_ & [=] & _)]].
    - split; [discriminate | lia].
  Qed.

  Lemma boundaryb_split s e : boundaryb s e = true ->
    s < e <= wb /\ exists a x l2, lexI s = a ++ x :: l2 /\ tk_end x = e.
  Proof.
    unfold ScanInst.boundaryb. intros Bd. apply existsb_exists in Bd. destruct Bd as (x & Ix & Ex).
    apply Nat.eqb_eq in Ex. pose proof (chain_in_bounds _ _ _ _ (lexI_chain s) Ix). split; [lia|].
    apply in_split in Ix. destruct Ix as (a & l2 & E). eauto.
  Qed.

  (* snippet -> prefix, for the snippets whose end is a token boundary of lexing the rest of the text (F8 exclusion) *)
  Lemma stable_snippet_to_prefix : H_stable_snippet_to_prefix lexI feed_okI end_choiceI end_trialI snip_tokensB.
  Proof.
    intros s e l Es Ti _. apply snip_tokensB_some in Es. destruct Es as (Le & Bd & Es).
    destruct (boundaryb_split s e Bd) as (Lse & a & x & l2 & Eraw & Ex).
    destruct (lexI_raw s) as (o & Er). rewrite Eraw in Er.
    replace (a ++ x :: l2) with ((a ++ [x]) ++ l2) in Er, Eraw by (rewrite <- app_assoc; reflexivity).
    pose proof (rawlex_restrict scan ignore T Hpos Hbnd Hend wb e (a ++ [x]) (S (wb - s)) [] s l2 o
                  ltac:(lia) ltac:(lia) Le Er ltac:(rewrite <- Ex; apply ends_at_snoc) (S (e - s)) ltac:(lia)) as Rr.
    unfold ScanInst.snip_tokensI in Es. rewrite Rr in Es.
    destruct (feed_okI (filter nonign (a ++ [x]))) eqn:Fo; [|discriminate]. injection Es as <-.
    split; [exact Fo|]. exists (filter nonign l2). rewrite main_stream_filter, Eraw. apply filter_app.
  Qed.

  Lemma skipI : H_skip searchI lexI.
  Proof.
    intros p m t r _ Em. destruct (lexI_first m t r Em) as (_ & Ft & post & o & Es & Fpost).
    rewrite main_stream_filter. unfold ScanInst.lexI, lex_fromI. rewrite Es. cbn [fst filter]. rewrite Ft, Fpost.
    reflexivity.
  Qed.

  (* the F28 exclusion and the search scanner *)
  (* wherever the search scanner matches, the lexer's scanner yields a non-ignored terminal *)
  Definition H_nonignored_wins : Prop := forall m, m < wb -> starts m = true ->
    exists n ty, scan [] T (Z.of_nat m) (Z.of_nat wb) = Some (n, ty) /\ ignore ty = false.
  (* the search scanner knows every non-ignored terminal the start-state lexer can produce *)
  Definition H_search_covers : Prop := forall s e n ty, e <= wb ->
    scan [] T (Z.of_nat s) (Z.of_nat e) = Some (n, ty) -> ignore ty = false -> starts s = true.

  Lemma headI : H_nonignored_wins -> H_head searchI lexI.
  Proof.
    intros Hw p m t r Sr Em. destruct (searchI_lt _ _ Sr) as (Lm & Sm).
    destruct (Hw m Lm Sm) as (n & ty & Es & Ig).
    rewrite main_stream_filter in Em. unfold ScanInst.lexI, lex_fromI in Em. rewrite rawlex_step in Em.
    assert (E : m <? wb = true) by (apply Nat.ltb_lt; lia). rewrite E, Es, Ig in Em.
    cbn [fst filter nonign tk_ign negb] in Em. injection Em as <- _. reflexivity.
  Qed.

  Lemma startsI : H_search_covers -> H_starts starts snip_tokensB.
  Proof.
    intros Hc s e t r Es St. apply snip_tokensB_some in Es. destruct Es as (Le & _ & Es).
    unfold ScanInst.snip_tokensI in Es.
    destruct (rawlex (S (e - s)) [] s e) as [ts o] eqn:Er. destruct o; try discriminate.
    destruct (feed_okI (filter nonign ts)); [|discriminate]. injection Es as Ef.
    apply filter_cons_split in Ef. destruct Ef as (pre & post & -> & _ & Ft & _).
    destruct pre as [|x pre]; cbn [app] in Er;
      destruct (rawlex_cons_inv _ _ _ _ _ _ _ _ _ _ Er) as (f0 & n & ty & _ & Lt & Esc & Et & Er').
    - rewrite Et in Ft. unfold nonign in Ft. cbn [tk_ign] in Ft.
      apply (Hc s e n ty Le Esc). destruct (ignore ty); [discriminate | reflexivity].
    - (* t comes after the first raw token: it cannot start at s *)
      exfalso. pose proof (Hpos _ _ _ _ _ Esc).
      pose proof (rawlex_chain scan ignore T Hpos Hbnd e f0 (if ignore ty then [] else [ty]) (s + n)) as C.
      rewrite Er' in C. pose proof (chain_in_bounds _ _ _ _ C (in_elt t pre post)). lia.
  Qed.

  Hypothesis HwbT : wb <= length T.

  Definition outI (r : rend) : LexCoords.outcome :=
    match r with
    | RDone => LexCoords.Done
    | RErr q => LexCoords.Unexpected (Z.of_nat q) (Coord.line_of eqb nl T q) (Coord.col_of eqb nl T q)
    | RFuel => LexCoords.OutOfFuel
    end.

  Lemma lex_loop_rawlex e (He : e <= length T) f : forall h p c, p <= e -> Coord.at_coord eqb nl T p c ->
    LexCoords.lex_loop eqb nl scan ignore newline_types f h T (Z.of_nat e) c =
    (map retok (filter nonign (fst (rawlex f h p e))), outI (snd (rawlex f h p e))).
  Proof.
    induction f as [|f IH]; intros h p c Lp Hc; [reflexivity|].
    cbn [LexCoords.lex_loop]. unfold LexCoords.lex_step. rewrite rawlex_step.
    pose proof Hc as (Hcp & Hln & Hcol & _). rewrite Hcp. unfold LexStep.h_more.
    destruct (Nat.ltb_spec p e) as [Lt|Ge]; destruct (Z.ltb_spec (Z.of_nat p) (Z.of_nat e)) as [Lt'|Ge']; try lia;
      [|reflexivity].
    destruct (scan h T (Z.of_nat p) (Z.of_nat e)) as [[n ty]|] eqn:Es.
    2:{ cbn [fst snd filter map outI]. rewrite Hcp, Hln, Hcol. reflexivity. }
    pose proof (Hbnd _ _ _ _ _ Es) as Hb.
    rewrite LexCoords_proofs.slice_len.
    set (value := firstn n (skipn p T)).
    assert (Hc' : Coord.at_coord eqb nl T (p + n)
                    (LineCounter.feed eqb nl c value (LexStep.h_testnl newline_types ty))).
    { apply LineCounter_proofs.feed_tracks_coord; [lia | exact Hc | left; apply Current.h_testnl_true]. }
    set (c' := LineCounter.feed eqb nl c value (LexStep.h_testnl newline_types ty)) in *. clearbody c'.
    destruct (ignore ty) eqn:Ig.
    - rewrite (IH h (p + n) c' ltac:(lia) Hc'). cbn [fst snd filter nonign tk_ign negb]. reflexivity.
    - cbn [LexCoords.t_type]. rewrite (IH (ty :: h) (p + n) c' ltac:(lia) Hc').
      cbn [fst snd filter nonign tk_ign negb map]. f_equal. f_equal.
      destruct Hc' as (Hcp' & Hln' & Hcol' & _).
      unfold ScanInst.retok. cbn [tk_type tk_start tk_end].
      replace (p + n - p) with n by lia. fold value. f_equal; congruence.
  Qed.

  Lemma lex_slice_rawlex s e snap : s <= e -> e <= length T ->
    (snap = None \/ snap = Some (Coord.line_of eqb nl T s, Coord.line_start_of eqb nl T s)) ->
    LexCoords.lex_slice eqb nl scan ignore newline_types T (Z.of_nat s) (Z.of_nat e) snap =
    (map retok (filter nonign (fst (rawlex (S (e - s)) [] s e))), outI (snd (rawlex (S (e - s)) [] s e))).
  Proof.
    intros L1 L2 Hs. unfold LexCoords.lex_slice.
    replace (Z.to_nat (Z.of_nat e - Z.of_nat s)) with (e - s) by lia.
    apply lex_loop_rawlex; [exact L2 | exact L1 |].
    apply LineCounter_proofs.from_text_slice_coord; [lia | exact Hs].
  Qed.

  Lemma parse_window_snip s e l : s <= e -> e <= length T ->
    snip_tokensI s e = Some l -> parse_windowI s e = parse_tokensI l.
  Proof.
    intros L1 L2 Es. unfold ScanInst.parse_windowI, TreeShift.parse_slice.
    rewrite (lex_slice_rawlex s e None L1 L2 (or_introl eq_refl)).
    unfold ScanInst.snip_tokensI in Es.
    destruct (rawlex (S (e - s)) [] s e) as [ts o]. destruct o; try discriminate.
    destruct (feed_okI (filter nonign ts)); [|discriminate]. injection Es as <-. reflexivity.
  Qed.

  Lemma parse_tokens_trial l :
    if end_trialI l
    then exists d, parse_tokensI l = match TreeShift.tree_of rr mp d with
                                     | Some v => TreeShift.RTree v
                                     | None => TreeShift.RCrash
                                     end
    else forall v, parse_tokensI l <> TreeShift.RTree v.
  Proof.
    unfold ScanInst.parse_tokensI, TreeShift.parse_tokens, ScanInst.end_trialI, ScanInst.drive, ScanInst.end_tokenI.
    destruct (TreeShift.run_tokens tnum P fuel (Driver.init_config P) (map retok l)) as [[c| | | | |] k];
      cbn [fst]; try (intros v; destruct k; discriminate).
    destruct (Driver.feed ltoken (TreeShift.ttype tnum) P fuel c
                (TreeShift.end_token end_term (TreeShift.last_tok (map retok l))) true) as [|d| | | |];
      try (intros v; discriminate).
    exists d. reflexivity.
  Qed.

  Hypothesis Hwin : wa <= wb.

  Lemma ordered_in (value : Type) lo (l : list (nat * nat * value)) s e v :
    ordered value wb lo l -> In (s, e, v) l -> lo <= s /\ s < e /\ e <= wb.
  Proof.
    revert lo. induction l as [|[[s' e'] v'] l IH]; intros lo; cbn [ordered In]; [tauto|].
    intros (H1 & H2 & H3 & H4) [[= -> -> ->]|I]; [lia|]. specialize (IH _ H4 I). lia.
  Qed.

  Lemma skipn_nth {X} (l : list X) : forall lo,
    skipn lo l = match nth_error l lo with Some x => x :: skipn (S lo) l | None => [] end.
  Proof. induction l as [|y l IH]; intros [|lo]; try reflexivity. apply IH. Qed.

  Lemma count_nl_bridge n : forall lo,
    Scan.count_nl isnlI lo n = PosBase.count_nl eqb nl (firstn n (skipn lo T)).
  Proof.
    induction n as [|n IH]; intros lo; [reflexivity|].
    cbn [Scan.count_nl]. unfold ScanInst.isnlI at 1. rewrite IH, (skipn_nth T lo).
    destruct (nth_error T lo) as [x|] eqn:E; [reflexivity|].
    rewrite skipn_all2, firstn_nil by (apply nth_error_None in E; lia). reflexivity.
  Qed.

  Lemma last_nl_bridge n : forall lo,
    Scan.last_nl isnlI lo n = option_map (fun i => lo + i) (PosBase.rindex_nl eqb nl (firstn n (skipn lo T))).
  Proof.
    induction n as [|n IH]; intros lo; [reflexivity|].
    cbn [Scan.last_nl]. unfold ScanInst.isnlI. rewrite IH, (skipn_nth T lo).
    destruct (nth_error T lo) as [x|] eqn:E.
    - cbn [firstn PosBase.rindex_nl].
      destruct (PosBase.rindex_nl eqb nl (firstn n (skipn (S lo) T))) as [i|]; cbn [option_map].
      + f_equal. lia.
      + destruct (eqb x nl); cbn [option_map]; [f_equal; lia | reflexivity].
    - rewrite skipn_all2, firstn_nil by (apply nth_error_None in E; lia). reflexivity.
  Qed.

  Lemma coord_bridge p : p <= length T ->
    Z.of_nat (Scan.line_of isnlI p) = Coord.line_of eqb nl T p /\
    Z.of_nat (Scan.lsp_of isnlI p) = Coord.line_start_of eqb nl T p.
  Proof.
    intros Lp. unfold Scan.line_of, Scan.lsp_of, Coord.line_of, Coord.line_start_of.
    rewrite count_nl_bridge, last_nl_bridge. cbn [skipn]. split; [reflexivity|].
    set (b := firstn p T). assert (Lb : length b = p) by (apply firstn_length_le; exact Lp).
    destruct (Nat.eq_dec (PosBase.count_nl eqb nl b) 0) as [Z0|N0].
    - rewrite (LineCounter_proofs.tail_len_nonl eqb nl b Z0), Lb.
      destruct (PosBase.rindex_nl eqb nl b) as [i|] eqn:E; cbn [option_map]; [|lia].
      exfalso. destruct (LineCounter_proofs.rindex_nl_split eqb nl b i E) as (b1 & x & b2 & Eb & _ & X & _).
      rewrite Eb, LineCounter_proofs.count_nl_app in Z0. cbn [PosBase.count_nl] in Z0. rewrite X in Z0. lia.
    - destruct (LineCounter_proofs.rindex_tail eqb nl b N0) as (i & -> & Li & ->). cbn [option_map]. lia.
  Qed.

  (* the mid-text lexer the loop starts - with the line-counter snapshot the loop itself computed - is the lexer
     model of Pos/LexCoords on the window [match_start, wb), and yields exactly the main stream of the turn with
     the coordinates of the full text *)
  Theorem loop_lexer_exact it : In it (fst itersI) ->
    let m := it_m it in
    (Z.of_nat (lc_line (it_lc it)), Z.of_nat (lc_lsp (it_lc it)))
      = (Coord.line_of eqb nl T m, Coord.line_start_of eqb nl T m) /\
    LexCoords.lex_slice eqb nl scan ignore newline_types T (Z.of_nat m) (Z.of_nat wb)
      (Some (Z.of_nat (lc_line (it_lc it)), Z.of_nat (lc_lsp (it_lc it)))) =
    (map retok (main_stream lexI m), outI (snd (rawlex (S (wb - m)) [] m wb))).
  Proof.
    intros I m.
    pose proof (scan_positions_global isnlI wa wb searchI lexI feed_okI end_choiceI end_trialI
                  searchI_range lexI_chain Hwin) as G.
    rewrite Forall_forall in G. specialize (G it I).
    pose proof (scan_longest_wrt_tokens isnlI wa wb searchI lexI feed_okI end_choiceI end_trialI) as K.
    rewrite Forall_forall in K. destruct (K it I) as (Sr & _). apply searchI_range in Sr. fold m in Sr, G.
    destruct (coord_bridge m ltac:(lia)) as (B1 & B2).
    assert (E : (Z.of_nat (lc_line (it_lc it)), Z.of_nat (lc_lsp (it_lc it)))
                = (Coord.line_of eqb nl T m, Coord.line_start_of eqb nl T m)).
    { rewrite G. cbn [Scan.coord lc_line lc_lsp]. rewrite B1, B2. reflexivity. }
    split; [exact E|]. rewrite E.
    rewrite (lex_slice_rawlex m wb _ ltac:(lia) HwbT (or_intror eq_refl)). reflexivity.
  Qed.

  Theorem scan_value_eq_parse_inst s e v : In (s, e, v) scanI ->
    wa <= s /\ s < e /\ e <= wb /\
    parse_windowI s e = v /\
    exists l d, snip_tokensI s e = Some l /\ end_trialI l = true /\
                v = match TreeShift.tree_of rr mp d with Some t => TreeShift.RTree t | None => TreeShift.RCrash end.
  Proof.
    intros I.
    pose proof (scan_ordered presult isnlI wa wb searchI lexI feed_okI end_choiceI end_trialI parse_tokensI
                  searchI_range lexI_chain Hwin) as (O & _).
    destruct (ordered_in _ _ _ _ _ _ O I) as (B1 & B2 & B3).
    pose proof (scan_value_eq_parse presult isnlI wa wb searchI lexI feed_okI end_choiceI end_trialI parse_tokensI
                  Hwin snip_tokensI stable_prefix_to_snippet s e v I) as Pv.
    unfold parse_snip in Pv. destruct (snip_tokensI s e) as [l|] eqn:Es; [|discriminate].
    destruct (acceptsI l) eqn:Ac; [|discriminate]. injection Pv as <-.
    rewrite acceptsI_trial in Ac.
    repeat split; auto.
    - apply parse_window_snip; auto; lia.
    - pose proof (parse_tokens_trial l) as Ht. rewrite Ac in Ht. destruct Ht as (d & Ed). exists l, d. auto.
  Qed.

  (* when the terminals have no look-around on the window (H_ctxfree of C15), the value is the parse of the
     extracted substring text[s:e] with offsets shifted by s and line / column looked up in the full text *)
  Theorem scan_value_eq_parse_substring_inst s e v : In (s, e, v) scanI ->
    (forall h (p : nat), s <= p < e ->
       scan h T (Z.of_nat p) (Z.of_nat e) =
       scan h (Repr_proofs.sub T s e) (Z.of_nat (p - s)) (Z.of_nat (e - s))) ->
    let ln := Repr_proofs.lnT eqb nl T in
    let col := Repr_proofs.colT eqb nl T in
    let zs := Z.of_nat s in
    v = TreeShift.map_presult (LexCoords.shift_tok zs ln col) (TreeShift.shift_trip zs ln col)
          (fun p => ((p + zs)%Z, ln (p + zs)%Z, col (p + zs)%Z))
          (TreeShift.parse_slice rr mp tnum end_term P eqb nl scan ignore newline_types fuel
             (Repr_proofs.sub T s e) 0%Z (Z.of_nat (e - s))).
  Proof.
    intros I Hcf. destruct (scan_value_eq_parse_inst s e v I) as (B1 & B2 & B3 & <- & _).
    unfold ScanInst.parse_windowI.
    apply (TreeShift_proofs.parse_window_shift eqb nl scan ignore newline_types rr mp tnum end_term P T s e fuel);
      try lia; [|exact Hcf].
    intros h p n ty. apply Hbnd.
  Qed.

  (* the stunted parse as the code runs it: one parser state threaded through the loop, the $END trial made
     on (a copy of) that very state.  In the driver model a state is a value, so the trial cannot disturb it;
     the loop below is the abstract [stunted] with the oracles [feed_okI] / [end_choiceI] / [end_trialI], which
     re-run the parser from the start state.  (At the level of the heap - shallow copy of the value stack,
     callbacks = {} - the same fact is C13's trial_feed_pure / hfeed_ctrl.) *)
  Fixpoint stunted_inc (c : Driver.config ltoken) (fed : list tok) (longest : nat) (rest : list tok)
    : list tok * nat :=
    match rest with
    | [] => (fed, longest)
    | t :: rest' =>
        match Driver.feed ltoken (TreeShift.ttype tnum) P fuel c (retok t) false with
        | Driver.Shifted c' =>
            let fed' := fed ++ [t] in
            let choice := match Driver.sstack c' with
                          | q :: _ => match Driver.pt_action P q (Grammar.T (tnum end_term)) with
                                      | Some _ => true | None => false end
                          | [] => false
                          end in
            let trial := match Driver.feed ltoken (TreeShift.ttype tnum) P fuel c' (end_tokenI fed') true with
                         | Driver.Accepted _ => true | _ => false end in
            stunted_inc c' fed' (if choice && trial then length fed' else longest) rest'
        | _ => (fed, longest)
        end
    end.

  Lemma drive_snoc fed t c : fst (drive fed) = Driver.Shifted c ->
    fst (drive (fed ++ [t])) = match Driver.feed ltoken (TreeShift.ttype tnum) P fuel c (retok t) false with
                               | Driver.Shifted c' => Driver.Shifted c'
                               | o => o
                               end.
  Proof.
    unfold ScanInst.drive. rewrite map_app, run_tokens_app.
    destruct (TreeShift.run_tokens tnum P fuel (Driver.init_config P) (map retok fed)) as [o k]. cbn [fst].
    intros ->. cbn [map TreeShift.run_tokens].
    destruct (Driver.feed ltoken (TreeShift.ttype tnum) P fuel c (retok t) false); reflexivity.
  Qed.

  Theorem stunted_incremental rest : forall c fed longest, fst (drive fed) = Driver.Shifted c ->
    stunted_inc c fed longest rest = stunted feed_okI end_choiceI end_trialI fed longest rest.
  Proof.
    induction rest as [|t rest IH]; intros c fed longest Hc; [reflexivity|].
    cbn [stunted_inc stunted]. pose proof (drive_snoc fed t c Hc) as D.
    unfold ScanInst.feed_okI at 1. rewrite D.
    destruct (Driver.feed ltoken (TreeShift.ttype tnum) P fuel c (retok t) false) as [c'| | | | |] eqn:F; try reflexivity.
    rewrite (IH c' (fed ++ [t]) _ D). f_equal.
    unfold accepts_end, ScanInst.end_choiceI, ScanInst.end_trialI. rewrite D. reflexivity.
  Qed.

  Lemma window_tree_accepts s e l v : s <= e -> e <= wb ->
    snip_tokensI s e = Some l -> parse_windowI s e = TreeShift.RTree v -> acceptsI l = true.
  Proof.
    intros L1 L2 Es Pw. rewrite acceptsI_trial. pose proof (parse_tokens_trial l) as Ht.
    destruct (end_trialI l); [reflexivity|]. destruct (Ht v). rewrite <- (parse_window_snip s e l); auto. lia.
  Qed.

  Theorem scan_longest_inst s e v : In (s, e, v) scanI ->
    forall e' l' v', e' <= wb -> boundaryb s e' = true ->
      snip_tokensI s e' = Some l' -> tight s e' l' -> parse_windowI s e' = TreeShift.RTree v' -> e' <= e.
  Proof.
    intros I e' l' v' Le Bd Es Ti Pw. destruct (boundaryb_split s e' Bd) as (Lse & _).
    apply (scan_longest presult isnlI wa wb searchI lexI feed_okI end_choiceI end_trialI parse_tokensI
             searchI_range lexI_chain Hwin snip_tokensB feed_okI_prefix_closed stable_snippet_to_prefix skipI
             s e v I e' l'); [apply snip_tokensB_some; auto | exact Ti |].
    apply (window_tree_accepts s e' l' v'); auto; lia.
  Qed.

  Theorem scan_no_miss_inst : H_nonignored_wins -> H_search_covers ->
    forall p e l v', wa <= p -> e <= wb -> boundaryb p e = true ->
      snip_tokensI p e = Some l -> tight p e l -> parse_windowI p e = TreeShift.RTree v' ->
    exists s' e' v, In (s', e', v) scanI /\ s' <= p < e'.
  Proof.
    intros Hw Hc p e l v' Lp Le Bd Es Ti Pw. destruct (boundaryb_split p e Bd) as (Lpe & _).
    apply (scan_no_miss presult isnlI wa wb searchI lexI feed_okI end_choiceI end_trialI parse_tokensI
             searchI_range lexI_chain Hwin starts snip_tokensB feed_okI_prefix_closed stable_snippet_to_prefix
             (headI Hw) (search_of_least starts wb) (search_of_none starts wb) (startsI Hc) p e l); auto.
    - apply snip_tokensB_some; auto.
    - apply (window_tree_accepts p e l v'); auto; lia.
  Qed.
End InstProofs.
