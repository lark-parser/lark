(* C11, stand-alone clause - same definitions => same runs.  The evaluator of Python code is a Section parameter
   with one hypothesis (locality: the result of running an entry point depends only on the definitions reachable
   from it through global-name references); everything else is proved. *)
From Coq Require Import List String Bool.
From LV Require Import Ser.StandaloneModel.
Import ListNotations.
Local Open Scope string_scope.
Local Open Scope list_scope.

Lemma mem_In x l : mem x l = true <-> In x l.
Proof.
  induction l as [|y r IH]; cbn; [split; [discriminate|contradiction]|].
  destruct (String.eqb_spec x y) as [->|N]; [split; auto|].
  rewrite IH. split; [auto|]. intros [E|H]; [congruence|exact H].
Qed.

Lemma forallb_ext_in {A} (f g : A -> bool) l : (forall x, In x l -> f x = g x) -> forallb f l = forallb g l.
Proof. intros H. induction l as [|x l IH]; cbn; [reflexivity|]. rewrite (H x), IH; auto using in_eq, in_cons. Qed.

Section SameProgram.
  Variable D : Type.                               (* a definition: its (normalised) abstract syntax *)
  Variable V : Type.                               (* observable result of a run *)
  Variable refs : D -> list string.                (* the global names a definition mentions *)
  Definition prog := string -> option D.           (* a program: finite map from names to definitions *)

  Inductive reachable (p : prog) (entry : string) : string -> Prop :=
  | reach_entry : reachable p entry entry
  | reach_ref m d n : reachable p entry m -> p m = Some d -> In n (refs d) -> reachable p entry n.

  Variable run : prog -> string -> V.              (* the abstract evaluator: run [entry] in program [p] *)
  Hypothesis run_local : forall p q entry,
    (forall n, reachable p entry n -> p n = q n) -> run p entry = run q entry.

  Lemma closure_sound (p : prog) cl entry :
    closure_ok_b (fun m => option_map refs (p m)) cl entry = true ->
    forall n, reachable p entry n -> In n cl.
  Proof.
    unfold closure_ok_b. intros H. apply andb_true_iff in H. destruct H as (He & Hc).
    rewrite forallb_forall in Hc. intros n R. induction R as [|m d n R IH Hm Hn].
    - apply mem_In. exact He.
    - specialize (Hc m IH). rewrite Hm in Hc. cbn in Hc. rewrite forallb_forall in Hc.
      apply mem_In. apply Hc. exact Hn.
  Qed.

  Theorem same_program (lib sa : prog) cl entry :
    closure_ok_b (fun m => option_map refs (sa m)) cl entry = true ->
    (forall n, In n cl -> sa n = lib n) ->
    run sa entry = run lib entry.
  Proof.
    intros Hcl Hsame. apply run_local. intros n R. apply Hsame. apply (closure_sound sa cl entry Hcl n R).
  Qed.
End SameProgram.

(* the list-based program of Ser/StandaloneModel.v seen as such a map, definitions identified by AST hash *)
Definition as_prog (p : list sdef) : string -> option (string * list string) :=
  fun n => option_map (fun d => (s_hash d, s_refs d)) (lookup n p).

Lemma closed_program_sound builtins allowed p r l :
  closed_program builtins allowed p = true -> In (r, l) (unprovided builtins p) -> In r allowed.
Proof.
  unfold closed_program. intros H Hin. rewrite forallb_forall in H. apply mem_In. apply (H (r, l) Hin).
Qed.

Lemma unprovided_complete builtins p d r :
  In d p -> In r (s_refs d) -> In r (provided p) \/ In r builtins \/ In (r, s_label d) (unprovided builtins p).
Proof.
  intros Hd Hr. destruct (mem r (provided p)) eqn:A; [left; apply mem_In; exact A|].
  destruct (mem r builtins) eqn:B; [right; left; apply mem_In; exact B|].
  right. right. unfold unprovided. apply in_flat_map. exists d. split; [exact Hd|].
  apply (in_map (fun r0 => (r0, s_label d))). apply filter_In. split; [exact Hr|]. rewrite A, B. reflexivity.
Qed.

(* closed program: every global name any extracted definition mentions is bound by the module, a builtin, or one
   of the declared construction / serialisation-only names *)
Theorem closed_program_spec builtins allowed p :
  closed_program builtins allowed p = true ->
  forall d r, In d p -> In r (s_refs d) -> In r (provided p) \/ In r builtins \/ In r allowed.
Proof.
  intros H d r Hd Hr. destruct (unprovided_complete builtins p d r Hd Hr) as [X|[X|X]]; auto.
  right. right. apply (closed_program_sound _ _ _ _ _ H X).
Qed.

(* import-time order: when a statement runs, everything it evaluates is already bound *)
Lemma ordered_from_spec p : forall seen,
  ordered_from seen p = true ->
  forall pre d post, p = pre ++ d :: post -> forall x, In x (s_eager d) -> In x seen \/ In x (provided pre).
Proof.
  induction p as [|e r IH]; intros seen H pre d post E x Hx; [destruct pre; discriminate|].
  cbn in H. apply andb_true_iff in H. destruct H as (H1 & H2).
  destruct pre as [|e' pre']; cbn in E; inversion E; subst.
  - left. rewrite forallb_forall in H1. apply mem_In. apply H1. exact Hx.
  - destruct (IH _ H2 pre' d post eq_refl x Hx) as [A|A].
    + apply in_app_or in A. destruct A as [A|A]; [right; unfold provided; cbn; apply in_or_app; auto|left; exact A].
    + right. unfold provided. cbn. apply in_or_app. right. exact A.
Qed.
Theorem ordered_program_spec builtins p :
  ordered_program builtins p = true ->
  forall pre d post, p = pre ++ d :: post -> forall x, In x (s_eager d) -> In x builtins \/ In x (provided pre).
Proof. exact (ordered_from_spec p builtins). Qed.

Lemma closure_ok_agree (f g : string -> option (list string)) cl entry :
  (forall n, In n cl -> f n = g n) -> closure_ok_b f cl entry = closure_ok_b g cl entry.
Proof. intros H. unfold closure_ok_b. f_equal. apply forallb_ext_in. intros m Hm. rewrite (H m Hm). reflexivity. Qed.

(* the generated module against the regenerated library program: definitions identified by (AST hash, references) *)
Theorem generated_module_same_runs (V : Type) (run : (string -> option (string * list string)) -> string -> V) :
  (forall p q entry, (forall n, reachable _ snd p entry n -> p n = q n) -> run p entry = run q entry) ->
  forall lib gen cl entry,
  closure_ok_b (fun m => option_map snd (as_prog lib m)) cl entry = true ->
  (forall n, In n cl -> as_prog gen n = as_prog lib n) ->
  run (as_prog gen) entry = run (as_prog lib) entry.
Proof.
  intros Hloc lib gen cl entry Hcl Hag.
  apply (same_program _ V snd run Hloc (as_prog lib) (as_prog gen) cl entry); [|exact Hag].
  rewrite <- Hcl. apply closure_ok_agree. intros n Hn. rewrite (Hag n Hn). reflexivity.
Qed.
