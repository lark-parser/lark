(* C05 on graph forests: for an acyclic label-keyed forest annotated with the priorities ForestSumVisitor leaves
   on the nodes, the tree kept by the resolve walk (children ordered by the regenerated PackedNode.sort_key) has
   the greatest total priority among all unfoldings the forest stores. *)
From Coq Require Import ZArith List Arith Bool Lia.
From LV Require Import Cfg.Grammar Forest.ExplicitBuild Forest.GraphResolve Forest.GraphResolve_proofs
  Gen.ForestSortKey Forest.Sppf Forest.Prio Forest.Prio_proofs.
Import ListNotations.
Local Open Scope Z_scope.

Section GraphPrio.
  Variable tok : Type.
  Variable teqb : tok -> tok -> bool.
  Hypothesis teqb_spec : forall a b, teqb a b = true <-> a = b.
  Variable fams : list (nlabel tok * family tok).

  Notation label := (nlabel tok).
  Notation F := (in_forest tok fams).
  Notation fams_of := (fams_of tok teqb fams).

  Variable rprio : rule -> Z.          (* rule.options.priority or 0 *)
  Variable rorder : rule -> Z.         (* rule.order *)
  Variable tprio : nat -> tok -> Z.    (* TokenNode.priority *)

  Fixpoint gprio (d : dt tok) : Z :=
    match d with
    | DL _ t x => tprio t x
    | DN _ r ks => rprio r + fold_right (fun k acc => gprio k + acc) 0 ks
    end.
  Definition gfprio (ds : list (dt tok)) : Z := fold_right (fun k acc => gprio k + acc) 0 ds.

  (* the priorities on the nodes after ForestSumVisitor: on an acyclic forest its single post-order walk leaves the
     unique solution of these equations (token: its own priority; packed node: rule priority - under a completed
     symbol only - plus its children; symbol node: the maximum of its packed children) *)
  Variable pr : label -> Z.
  Variable prf : label -> family tok -> Z.
  Definition is_sym (l : label) : bool := match l with NSym _ _ _ _ => true | _ => false end.
  Definition pro (o : option label) : Z := match o with None => 0 | Some l => pr l end.
  Hypothesis pr_tok : forall t x i j, pr (NTok tok t x i j) = tprio t x.
  Hypothesis prf_eq : forall lbl r l rt, F lbl (r, l, rt) ->
    prf lbl (r, l, rt) = (if is_sym lbl then rprio r else 0) + pro rt + pro l.
  Hypothesis pr_max : forall lbl, is_tok tok lbl = false -> fams_of lbl <> [] ->
    is_max (pr lbl) (map (prf lbl) (fams_of lbl)).

  Hypothesis tok_no_family : forall t x i j f, ~ F (NTok tok t x i j) f.

  Definition fam_empty (fm : family tok) : bool :=
    match fm with (_, None, None) => true | _ => false end.
  Definition fkey (lbl : label) (fm : family tok) : key :=
    sort_key (fam_empty fm) (prf lbl fm) (rorder (fst (fst fm))).
  (* SymbolNode.children *)
  Definition order_key (lbl : label) (fs : list (family tok)) : list (family tok) :=
    map snd (ksort (map (fun fm => (fkey lbl fm, fm)) fs)).

  Lemma order_key_perm l fs f : In f (order_key l fs) <-> In f fs.
  Proof. unfold order_key. rewrite ksort_snd_in, map_id. reflexivity. Qed.

  Lemma order_key_hd l fs : hd_error (order_key l fs) = best_by (fkey l) fs.
  Proof.
    unfold order_key. rewrite hd_sorted. destruct (best_by _ fs); reflexivity.
  Qed.

  Notation gres := (gres tok teqb fams order_key).

  Lemma gfprio_app a b : gfprio (a ++ b) = gfprio a + gfprio b.
  Proof. apply fold_right_add_app. Qed.

  Lemma gfprio_pack lbl r ds : gfprio (pack tok lbl r ds) = (if is_sym lbl then rprio r else 0) + gfprio ds.
  Proof. destruct lbl; cbn [pack is_sym]; unfold gfprio; cbn [fold_right gprio]; lia. Qed.

  (* every stored unfolding is bounded by the node's priority (cyclic or not) *)
  Lemma den_bounded : (forall l ds, den tok F l ds -> gfprio ds <= pr l) /\
                      (forall o ds, den_opt tok F o ds -> gfprio ds <= pro o).
  Proof.
    apply (den_mutind tok F).
    - intros t x i j. rewrite pr_tok. unfold gfprio. cbn. lia.
    - intros lbl r l rt ds1 ds2 HF _ IH1 _ IH2. rewrite gfprio_pack, gfprio_app.
      pose proof (proj2 (fams_of_in tok teqb teqb_spec fams lbl _) HF) as Hin.
      (* token nodes own no families in the forests the parser builds: [tok_no_family] *)
      assert (Et : is_tok tok lbl = false) by (destruct lbl; try reflexivity; destruct (tok_no_family _ _ _ _ _ HF)).
      destruct (pr_max lbl Et) as [_ Hub]; [intros E; rewrite E in Hin; destruct Hin|].
      specialize (Hub _ (in_map (prf lbl) _ _ Hin)). rewrite (prf_eq _ _ _ _ HF) in Hub. lia.
    - unfold gfprio. cbn. lia.
    - intros l ds _ IH. exact IH.
  Qed.

  Variable rank : label -> nat.
  Definition orank (o : option label) (n : nat) : Prop :=
    match o with None => True | Some c => (rank c < n)%nat end.
  (* acyclic: the children of a packed node rank below its parent *)
  Hypothesis ranked : forall lbl r l rt, F lbl (r, l, rt) -> orank l (rank lbl) /\ orank rt (rank lbl).
  (* every symbol node referred to has a packed child *)
  Definition oclosed (o : option label) : Prop :=
    match o with Some c => is_tok tok c = false -> fams_of c <> [] | None => True end.
  Hypothesis closed : forall lbl r l rt, F lbl (r, l, rt) -> oclosed l /\ oclosed rt.
  Hypothesis uniform : forall lbl f1 f2, F lbl f1 -> F lbl f2 -> fam_empty f1 = fam_empty f2.

  Lemma first_some_hd {A B} (f : A -> option B) l x : hd_error l = Some x -> f x <> None -> first_some f l = f x.
  Proof. destruct l as [|y r]; cbn; [discriminate|]. intros [= ->] H. destruct (f x); congruence. Qed.

  Lemma best_max lbl fm : best_by (fkey lbl) (fams_of lbl) = Some fm ->
    is_max (prf lbl fm) (map (prf lbl) (fams_of lbl)).
  Proof.
    apply (best_by_max fam_empty). intros x y Hx Hy. apply (uniform lbl); apply (fams_of_in tok teqb teqb_spec); assumption.
  Qed.

  Lemma graph_attained : forall fuel lbl path,
    (is_tok tok lbl = false -> fams_of lbl <> []) ->
    (forall q, In q path -> (rank lbl < rank q)%nat) -> path_ok tok fams path fuel ->
    exists ds, gres fuel path lbl = Some ds /\ gfprio ds = pr lbl.
  Proof.
    induction fuel as [|f IH]; intros lbl path Hne Hp Hpo; [destruct (path_ok_fuel tok fams _ _ Hpo eq_refl)|].
    destruct (is_tok tok lbl) eqn:Et.
    { destruct lbl; try discriminate. exists [DL tok t x]. split; [reflexivity|]. rewrite pr_tok. unfold gfprio. cbn. lia. }
    rewrite (gres_nontok tok teqb fams order_key _ _ _ Et).
    assert (Hnp : ~ In lbl path) by (intros Hin; exact (Nat.lt_irrefl _ (Hp _ Hin))).
    rewrite (proj2 (lmem_not_in tok teqb teqb_spec _ _) Hnp).
    specialize (Hne eq_refl).
    destruct (best_by (fkey lbl) (fams_of lbl)) as [fm|] eqn:Eb; [|apply best_by_none in Eb; congruence].
    pose proof (best_by_in _ _ _ Eb) as Hin. apply (fams_of_in tok teqb teqb_spec) in Hin.
    destruct fm as [[r l] rt].
    destruct (ranked _ _ _ _ Hin) as [Hrl Hrr]. destruct (closed _ _ _ _ Hin) as [Hcl Hcr].
    assert (Hsub : forall o, orank o (rank lbl) -> oclosed o ->
                   exists ds, sub tok teqb fams order_key f (lbl :: path) o = Some ds /\ gfprio ds = pro o).
    { intros o Ho Hc. destruct o as [c|]; cbn [sub pro orank oclosed] in *.
      - apply IH; [exact Hc| |exact (path_ok_cons tok fams _ _ _ _ Hpo Hnp Hin)].
        intros q [<-|Hq]; [exact Ho|exact (Nat.lt_trans _ _ _ Ho (Hp _ Hq))].
      - exists []. split; reflexivity. }
    destruct (Hsub l Hrl Hcl) as [d1 [E1 P1]]. destruct (Hsub rt Hrr Hcr) as [d2 [E2 P2]].
    assert (Htry : try_fam tok teqb fams order_key f path lbl (r, l, rt) = Some (pack tok lbl r (d1 ++ d2))).
    { unfold try_fam. rewrite E1, E2. reflexivity. }
    exists (pack tok lbl r (d1 ++ d2)). split.
    - rewrite (first_some_hd _ _ (r, l, rt)); [exact Htry| |congruence].
      rewrite order_key_hd. exact Eb.
    - rewrite gfprio_pack, gfprio_app, P1, P2.
      rewrite <- (is_max_eq _ _ (pr_max lbl Et Hne)), (is_max_eq _ _ (best_max _ _ Eb)).
      rewrite (prf_eq _ _ _ _ Hin). lia.
  Qed.

  (* C05 on acyclic graph forests: the resolve walk returns an unfolding of maximal total priority *)
  Theorem graph_resolve_optimal a i j :
    fams_of (NSym tok a i j) <> [] ->
    exists d, graph_resolve tok teqb fams order_key (NSym tok a i j) = Some d /\
              den tok F (NSym tok a i j) [d] /\
              gprio d = pr (NSym tok a i j) /\
              forall d', den tok F (NSym tok a i j) [d'] -> gprio d' <= gprio d.
  Proof.
    intros Hne.
    destruct (graph_attained (S (List.length fams)) (NSym tok a i j) []) as [ds [E P]].
    - intros _. exact Hne.
    - intros q [].
    - apply path_ok_nil, Nat.lt_succ_diag_r.
    - pose proof (gres_sound tok teqb teqb_spec fams order_key order_key_perm _ _ _ _ E) as Hden.
      destruct (den_sym_single tok fams _ _ _ _ Hden) as [d ->].
      exists d. unfold graph_resolve. rewrite E. split; [reflexivity|]. split; [exact Hden|].
      assert (Hd : gprio d = pr (NSym tok a i j)) by (rewrite <- P; unfold gfprio; cbn; lia).
      split; [exact Hd|]. intros d' Hd'. pose proof (proj1 den_bounded _ _ Hd') as Hb.
      unfold gfprio in Hb. cbn in Hb. lia.
  Qed.
End GraphPrio.
