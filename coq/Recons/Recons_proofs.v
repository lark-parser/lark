(* C19: proofs about the Recons model.
   Part A: the tree-matching rules _build_recons_rules yields are exactly the images of parser rules and the three
           kinds of unit rules (yielded_kind); `rules` and `rfr` are subsets of them.
   Part B: write_tokens_yield - the written items of a supported match are the yield of a derivation of the
           matched rule whose kept sub-derivations are the given ones for the node's children.
   Part C: recons_token_sound - the token sequence produced by _reconstruct is the yield of a derivation
           with the same shape; with an unambiguous grammar the parser's tree for it is the input tree. *)
From Coq Require Import String Ascii List Arith Bool Lia.
From LV Require Import Base.Prelude Cfg.Grammar Recons.Recons.
Import ListNotations.

Lemma memn_In x l : memn x l = true <-> In x l.
Proof.
  unfold memn. rewrite existsb_exists. split.
  - intros (y & Hy & E). apply Nat.eqb_eq in E. subst; auto.
  - intros H. exists x. split; auto. apply Nat.eqb_refl.
Qed.

Lemma memn_false x l : memn x l = false <-> ~ In x l.
Proof.
  rewrite <- memn_In. destruct (memn x l); split; intros H; congruence.
Qed.

Lemma In_insert_len r x l : In x (insert_len r l) <-> x = r \/ In x l.
Proof.
  induction l as [|y l IH]; simpl.
  - split; intros [->|[]]; auto.
  - destruct (Nat.ltb _ _); simpl; rewrite ?IH; split; intros H; decompose [or] H; subst; auto.
Qed.

Lemma In_sort_len x l : In x (sort_len l) <-> In x l.
Proof.
  unfold sort_len. induction l as [|y l IH]; simpl; [tauto|].
  rewrite In_insert_len, IH. split; intros [->|H]; auto.
Qed.

Lemma In_dedupe x l : forall seen, In x (dedupe seen l) -> In x l.
Proof.
  induction l as [|y l IH]; simpl; intros seen H; auto.
  destruct (existsb _ seen).
  - right. eapply IH; eauto.
  - destruct H as [H|H]; auto. right. eapply IH; eauto.
Qed.

Lemma In_best x l : In x (best l) -> In x l.
Proof. unfold best. rewrite In_sort_len. apply In_dedupe. Qed.

Lemma In_nodup_nat x l : forall seen, In x (nodup_nat seen l) <-> In x l /\ ~ In x seen.
Proof.
  induction l as [|y l IH]; intros seen; simpl; [tauto|].
  destruct (memn y seen) eqn:E.
  - apply memn_In in E. rewrite IH. split; [tauto|]. intros ([<-|H] & Hn); tauto.
  - apply memn_false in E. simpl. rewrite IH. simpl.
    destruct (Nat.eq_dec y x) as [<-|Hne]; tauto.
Qed.

Fixpoint utree_ind2 (Q : utree -> Prop) (HL : forall c, Q (ULeaf c))
         (HN : forall r args, Forall Q args -> Q (UNode r args)) (u : utree) : Q u :=
  match u with
  | ULeaf c => HL c
  | UNode r args =>
      HN r args ((fix go (l : list utree) : Forall Q l :=
                    match l with
                    | [] => Forall_nil _
                    | x :: l' => Forall_cons _ (utree_ind2 Q HL HN x) (go l')
                    end) args)
  end.

(* what WriteTokensTransformer writes, for any tree of match nodes: re-inserted literals and leaves *)
Section Written.
  Variable lit : nat -> option string.

  Definition item_in (ls : list stree) (it : witem) : Prop :=
    match it with
    | WStr n v => lit n = Some v
    | WChild c => In c ls
    end.

  Lemma item_in_mono ls ls' : incl ls ls' -> forall it, item_in ls it -> item_in ls' it.
  Proof. intros H [n v|c]; simpl; auto. Qed.

  Lemma walk_items : forall ss (args : list utree) items,
    Forall (fun a => forall its, write lit a = OList (Ok its) -> Forall (item_in (leaves a)) its) args ->
    walk lit ss (map (write lit) args) = Ok items -> Forall (item_in (flat_map leaves args)) items.
  Proof.
    induction ss as [|s ss IH]; intros args items Hargs H; simpl in H.
    - destruct (map (write lit) args); inversion H. constructor.
    - destruct (discarded s) eqn:Ed.
      + destruct s as [n fo|a]; [|discriminate]. destruct (lit n) as [v|] eqn:El; [|discriminate].
        destruct (walk lit ss (map (write lit) args)) as [l| |] eqn:Ew; simpl in H; try discriminate.
        inversion H; subst. constructor; [exact El|]. apply (IH args); auto.
      + destruct args as [|a args]; simpl in H; [discriminate|].
        inversion Hargs as [|? ? Ha Hargs']; subst.
        assert (IH' : forall l2, walk lit ss (map (write lit) args) = Ok l2 ->
                                 Forall (item_in (leaves a ++ flat_map leaves args)) l2).
        { intros l2 Ew. eapply Forall_impl; [|exact (IH args l2 Hargs' Ew)].
          apply item_in_mono, incl_appr, incl_refl. }
        destruct (write lit a) as [c|l] eqn:Ewa.
        * destruct (match c with Tok ty _ => _ | Node d _ => _ end); [|discriminate].
          destruct (walk lit ss (map (write lit) args)) as [l2| |] eqn:Ew; simpl in H; try discriminate.
          inversion H; subst. constructor; auto.
          destruct a as [c'|r' args']; simpl in Ewa; [|discriminate]. inversion Ewa; subst. simpl. now left.
        * destruct l as [l1| |]; simpl in H; try discriminate.
          destruct (walk lit ss (map (write lit) args)) as [l2| |] eqn:Ew; simpl in H; try discriminate.
          inversion H; subst. apply Forall_app. split; auto.
          eapply Forall_impl; [|exact (Ha l1 eq_refl)]. apply item_in_mono, incl_appl, incl_refl.
  Qed.

  Lemma write_items : forall u its, write lit u = OList (Ok its) -> Forall (item_in (leaves u)) its.
  Proof.
    apply (utree_ind2 (fun u => forall its, write lit u = OList (Ok its) -> Forall (item_in (leaves u)) its)).
    - intros c its H. discriminate.
    - intros r args IH its H. simpl in H. inversion H as [Hw]. exact (walk_items _ _ _ IH Hw).
  Qed.
End Written.

Section Proofs.
  Variable us : nat -> bool.
  Variable P : list prule.

  Notation expand1s := (expand1s P).
  Notation aliased := (aliased P).
  Notation rule_names := (rule_names P).
  Notation is_nonterminal := (is_nonterminal us P).
  Notation recons_sym := (recons_sym us P).
  Notation recons_exp := (recons_exp us P).
  Notation regular := (regular us P).
  Notation rules := (rules us P).
  Notation rfr := (rfr us P).

  Lemma In_rule_names r : In r P -> In (p_origin r) rule_names.
  Proof. intros. unfold Recons.rule_names. apply in_map; auto. Qed.

  Lemma In_origins (f : prule -> bool) o :
    In o (map p_origin (filter f P)) <-> exists pr, In pr P /\ p_origin pr = o /\ f pr = true.
  Proof.
    rewrite in_map_iff. setoid_rewrite filter_In.
    split; [intros (pr & <- & Hin & H)|intros (pr & Hin & <- & H)]; exists pr; auto.
  Qed.

  Lemma In_expand1s o : In o expand1s <-> exists pr, In pr P /\ p_origin pr = o /\ p_expand1 pr = true.
  Proof. apply In_origins. Qed.

  Lemma In_aliased o : In o aliased <-> exists pr, In pr P /\ p_origin pr = o /\ has_alias pr = true.
  Proof. apply In_origins. Qed.

  Lemma has_alias_Some pr al : p_alias pr = Some al -> has_alias pr = true.
  Proof. unfold has_alias. intros ->. reflexivity. Qed.

  Lemma In_aliases_of o al : In al (aliases_of P o) <-> exists pr, In pr P /\ p_origin pr = o /\ p_alias pr = Some al.
  Proof.
    unfold aliases_of. rewrite in_flat_map. split; intros (pr & Hin & H); exists pr; split; auto.
    - destruct (p_alias pr) as [a|]; [|contradiction].
      destruct (Nat.eqb_spec (p_origin pr) o); [|contradiction]. destruct H as [<-|[]]. auto.
    - destruct H as (<- & ->). rewrite Nat.eqb_refl. now left.
  Qed.

  Lemma expand1s_names o : In o expand1s -> In o rule_names.
  Proof. intros H. apply In_expand1s in H. destruct H as (pr & Hin & <- & _). apply In_rule_names; auto. Qed.

  Lemma is_nonterminal_iff a :
    is_nonterminal a = true <-> In a rule_names /\ (us a = true \/ In a expand1s \/ In a aliased).
  Proof.
    unfold Recons.is_nonterminal. rewrite andb_true_iff, !orb_true_iff, !memn_In. tauto.
  Qed.

  Lemma not_nonterminal a : In a rule_names -> is_nonterminal a = false ->
    us a = false /\ ~ In a expand1s /\ ~ In a aliased.
  Proof.
    intros Ha E. rewrite <- !memn_false. apply memn_In in Ha.
    unfold Recons.is_nonterminal in E. rewrite Ha in E. simpl in E.
    apply orb_false_iff in E. destruct E as (E & E3). apply orb_false_iff in E. tauto.
  Qed.

  (* the two tests of the first loop of _build_recons_rules on an alternative that is not skipped:
     a ?rule alternative that does not collapse gets a root rule and the unit rule  name -> Tree(name);
     otherwise the alternative of a _rule or ?rule is an inner rule; the others are root rules *)
  Definition root1 (pr : prule) : bool :=
    memn (sym_name pr) expand1s && negb (Nat.eqb (length (recons_exp pr)) 1).
  Definition inlined (pr : prule) : bool := us (sym_name pr) || memn (sym_name pr) expand1s.

  (* the `seen` set of the loop makes the unit rules the first occurrences of their names *)
  Lemma build_loop_spec rs : forall seen,
    (forall r, In r (fst (build_loop us P rs seen)) <->
       In r (map regular (filter (fun pr => negb (skipped us P pr) && negb (root1 pr) && inlined pr) rs)) \/
       In r (map (fun s => unit_rule s s)
               (nodup_nat seen (map sym_name (filter (fun pr => negb (skipped us P pr) && root1 pr) rs))))) /\
    snd (build_loop us P rs seen) =
      map (fun pr => (sym_name pr, regular pr))
          (filter (fun pr => negb (skipped us P pr) && (root1 pr || negb (inlined pr))) rs).
  Proof.
    induction rs as [|pr rs IH]; intros seen; cbn [build_loop filter map nodup_nat fst snd]; [tauto|].
    change (memn (sym_name pr) expand1s && negb (Nat.eqb (length (recons_exp pr)) 1)) with (root1 pr).
    change (us (sym_name pr) || memn (sym_name pr) expand1s) with (inlined pr).
    destruct (skipped us P pr); cbn [negb andb]; [apply IH|].
    destruct (root1 pr); cbn [negb andb orb map nodup_nat].
    - specialize (IH (if memn (sym_name pr) seen then seen else sym_name pr :: seen)).
      destruct (build_loop us P rs _) as [ys rf]. cbn [fst snd] in *. destruct IH as (IH1 & ->). split; [|reflexivity].
      intros r. rewrite in_app_iff, IH1. destruct (memn (sym_name pr) seen); simpl; tauto.
    - specialize (IH seen). destruct (inlined pr); destruct (build_loop us P rs seen) as [ys rf];
        cbn [fst snd negb map] in *; destruct IH as (IH1 & ->); (split; [|reflexivity]); intros r;
        [simpl; rewrite IH1; tauto|apply IH1].
  Qed.

  Lemma In_alias_rules r : In r (alias_rules P) <->
    exists pr, In pr P /\ (has_alias pr = true /\ r = unit_rule (p_origin pr) (p_origin pr) \/
                           exists al, p_alias pr = Some al /\ r = unit_rule (p_origin pr) al).
  Proof.
    unfold alias_rules. rewrite in_flat_map. split.
    - intros (o & Ho & H). apply In_nodup_nat in Ho. destruct Ho as (Ho & _). apply In_aliased in Ho.
      destruct Ho as (pr & Hin & <- & Ha). apply in_app_iff in H. destruct H as [H|[<-|[]]]; [|exists pr; auto].
      apply in_map_iff in H. destruct H as (al & <- & Hal). apply In_aliases_of in Hal.
      destruct Hal as (pr' & Hin' & <- & Eal). exists pr'. split; auto. right. exists al. auto.
    - intros (pr & Hin & H). exists (p_origin pr). split.
      + apply In_nodup_nat. split; [|tauto]. apply In_aliased. exists pr.
        destruct H as [(Ha & _)|(al & Ha & _)]; eauto using has_alias_Some.
      + apply in_app_iff. destruct H as [(_ & ->)|(al & Ha & ->)]; [right; now left|left].
        apply in_map, In_aliases_of. eauto.
  Qed.

  (* what _build_recons_rules yields *)
  Inductive inner_kind : rrule -> Prop :=
  | ik_regular pr : In pr P -> skipped us P pr = false -> root1 pr = false -> inlined pr = true ->
      inner_kind (regular pr)
  | ik_expand1 pr : In pr P -> skipped us P pr = false -> root1 pr = true ->
      inner_kind (unit_rule (sym_name pr) (sym_name pr))
  | ik_origin pr : In pr P -> has_alias pr = true -> inner_kind (unit_rule (p_origin pr) (p_origin pr))
  | ik_alias pr al : In pr P -> p_alias pr = Some al -> inner_kind (unit_rule (p_origin pr) al).

  Lemma yielded_kind r : In r (yielded us P) <-> inner_kind r.
  Proof.
    unfold yielded. rewrite in_app_iff, (proj1 (build_loop_spec P [])), In_alias_rules, !in_map_iff. split.
    - intros [[(pr & <- & H)|(s & <- & H)]|(pr & Hin & [(Ha & ->)|(al & Ha & ->)])].
      + apply filter_In in H. destruct H as (Hin & H). apply andb_true_iff in H. destruct H as (H & Hi).
        apply andb_true_iff in H. destruct H as (Hs & Hr). apply negb_true_iff in Hs, Hr. constructor; auto.
      + apply In_nodup_nat in H. destruct H as (H & _). apply in_map_iff in H. destruct H as (pr & <- & H).
        apply filter_In in H. destruct H as (Hin & H). apply andb_true_iff in H. destruct H as (Hs & Hr).
        apply negb_true_iff in Hs. constructor; auto.
      + constructor; auto.
      + constructor; auto.
    - intros [pr Hin Hs Hr Hi|pr Hin Hs Hr|pr Hin Ha|pr al Hin Ha]; [left; left|left; right|right|right].
      + exists pr. split; auto. apply filter_In. rewrite Hs, Hr, Hi. auto.
      + exists (sym_name pr). split; auto. apply In_nodup_nat. split; auto. apply in_map, filter_In.
        rewrite Hs, Hr. auto.
      + exists pr. auto.
      + exists pr. split; auto. right. exists al. auto.
  Qed.

  Lemma rules_kind r : In r rules -> inner_kind r.
  Proof. unfold Recons.rules. intros H. apply In_best, in_rev in H. apply yielded_kind; auto. Qed.

  Lemma In_rfr_all n r : In (n, r) (rfr_all us P) <->
    exists pr, In pr P /\ skipped us P pr = false /\ (root1 pr || negb (inlined pr)) = true /\
               n = sym_name pr /\ r = regular pr.
  Proof.
    unfold rfr_all. rewrite (proj2 (build_loop_spec P [])), in_map_iff. split.
    - intros (pr & E & H). apply filter_In in H. destruct H as (Hin & H). apply andb_true_iff in H.
      destruct H as (Hs & Hr). apply negb_true_iff in Hs. inversion E. exists pr. auto.
    - intros (pr & Hin & Hs & Hr & -> & ->). exists pr. split; auto. apply filter_In. rewrite Hs, Hr. auto.
  Qed.

  Lemma rfr_in_all data r : In r (rfr data) -> In (data, r) (rfr_all us P).
  Proof.
    unfold Recons.rfr, rfr_raw. intros H. apply In_best, in_map_iff in H. destruct H as ((n & r') & E & H).
    apply filter_In in H. destruct H as (H & En). simpl in E, En. apply Nat.eqb_eq in En. subst. exact H.
  Qed.

  Lemma rfr_kind data r : In r (rfr data) -> exists pr, In pr P /\ r = regular pr /\ sym_name pr = data.
  Proof.
    intros H. apply rfr_in_all, In_rfr_all in H. destruct H as (pr & ? & _ & _ & ? & ?). exists pr; auto.
  Qed.

  Inductive wf : dtree -> Prop :=
  | wf_tok n s : wf (DTok n s)
  | wf_node r ds : In r P -> wf_args (p_exp r) ds -> wf (DNode r ds)
  with wf_args : list sym -> list dtree -> Prop :=
  | wfa_nil : wf_args [] []
  | wfa_tm n fo s ss ds : wf_args ss ds -> wf_args (Tm n fo :: ss) (DTok n s :: ds)
  | wfa_nt a r ds0 ss ds : p_origin r = a -> wf (DNode r ds0) -> wf_args ss ds ->
      wf_args (Nt a :: ss) (DNode r ds0 :: ds).

  Scheme wf_mind := Minimality for wf Sort Prop
    with wf_args_mind := Minimality for wf_args Sort Prop.
  Combined Scheme wf_mutind from wf_mind, wf_args_mind.

  Inductive uargs_gen (V : utree -> Prop) : list symbol -> list utree -> Prop :=
  | ua_nil : uargs_gen V [] []
  | ua_t t c ss args : cmatch t c = true -> uargs_gen V ss args -> uargs_gen V (T t :: ss) (ULeaf c :: args)
  | ua_nt a r args0 ss args : r_origin r = a -> V (UNode r args0) -> uargs_gen V ss args ->
      uargs_gen V (NT a :: ss) (UNode r args0 :: args).
  Inductive uvalid (Gi : list rrule) : utree -> Prop :=
  | uv_node r args : In r Gi -> uargs_gen (uvalid Gi) (r_exp r) args -> uvalid Gi (UNode r args).

  Lemma uargs_gen_impl (V W : utree -> Prop) : (forall u, V u -> W u) ->
    forall ss args, uargs_gen V ss args -> uargs_gen W ss args.
  Proof. intros H ss args. induction 1; constructor; auto. Qed.

  Lemma uvalid_ind2 Gi (Q : utree -> Prop) :
    (forall r args, In r Gi -> uargs_gen Q (r_exp r) args -> Q (UNode r args)) -> forall u, uvalid Gi u -> Q u.
  Proof.
    intros H. apply (utree_ind2 (fun u => uvalid Gi u -> Q u)); [inversion 1|].
    intros r args IH Hv. inversion Hv as [? ? Hin Hu]; subst. apply H; auto. clear Hv Hin.
    revert IH. induction Hu; intros IH; inversion IH; subst; constructor; auto.
  Qed.

  Lemma uvalid_mono G G' : (forall r, In r G -> In r G') -> forall u, uvalid G u -> uvalid G' u.
  Proof. intros Hsub. apply uvalid_ind2. intros r args Hin Hu. constructor; auto. Qed.

  (* a supported match of node (Node data cs): root rule from rules_for_root[data], inner rules from
     self.rules, leaves = children, and a node named by an expand1 rule has not exactly one child *)
  Definition supported (u : utree) (data : nat) (cs : list stree) : Prop :=
    exists r args, u = UNode r args /\ In r (rfr data) /\ uargs_gen (uvalid rules) (r_exp r) args /\
                   leaves u = cs /\ (In data expand1s -> length cs <> 1).

  (* the class of rule sets (boolean form: ReconsCheck.class_b) *)
  Record cls : Prop := {
    c_closed : forall r a, In r P -> In (Nt a) (p_exp r) -> In a rule_names;
    c_alias : forall r al, In r P -> p_alias r = Some al ->
              ~ In al rule_names /\ us al = false /\
              (forall r', In r' P -> p_alias r' = Some al -> p_origin r' = p_origin r);
    c_uscore : forall r, In r P -> us (p_origin r) = true -> p_alias r = None /\ p_expand1 r = false;
    c_uniform : forall r, In r P -> In (p_origin r) expand1s -> p_expand1 r = true;
    c_single : forall r a, In r P -> p_expand1 r = true -> p_alias r = None ->
               filter kept (p_exp r) = [Nt a] -> us a = false
  }.

  Lemma kids_eq r ds : kids us (DNode r ds) = kids_go us (p_exp r) ds.
  Proof.
    simpl. generalize (p_exp r). induction ds as [|d ds IH]; intros [|s ss]; simpl; auto.
    rewrite IH. f_equal. destruct s as [n fo|a]; simpl; auto.
    destruct (us a); auto. destruct d; reflexivity.
  Qed.

  (* ExpandSingleChild: the node of a ?rule alternative without alias is replaced by its only child *)
  Lemma shape_node pr ds :
    (p_expand1 pr = true -> p_alias pr = None -> length (kids us (DNode pr ds)) <> 1) ->
    shape us (DNode pr ds) = Node (sym_name pr) (kids us (DNode pr ds)).
  Proof.
    intros H. unfold shape, wrap, has_alias. destruct (p_expand1 pr); auto. destruct (p_alias pr); auto.
    destruct (kids us (DNode pr ds)) as [|k [|? ?]]; auto. exfalso. apply H; reflexivity.
  Qed.

  Lemma shape_collapse pr ds k : p_expand1 pr = true -> p_alias pr = None -> kids us (DNode pr ds) = [k] ->
    shape us (DNode pr ds) = k.
  Proof. intros He Ha Hk. unfold shape, wrap, has_alias. rewrite He, Ha, Hk. reflexivity. Qed.

  Section WithClass.
    Hypothesis Hc : cls.
    Variable lit : nat -> option string.
    Variable Y : stree -> list token.

    Definition tokitem (it : witem) : list token :=
      match it with
      | WStr n s => [(n, s)]
      | WChild (Tok n s) => [(n, s)]
      | WChild c => Y c
      end.
    Definition expandY (items : list witem) : list token := flat_map tokitem items.

    Definition sub_ok (c : stree) : Prop :=
      match c with
      | Tok _ _ => True
      | Node data cs => exists pr ds, wf (DNode pr ds) /\ sym_name pr = data /\
                                      shape us (DNode pr ds) = c /\ yield (DNode pr ds) = Y c
      end.
    Definition items_ok (items : list witem) : Prop := forall c, In (WChild c) items -> sub_ok c.

    Lemma items_ok_app l1 l2 : items_ok (l1 ++ l2) -> items_ok l1 /\ items_ok l2.
    Proof. unfold items_ok. split; intros; apply H; apply in_or_app; auto. Qed.
    Lemma items_ok_cons x l : items_ok (x :: l) -> items_ok l.
    Proof. unfold items_ok. intros H c Hc'. apply H. right; auto. Qed.

    Lemma expandY_app l1 l2 : expandY (l1 ++ l2) = expandY l1 ++ expandY l2.
    Proof. unfold expandY. apply flat_map_app. Qed.

    Lemma sym_name_rule pr a : In pr P -> sym_name pr = a -> In a rule_names -> p_alias pr = None /\ p_origin pr = a.
    Proof.
      intros Hin E Ha. unfold sym_name in E. destruct (p_alias pr) as [al|] eqn:Eal; auto.
      subst al. destruct (c_alias Hc _ _ Hin Eal) as (Hn & _). contradiction.
    Qed.

    Lemma same_name_same_origin pr pr0 : In pr P -> In pr0 P -> sym_name pr = sym_name pr0 -> p_origin pr = p_origin pr0.
    Proof.
      intros Hin Hin0 E. unfold sym_name in E at 2. destruct (p_alias pr0) as [al0|] eqn:E0.
      - destruct (c_alias Hc _ _ Hin0 E0) as (Hn & _ & Hs). unfold sym_name in E.
        destruct (p_alias pr) as [al|] eqn:E1; [subst al; apply Hs; auto|].
        exfalso. apply Hn. rewrite <- E. apply In_rule_names; auto.
      - apply (sym_name_rule pr _ Hin E). apply In_rule_names; auto.
    Qed.

    Lemma wf_root pr ds : wf (DNode pr ds) -> In pr P /\ wf_args (p_exp pr) ds.
    Proof. inversion 1; auto. Qed.

    (* an inner match node stands for a derivation from its origin: what it writes is that derivation's yield, its
       leaves are what the derivation contributes to the children of the node above *)
    Definition Pnode (u : utree) : Prop :=
      match u with
      | ULeaf _ => True
      | UNode r _ => In (r_origin r) rule_names ->
          forall items, write lit u = OList (Ok items) -> items_ok items ->
          exists pr ds, wf (DNode pr ds) /\ p_origin pr = r_origin r /\
                        contrib us (Nt (r_origin r)) (DNode pr ds) = leaves u /\
                        yield (DNode pr ds) = expandY items
      end.

    Lemma walk_sound : forall ss args, uargs_gen Pnode (map recons_sym (filter kept ss)) args ->
      (forall a, In (Nt a) ss -> In a rule_names) ->
      forall items, walk lit ss (map (write lit) args) = Ok items -> items_ok items ->
      exists ds, wf_args ss ds /\ kids_go us ss ds = flat_map leaves args /\ flat_map yield ds = expandY items.
    Proof.
      induction ss as [|s ss IH]; intros args Hu Hcl items Hw Hok.
      - simpl in Hu. inversion Hu; subst. simpl in Hw. inversion Hw; subst.
        exists []. repeat split; constructor.
      - assert (Hcl' : forall a, In (Nt a) ss -> In a rule_names) by (intros; apply Hcl; right; auto).
        destruct s as [n fo|a].
        + destruct fo.
          * (* filtered terminal: re-inserted from its literal *)
            simpl in Hu. simpl in Hw. destruct (lit n) as [v|] eqn:El; [|discriminate].
            destruct (walk lit ss (map (write lit) args)) as [l| |] eqn:Ew; simpl in Hw; try discriminate.
            inversion Hw; subst items. apply items_ok_cons in Hok.
            destruct (IH args Hu Hcl' l Ew Hok) as (ds & Hwf & Hk & Hy).
            exists (DTok n v :: ds). repeat split.
            -- constructor; auto.
            -- simpl. exact Hk.
            -- simpl. rewrite Hy. reflexivity.
          * (* kept terminal: the child token *)
            simpl in Hu. inversion Hu as [|t c ss0 args' Hm Hu'|]; subst.
            simpl in Hw. destruct c as [ty text|d cs'].
            -- destruct (Nat.eqb_spec ty n) as [->|]; [|discriminate].
               destruct (walk lit ss (map (write lit) args')) as [l| |] eqn:Ew; simpl in Hw; try discriminate.
               inversion Hw; subst items. apply items_ok_cons in Hok.
               destruct (IH args' Hu' Hcl' l Ew Hok) as (ds & Hwf & Hk & Hy).
               exists (DTok n text :: ds). repeat split.
               ++ constructor; auto.
               ++ simpl. rewrite Hk. reflexivity.
               ++ simpl. rewrite Hy. reflexivity.
            -- discriminate.
        + simpl in Hu. unfold Recons.recons_sym in Hu. fold recons_sym in Hu.
          destruct (is_nonterminal a) eqn:Enon.
          * (* inlined non-terminal: a nested match node *)
            inversion Hu as [| |a0 r' args0 ss0 args' Ho Hv Hu']; subst.
            assert (Hin : In (r_origin r') rule_names) by (apply is_nonterminal_iff in Enon; tauto).
            cbn [map walk discarded] in Hw.
            destruct (write lit (UNode r' args0)) as [c0|l0] eqn:Ewr; [simpl in Ewr; discriminate|].
            destruct l0 as [l1| |]; simpl in Hw; try discriminate.
            destruct (walk lit ss (map (write lit) args')) as [l2| |] eqn:Ew; simpl in Hw; try discriminate.
            inversion Hw; subst items. apply items_ok_app in Hok. destruct Hok as (Hok1 & Hok2).
            destruct (Hv Hin l1 Ewr Hok1) as (pr & ds0 & Hwf0 & Hor & Hct & Hy0).
            destruct (IH args' Hu' Hcl' l2 Ew Hok2) as (ds & Hwf & Hk & Hy).
            exists (DNode pr ds0 :: ds). repeat split.
            -- constructor; auto.
            -- cbn [kids_go flat_map]. rewrite Hct, Hk. reflexivity.
            -- cbn [flat_map]. rewrite Hy0, Hy, expandY_app. reflexivity.
          * (* plain non-terminal: the child subtree, with the derivation known for it *)
            inversion Hu as [|t c ss0 args' Hm Hu'|]; subst.
            simpl in Hw. destruct c as [ty text|d cs']; [discriminate|].
            destruct (Nat.eqb_spec d a) as [->|]; [|discriminate].
            destruct (walk lit ss (map (write lit) args')) as [l| |] eqn:Ew; simpl in Hw; try discriminate.
            inversion Hw; subst items.
            assert (Hsub : sub_ok (Node a cs')) by (apply Hok; left; auto).
            apply items_ok_cons in Hok.
            destruct (IH args' Hu' Hcl' l Ew Hok) as (ds & Hwf & Hk & Hy).
            destruct Hsub as (pr & ds0 & Hwf0 & Hsn & Hsh & Hy0).
            assert (Ha : In a rule_names) by (apply Hcl; left; auto).
            destruct (wf_root _ _ Hwf0) as (HinP & _).
            destruct (sym_name_rule _ _ HinP Hsn Ha) as (_ & Hor).
            destruct (not_nonterminal _ Ha Enon) as (Hus & _).
            exists (DNode pr ds0 :: ds). repeat split.
            -- constructor; auto.
            -- cbn [kids_go contrib flat_map leaves]. rewrite Hus, Hsh, Hk. reflexivity.
            -- cbn [flat_map]. rewrite Hy0, Hy. reflexivity.
    Qed.

    Lemma kids_go_none ss ds : wf_args ss ds -> filter kept ss = [] -> kids_go us ss ds = [].
    Proof.
      induction 1 as [|n fo t ss ds _ IH|]; cbn [filter kept discarded negb]; try discriminate; auto.
      destruct fo; [exact IH|discriminate].
    Qed.

    Lemma kids_go_single ss ds s : wf_args ss ds -> filter kept ss = [s] ->
      (forall a, s = Nt a -> us a = false) -> exists k, kids_go us ss ds = [k].
    Proof.
      induction 1 as [|n fo t ss ds Hwf IH|a r ds0 ss ds _ _ Hwf _]; cbn [filter kept discarded negb kids_go contrib];
        intros Hf Hs; [discriminate| |].
      - destruct fo; [exact (IH Hf Hs)|]. inversion Hf as [[E1 E2]]. exists (Tok n t).
        rewrite (kids_go_none _ _ Hwf E2). reflexivity.
      - inversion Hf as [[E1 E2]]. exists (shape us (DNode r ds0)).
        rewrite (Hs _ (eq_sym E1)), (kids_go_none _ _ Hwf E2). reflexivity.
    Qed.

    Lemma one_kid pr ds : In pr P -> wf_args (p_exp pr) ds -> p_expand1 pr = true -> p_alias pr = None ->
      length (recons_exp pr) = 1 -> exists k, kids us (DNode pr ds) = [k] /\ shape us (DNode pr ds) = k.
    Proof.
      intros Hin Hargs He Hal Hlen. unfold Recons.recons_exp in Hlen. rewrite map_length in Hlen.
      destruct (filter kept (p_exp pr)) as [|s [|? ?]] eqn:Ef; try discriminate.
      destruct (kids_go_single _ _ s Hargs Ef) as (k & Hk).
      { intros a ->. eapply (c_single Hc); eauto. }
      rewrite <- kids_eq in Hk. exists k. split; auto. apply shape_collapse; auto.
    Qed.

    Lemma us_false_of_alias pr : In pr P -> has_alias pr = true -> us (p_origin pr) = false.
    Proof.
      intros Hin Ha. destruct (us (p_origin pr)) eqn:E; auto.
      destruct (c_uscore Hc _ Hin E) as (Hn & _). unfold has_alias in Ha. rewrite Hn in Ha. discriminate.
    Qed.

    Lemma us_false_of_expand1 o : In o expand1s -> us o = false.
    Proof.
      intros H. apply In_expand1s in H. destruct H as (pr & Hin & <- & He).
      destruct (us (p_origin pr)) eqn:E; auto.
      destruct (c_uscore Hc _ Hin E) as (_ & Hn). congruence.
    Qed.

    Lemma unit_sound V o nm args :
      uargs_gen V [T nm] args -> In o rule_names -> us o = false ->
      (forall pr, In pr P -> sym_name pr = nm -> p_origin pr = o) ->
      forall items, walk lit [Nt nm] (map (write lit) args) = Ok items -> items_ok items ->
      exists pr ds, wf (DNode pr ds) /\ p_origin pr = o /\
                    contrib us (Nt o) (DNode pr ds) = flat_map leaves args /\
                    yield (DNode pr ds) = expandY items.
    Proof.
      intros Hu Ho Hus Horig items Hw Hok.
      inversion Hu as [|t c ss0 args' Hm Hu'|]; subst. inversion Hu'; subst.
      simpl in Hw. destruct c as [ty text|d cs']; [discriminate|].
      destruct (Nat.eqb_spec d nm) as [->|]; [|discriminate]. inversion Hw; subst items.
      assert (Hsub : sub_ok (Node nm cs')) by (apply Hok; left; auto).
      destruct Hsub as (pr & ds0 & Hwf0 & Hsn & Hsh & Hy0).
      destruct (wf_root _ _ Hwf0) as (HinP & _).
      exists pr, ds0. repeat split; auto.
      - cbn [contrib flat_map leaves]. rewrite Hus, Hsh. reflexivity.
      - rewrite Hy0. unfold expandY. simpl. rewrite app_nil_r. reflexivity.
    Qed.

    Lemma node_sound : forall u, uvalid rules u -> Pnode u.
    Proof.
      apply uvalid_ind2. intros r args Hin Hu Hname items Hw Hok.
      simpl in Hw. assert (Hw' : walk lit (r_orig r) (map (write lit) args) = Ok items) by congruence.
      clear Hw. apply rules_kind in Hin. destruct Hin as [pr HinP _ Hr1 Hinl | pr HinP _ Hr1 | pr HinP Hal | pr al HinP Hal].
      - (* image of a parser rule *)
        cbn [regular Recons.regular r_origin r_exp r_orig] in *.
        destruct (sym_name_rule _ _ HinP eq_refl Hname) as (Hnone & Hor).
        destruct (walk_sound (p_exp pr) args Hu (fun a Ha => c_closed Hc _ _ HinP Ha) items Hw' Hok)
          as (ds & Hwf & Hk & Hy).
        exists pr, ds. repeat split; auto.
        + constructor; auto.
        + cbn [contrib leaves]. rewrite <- Hor, <- Hk, <- kids_eq. destruct (us (p_origin pr)) eqn:Eus; auto.
          (* a ?rule alternative with one kept symbol: the node collapses into its only child *)
          unfold root1, inlined in *. rewrite <- Hor, Eus in Hinl. simpl in Hinl.
          rewrite <- Hor, Hinl in Hr1. simpl in Hr1. apply negb_false_iff, Nat.eqb_eq in Hr1.
          assert (He : p_expand1 pr = true) by (apply (c_uniform Hc); auto; apply memn_In; auto).
          destruct (one_kid pr ds HinP Hwf He Hnone Hr1) as (k & Hk1 & Hsh). rewrite Hk1, Hsh. reflexivity.
      - (* expand1 name -> itself *)
        cbn [unit_rule r_origin r_exp r_orig] in *.
        apply andb_true_iff in Hr1. destruct Hr1 as (He1 & _). apply memn_In in He1.
        apply (unit_sound _ (sym_name pr) (sym_name pr) args Hu); auto.
        + apply us_false_of_expand1; auto.
        + intros pr' Hin' Hsn. apply (sym_name_rule _ _ Hin' Hsn Hname).
      - (* aliased origin -> origin *)
        cbn [unit_rule r_origin r_exp r_orig] in *.
        apply (unit_sound _ (p_origin pr) (p_origin pr) args Hu); auto.
        + apply us_false_of_alias; auto.
        + intros pr' Hin' Hsn. apply (sym_name_rule _ _ Hin' Hsn Hname).
      - (* origin -> alias *)
        cbn [unit_rule r_origin r_exp r_orig] in *.
        apply (unit_sound _ (p_origin pr) al args Hu); auto.
        + apply us_false_of_alias; eauto using has_alias_Some.
        + intros pr' Hin' Hsn. apply same_name_same_origin; auto. unfold sym_name at 2. rewrite Hal. exact Hsn.
    Qed.

    Theorem write_tokens_yield data cs u items :
      supported u data cs -> write lit u = OList (Ok items) -> items_ok items ->
      exists pr ds, wf (DNode pr ds) /\ sym_name pr = data /\
                    kids us (DNode pr ds) = cs /\ shape us (DNode pr ds) = Node data cs /\
                    yield (DNode pr ds) = expandY items.
    Proof.
      intros (r & args & -> & Hin & Hu & Hl & Hne) Hw Hok.
      apply rfr_kind in Hin. destruct Hin as (pr & HinP & -> & Hsn).
      cbn [regular Recons.regular r_origin r_exp r_orig] in *.
      simpl in Hw. assert (Hw' : walk lit (p_exp pr) (map (write lit) args) = Ok items) by congruence.
      apply (uargs_gen_impl _ _ node_sound) in Hu.
      destruct (walk_sound (p_exp pr) args Hu (fun a Ha => c_closed Hc _ _ HinP Ha) items Hw' Hok)
        as (ds & Hwf & Hk & Hy).
      simpl in Hl. exists pr, ds.
      assert (Hkids : kids us (DNode pr ds) = cs) by (rewrite kids_eq, Hk; exact Hl).
      repeat split; auto.
      - constructor; auto.
      - rewrite shape_node, Hsn, Hkids; auto.
        intros He Ha. rewrite Hkids. apply Hne. rewrite <- Hsn. unfold sym_name. rewrite Ha.
        apply In_expand1s. exists pr. auto.
    Qed.
  End WithClass.

  Lemma expand_eq g items :
    (forall c, In (WChild c) items -> match c with Tok _ _ => True | Node _ _ => exists l, g c = Ok l end) ->
    expand g items = Ok (expandY (fun c => match g c with Ok l => l | _ => [] end) items).
  Proof.
    induction items as [|it items IH]; intros H; [reflexivity|].
    simpl. rewrite IH by (intros c Hc; apply H; right; exact Hc).
    destruct it as [n s|[n s|d cs]]; try reflexivity.
    destruct (H (Node d cs)) as (l1 & E1); [left; reflexivity|]. unfold expandY. simpl. rewrite E1. reflexivity.
  Qed.

  Lemma expand_children g items : forall toks, expand g items = Ok toks ->
    forall c, In (WChild c) items -> match c with Tok _ _ => True | Node _ _ => exists l, g c = Ok l end.
  Proof.
    induction items as [|it items IH]; intros toks H c Hin; [destruct Hin|].
    destruct Hin as [->|Hin]; simpl in H.
    - destruct c as [n s|d cs]; [exact I|]. destruct (g (Node d cs)) as [l| |]; [eauto|discriminate..].
    - destruct (expand g items) as [l| |] eqn:E; [exact (IH l eq_refl c Hin)|exfalso..];
        destruct it as [n s|[n s|d cs]]; try discriminate; destruct (g (Node d cs)); discriminate.
  Qed.

  Lemma expand_ok g items toks : expand g items = Ok toks ->
    (forall c, In (WChild c) items -> match c with Tok _ _ => True | Node _ _ => exists l, g c = Ok l end) /\
    toks = expandY (fun c => match g c with Ok l => l | _ => [] end) items.
  Proof.
    intros H. pose proof (expand_children g items toks H) as Hsub. split; [exact Hsub|].
    rewrite (expand_eq g items Hsub) in H. inversion H. reflexivity.
  Qed.

  (* soundness of _reconstruct when match_tree is only trusted on the trees of a set closed under taking the
     children of a node *)
  Section SoundOn.
    Hypothesis Hc : cls.
    Variable lit : nat -> option string.
    Variable M : stree -> option utree.
    Variable Q : stree -> Prop.
    Hypothesis Q_child : forall data cs d cs0, Q (Node data cs) -> In (Node d cs0) cs -> Q (Node d cs0).
    Hypothesis M_ok : forall t u, Q t -> M t = Some u -> exists data cs, t = Node data cs /\ supported u data cs.

    Theorem recon_sound_on : forall fuel t toks, Q t -> recon lit M fuel t = Ok toks ->
      exists data cs pr ds, t = Node data cs /\ wf (DNode pr ds) /\ sym_name pr = data /\
                            shape us (DNode pr ds) = t /\ yield (DNode pr ds) = toks.
    Proof.
      induction fuel as [|f IH]; intros t toks Hq H; simpl in H; [discriminate|].
      destruct t as [n s|data cs]; [discriminate|].
      destruct (M (Node data cs)) as [u|] eqn:EM; [|discriminate].
      destruct (M_ok _ _ Hq EM) as (data' & cs' & E & Hsup). inversion E; subst data' cs'. clear E.
      destruct (write lit u) as [c0|[items| |]] eqn:Ew; try discriminate.
      destruct (expand_ok _ _ _ H) as (Hsub & ->).
      assert (Hlv : leaves u = cs) by (destruct Hsup as (? & ? & _ & _ & _ & Hl & _); exact Hl).
      pose proof (write_items lit u items Ew) as Hit. rewrite Forall_forall, Hlv in Hit.
      set (Y := fun c => match recon lit M f c with Ok l => l | _ => [] end).
      destruct (write_tokens_yield Hc lit Y data cs u items Hsup Ew) as (pr & ds & Hwf & Hsn & _ & Hsh & Hy).
      - intros c Hin. specialize (Hsub c Hin). destruct c as [n s|d cs0]; [exact I|]. unfold sub_ok.
        destruct Hsub as (l & El).
        destruct (IH _ _ (Q_child _ _ _ _ Hq (Hit _ Hin)) El) as (d' & cs' & pr & ds & E & Hwf & Hsn & Hsh & Hy).
        exists pr, ds. repeat split; auto; try congruence. unfold Y. rewrite El. exact Hy.
      - exists data, cs, pr, ds. repeat split; auto.
    Qed.
  End SoundOn.

  Section Sound.
    Hypothesis Hc : cls.
    Variable lit : nat -> option string.
    Variable M : stree -> option utree.
    (* what is assumed of match_tree: whatever it returns is a supported match of the node *)
    Hypothesis M_ok : forall t u, M t = Some u -> exists data cs, t = Node data cs /\ supported u data cs.

    Theorem recons_token_sound : forall fuel t toks, recon lit M fuel t = Ok toks ->
      exists data cs pr ds, t = Node data cs /\ wf (DNode pr ds) /\ sym_name pr = data /\
                            shape us (DNode pr ds) = t /\ yield (DNode pr ds) = toks.
    Proof. intros fuel t toks. apply (recon_sound_on Hc lit M (fun _ => True)); auto. Qed.

    (* the parser as a specification: some derivation from the start symbol with that yield; its tree is the shape *)
    Definition parses (start : nat) (toks : list token) (t : stree) : Prop :=
      exists pr ds, wf (DNode pr ds) /\ p_origin pr = start /\ yield (DNode pr ds) = toks /\
                    shape us (DNode pr ds) = t.
    Definition unambiguous (start : nat) : Prop :=
      forall r1 ds1 r2 ds2, wf (DNode r1 ds1) -> wf (DNode r2 ds2) -> p_origin r1 = start -> p_origin r2 = start ->
        yield (DNode r1 ds1) = yield (DNode r2 ds2) -> DNode r1 ds1 = DNode r2 ds2.

    (* from soundness to the round trip: a derivation with the shape of a parser tree whose root is not a ?rule
       starts at the same symbol, so its yield is accepted with that tree *)
    Lemma sound_roundtrip start pr0 ds0 toks :
      wf (DNode pr0 ds0) -> p_origin pr0 = start -> ~ In start expand1s ->
      (exists data cs pr ds, shape us (DNode pr0 ds0) = Node data cs /\ wf (DNode pr ds) /\ sym_name pr = data /\
                             shape us (DNode pr ds) = shape us (DNode pr0 ds0) /\ yield (DNode pr ds) = toks) ->
      parses start toks (shape us (DNode pr0 ds0)) /\
      (unambiguous start -> forall t', parses start toks t' -> t' = shape us (DNode pr0 ds0)).
    Proof.
      intros Hwf0 Hs0 Hne (data & cs & pr & ds & E & Hwf & Hsn & Hsh & Hy).
      destruct (wf_root _ _ Hwf0) as (Hin0 & _). destruct (wf_root _ _ Hwf) as (Hin & _).
      rewrite shape_node in E.
      2:{ intros He _. exfalso. apply Hne. rewrite <- Hs0. apply In_expand1s. exists pr0. auto. }
      assert (Ho : p_origin pr = start).
      { rewrite <- Hs0. apply same_name_same_origin; auto. congruence. }
      assert (Hp : parses start toks (shape us (DNode pr0 ds0))) by (exists pr, ds; auto).
      split; auto.
      intros Hun t' (pr' & ds' & Hwf' & Ho' & Hy' & Hsh').
      assert (DNode pr' ds' = DNode pr ds) by (apply Hun; auto; congruence).
      rewrite <- Hsh', H. exact Hsh.
    Qed.

    (* token-level round trip, the part that is proved: IF reconstruction of a parser tree succeeds, the token
       sequence is accepted and (for an unambiguous grammar) the parser's tree for it is the original tree *)
    Theorem recons_token_roundtrip_partial start pr0 ds0 fuel toks :
      wf (DNode pr0 ds0) -> p_origin pr0 = start -> ~ In start expand1s ->
      recon lit M fuel (shape us (DNode pr0 ds0)) = Ok toks ->
      parses start toks (shape us (DNode pr0 ds0)) /\
      (unambiguous start -> forall t', parses start toks t' -> t' = shape us (DNode pr0 ds0)).
    Proof.
      intros Hwf0 Hs0 Hne H. apply sound_roundtrip; auto. exact (recons_token_sound _ _ _ H).
    Qed.
  End Sound.
End Proofs.
