(* C03, engines agree: for a rule table and an input with exactly one derivation, the LALR pipeline (conflict-free
   table of LR/Automaton), the Earley pipeline (Alg + add_family log + resolve walk) and the CYK pipeline return
   [shape] of that derivation. *)
From Coq Require Import ZArith String Ascii List Bool Arith Lia.
From LV Require Import Base.Prelude Cfg.Grammar Cfg.Analysis Cfg.Analysis_proofs Earley.Alg Earley.Alg_proofs
  Forest.ExplicitBuild Forest.ExplicitBuild_proofs Forest.ExplicitAlgBuild Forest.ExplicitAlgBuild_proofs
  Forest.GraphResolve Forest.GraphResolve_proofs
  Shape.Chain Shape.Spec Shape.Chain_proofs Shape.Shape_proofs Shape.Cnf Shape.Cnf_proofs Shape.CykParse Shape.EarleyLeg
  Shape.ValueDriver Shape.ValueDriver_proofs Shape.Engines.
From LV Require LR.Driver LR.Driver_proofs LR.Automaton LR.Automaton_wf LR.Lalr_complete.
Import ListNotations.

Lemma first_some_map {A B C} (g : B -> C) (F : A -> option C) (F' : A -> option B) l :
  (forall x, F x = option_map g (F' x)) -> first_some F l = option_map g (first_some F' l).
Proof.
  intros H. induction l as [|x l IH]; [reflexivity|]. cbn [first_some]. rewrite H.
  destruct (F' x); [reflexivity|exact IH].
Qed.

Section GresCbProofs.
  Variable tok : Type.
  Variable teqb : tok -> tok -> bool.
  Variable X : Type.
  Variable cb : rule -> list X -> X.
  Variable tokf : tok -> X.
  Variable fams : list (nlabel tok * family tok).
  Variable order : nlabel tok -> list (family tok) -> list (family tok).
  Notation evald := (evald tok X cb tokf).

  Lemma pack_cb_spec lbl r ds : map evald (pack tok lbl r ds) = pack_cb tok X cb lbl r (map evald ds).
  Proof. destruct lbl; reflexivity. Qed.

  Lemma family_cb lbl r (o1 o2 : option (list (dt tok))) :
    match option_map (map evald) o1 with
    | None => None
    | Some d1 => match option_map (map evald) o2 with
                 | None => None
                 | Some d2 => Some (pack_cb tok X cb lbl r (d1 ++ d2))
                 end
    end
    = option_map (map evald)
        match o1 with
        | None => None
        | Some d1 => match o2 with None => None | Some d2 => Some (pack tok lbl r (d1 ++ d2)) end
        end.
  Proof. destruct o1, o2; cbn [option_map]; rewrite ?pack_cb_spec, ?map_app; reflexivity. Qed.

  Lemma gres_cb_spec : forall fuel path lbl,
    gres_cb tok teqb X cb tokf fams order fuel path lbl
    = option_map (map evald) (gres tok teqb fams order fuel path lbl).
  Proof.
    induction fuel as [|f IH]; intros path lbl; [reflexivity|].
    cbn [gres_cb gres].
    assert (Hsub : forall o : option (nlabel tok),
               match o with None => Some [] | Some l => gres_cb tok teqb X cb tokf fams order f (lbl :: path) l end
               = option_map (map evald) match o with None => Some [] | Some l => gres tok teqb fams order f (lbl :: path) l end).
    { intros [l|]; [apply IH|reflexivity]. }
    destruct lbl as [a i j|r d i j|t x i j]; [| |reflexivity];
      (destruct (lmem tok teqb _ path); [reflexivity|]);
      apply first_some_map; intros [[r0 l] rt]; rewrite (Hsub l), (Hsub rt); apply family_cb.
  Qed.
End GresCbProofs.

Lemma derives_tokmap (G : grammar) (tok tok' : Type) (tm : nat -> tok -> bool) (tm' : nat -> tok' -> bool) (f : tok -> tok') :
  (forall t k, tm t k = true -> tm' t (f k) = true) ->
  forall ss w, derives G tok tm ss w -> derives G tok' tm' ss (map f w).
Proof.
  intros H ss w Hd. induction Hd; cbn [map].
  - constructor.
  - constructor; auto.
  - rewrite map_app. econstructor; eauto.
Qed.

Lemma lexeme_eqb_spec a b : lexeme_eqb a b = true <-> a = b.
Proof.
  destruct a as [a1 a2], b as [b1 b2]. unfold lexeme_eqb. cbn [fst snd]. rewrite andb_true_iff, !String.eqb_eq.
  split; [intros [-> ->]; reflexivity|intros [= -> ->]; auto].
Qed.

Section Conv.
  Variable rules : list rrec.
  Variable mp : bool.
  Variable nt_ix : string -> nat.
  Variable t_ix : string -> nat.
  Hypothesis nt_inj : forall a b, nt_ix a = nt_ix b -> a = b.
  Hypothesis t_inj : forall a b, t_ix a = t_ix b -> a = b.
  Notation lexeme := EarleyLeg.lexeme.
  Notation G := (cfg_grammar rules nt_ix t_ix).
  Notation cfg_of := (cfg_of nt_ix t_ix).
  Notation cfg_sym := (cfg_sym nt_ix t_ix).
  Notation ttype := (ttype t_ix).
  Notation rid_of := (rid_of rules nt_ix t_ix).
  Notation lr_o := (lr_o rules nt_ix t_ix).
  Notation o_dt := (o_dt rules nt_ix t_ix).
  Notation lx_match := (lx_match t_ix).
  Notation wf_tree := (Driver_proofs.wf_tree lexeme ttype G).

  Lemma rule_eqb_eq a b : Engines.rule_eqb a b = true <-> a = b.
  Proof. unfold Engines.rule_eqb. destruct (rule_eq_dec a b); split; auto; discriminate. Qed.

  Lemma find_rid_spec r : forall l i, In r (map cfg_of l) ->
    exists x, nth_error l (find_rid nt_ix t_ix r l i - i) = Some x /\ cfg_of x = r /\ i <= find_rid nt_ix t_ix r l i.
  Proof.
    induction l as [|x l IH]; intros i Hin; [destruct Hin|]. cbn [find_rid].
    destruct (Engines.rule_eqb (cfg_of x) r) eqn:E.
    - apply rule_eqb_eq in E. exists x. rewrite Nat.sub_diag. auto.
    - destruct Hin as [Hx|Hin]; [apply rule_eqb_eq in Hx; congruence|].
      destruct (IH (S i) Hin) as (y & Hn & Hy & Hle). exists y. split; [|split; [exact Hy|lia]].
      replace (find_rid nt_ix t_ix r l (S i) - i) with (S (find_rid nt_ix t_ix r l (S i) - S i)) by lia. exact Hn.
  Qed.

  Lemma rid_of_spec r : In r G -> rid_of r < length rules /\ cfg_of (rule_n rules (rid_of r)) = r.
  Proof.
    intros Hin. destruct (find_rid_spec r rules 0 Hin) as (x & Hn & Hx & _). rewrite Nat.sub_0_r in Hn.
    fold (rid_of r) in Hn. split.
    - apply nth_error_Some. congruence.
    - unfold rule_n. rewrite (nth_error_nth _ _ _ Hn). exact Hx.
  Qed.

  Lemma in_G rid : rid < length rules -> In (cfg_of (rule_n rules rid)) G.
  Proof. intros H. unfold cfg_grammar. apply in_map. apply nth_In. exact H. Qed.

  Definition osym (d : otree) : symbol :=
    match d with OLeaf ty _ => T (t_ix ty) | ONode rid _ => NT (nt_ix (r_origin (rule_n rules rid))) end.

  Lemma ochild_osym s d : ochild_ok rules s d = true -> osym d = cfg_sym s.
  Proof.
    destruct d as [ty v|rid ch]; cbn [ochild_ok osym]; intros H; apply andb_true_iff in H; destruct H as [H1 H2];
      apply String.eqb_eq in H2; unfold EarleyLeg.cfg_sym.
    - rewrite H1, H2. reflexivity.
    - apply negb_true_iff in H1. rewrite H1, H2. reflexivity.
  Qed.

  Lemma osym_ochild s d : osym d = cfg_sym s -> ochild_ok rules s d = true.
  Proof.
    unfold EarleyLeg.cfg_sym. destruct d as [ty v|rid ch]; cbn [ochild_ok osym]; destruct (s_term s); intros H; try discriminate;
      injection H as H; cbn [negb andb].
    - apply t_inj in H. rewrite H. apply String.eqb_refl.
    - apply nt_inj in H. rewrite H. apply String.eqb_refl.
  Qed.

  Lemma lr_o_root t : wf_tree t -> osym (lr_o t) = Driver.root lexeme ttype t.
  Proof.
    destruct t as [k|r cs]; [reflexivity|]. intros H. apply Driver_proofs.wf_node_iff in H. destruct H as (Hin & _ & _).
    destruct (rid_of_spec r Hin) as [_ E]. cbn [Engines.lr_o osym Driver.root]. rewrite <- E at 2. reflexivity.
  Qed.

  Lemma lr_o_wf t : wf_tree t -> wf_otree rules (lr_o t) = true /\ oyield (lr_o t) = Driver.yield lexeme t.
  Proof.
    induction t as [[ty v]|r cs IH] using Driver_proofs.dtree_ind'; intros Hw; [split; reflexivity|].
    pose proof Hw as Hw0. apply Driver_proofs.wf_node_iff in Hw. destruct Hw as (Hin & Hroot & Hf).
    destruct (rid_of_spec r Hin) as [Hlt E]. cbn [Engines.lr_o wf_otree oyield Driver.yield].
    pose proof (Forall_mp _ _ _ IH Hf) as Hall.
    split.
    - apply andb_true_iff. split; [apply andb_true_iff; split|].
      + apply Nat.ltb_lt. exact Hlt.
      + rewrite <- E in Hroot. unfold EarleyLeg.cfg_of in Hroot. cbn [rhs] in Hroot. clear -Hroot Hf nt_inj t_inj.
        revert Hroot Hf. generalize (r_exp (rule_n rules (rid_of r))) as exp.
        induction cs as [|c cs IHc]; intros [|s exp] Hroot Hf; try discriminate; [reflexivity|].
        cbn [map] in Hroot. injection Hroot as Hc Hrest. inversion Hf; subst. cbn [map forall2b].
        apply andb_true_iff. split; [|apply IHc; auto].
        apply osym_ochild. rewrite lr_o_root; auto.
      + clear -Hall. induction Hall as [|c cs [Hc _] _ IHc]; [reflexivity|]. cbn [map forallb]. rewrite Hc. exact IHc.
    - clear -Hall. induction Hall as [|c cs [_ Hc] _ IHc]; [reflexivity|]. cbn [map flat_map]. rewrite Hc, IHc. reflexivity.
  Qed.

  Lemma o_dt_wfd d : wf_otree rules d = true -> wfd G lexeme lx_match (o_dt d) (osym d) /\ yield lexeme (o_dt d) = oyield d.
  Proof.
    induction d as [ty v|rid ch IH] using otree_ind'; intros Hwf.
    - split; [|reflexivity]. constructor. unfold EarleyLeg.lx_match. cbn [fst]. apply Nat.eqb_refl.
    - destruct (wf_otree_node _ _ _ Hwf) as (Hlt & Har & Hall).
      pose proof (Forall_mp _ _ _ IH Hall) as HA.
      cbn [Engines.o_dt osym oyield]. split.
      + change (NT (nt_ix (r_origin (rule_n rules rid)))) with (NT (lhs (cfg_of (rule_n rules rid)))).
        constructor; [apply in_G; exact Hlt|].
        unfold EarleyLeg.cfg_of. cbn [rhs]. clear -Har HA. revert Har HA. generalize (r_exp (rule_n rules rid)) as exp.
        induction ch as [|c ch IHc]; intros [|s exp] Har HA; try discriminate; [constructor|].
        cbn [forall2b] in Har. apply andb_true_iff in Har. destruct Har as [Hc Har]. inversion HA as [|? ? [Hw _] HA']; subst.
        cbn [map]. constructor; [|apply IHc; auto]. rewrite <- (ochild_osym _ _ Hc). exact Hw.
      + rewrite yield_DN. unfold yields. clear -HA. induction HA as [|c ch [_ Hc] _ IHc]; [reflexivity|].
        cbn [map flat_map]. rewrite Hc, IHc. reflexivity.
  Qed.

  Fixpoint dt_lr (d : dt lexeme) : Driver.dtree lexeme :=
    match d with
    | DL _ _ x => Driver.Leaf x
    | DN _ r ks => Driver.Node r (map dt_lr ks)
    end.

  Lemma dt_o_lr d : dt_o rules nt_ix t_ix d = lr_o (dt_lr d).
  Proof.
    induction d as [t x|r ks IH] using (dt_ind2 lexeme); [reflexivity|]. cbn [Engines.dt_o dt_lr Engines.lr_o]. f_equal.
    rewrite map_map. apply map_ext_Forall. exact IH.
  Qed.

  Lemma dt_lr_wf d : forall s, wfd G lexeme lx_match d s ->
    wf_tree (dt_lr d) /\ Driver.root lexeme ttype (dt_lr d) = s /\ Driver.yield lexeme (dt_lr d) = yield lexeme d.
  Proof.
    induction d as [t x|r ks IH] using (dt_ind2 lexeme); intros s Hw; inversion Hw as [? ? Hm|? ? Hin HF2]; subst.
    - cbn. unfold EarleyLeg.lx_match in Hm. apply Nat.eqb_eq in Hm. subst t. auto.
    - assert (HA : Forall2 (fun k s => wf_tree (dt_lr k) /\ Driver.root lexeme ttype (dt_lr k) = s
                                       /\ Driver.yield lexeme (dt_lr k) = yield lexeme k) ks (rhs r)).
      { clear -IH HF2. induction HF2 as [|k s ks ss Hk _ IHk]; [constructor|]. inversion IH; subst. constructor; auto. }
      cbn [dt_lr]. split; [|split].
      + apply Driver_proofs.wf_node_iff. split; [exact Hin|]. split.
        * clear -HA. induction HA as [|k s ks ss (_ & Hk & _) _ IHk]; [reflexivity|]. cbn [map]. rewrite Hk, IHk. reflexivity.
        * unfold Driver_proofs.wf_forest. clear -HA. induction HA as [|k s ks ss (Hk & _) _ IHk]; constructor; auto.
      + reflexivity.
      + rewrite yield_DN. unfold yields. cbn [Driver.yield]. clear -HA.
        induction HA as [|k s ks ss (_ & _ & Hk) _ IHk]; [reflexivity|]. cbn [map flat_map]. rewrite Hk, IHk. reflexivity.
  Qed.

  Notation cbo := (cbo rules mp nt_ix t_ix).
  Lemma evalt_lr t : evalt lexeme (option stree) cbo tokv t = eval_chain mp (o_dtree rules (lr_o t)).
  Proof.
    induction t as [[ty v]|r cs IH] using Driver_proofs.dtree_ind'; [reflexivity|].
    assert (E : map (evalt lexeme (option stree) cbo tokv) cs = map (eval_chain mp) (map (o_dtree rules) (map lr_o cs))).
    { rewrite !map_map. apply map_ext_Forall. exact IH. }
    cbn [ValueDriver.evalt Engines.lr_o o_dtree Cnf.eval_chain]. rewrite E. reflexivity.
  Qed.

  Lemma evald_lr d : evald lexeme (option stree) cbo tokv d = evalt lexeme (option stree) cbo tokv (dt_lr d).
  Proof.
    induction d as [t x|r ks IH] using (dt_ind2 lexeme); [reflexivity|]. cbn [Engines.evald dt_lr ValueDriver.evalt]. f_equal.
    rewrite map_map. apply map_ext_Forall. exact IH.
  Qed.
End Conv.

Lemma wf_tree_no_root (tok : Type) (ttype : tok -> nat) (G : grammar) (r0 : rule) :
  (forall r, In r G -> ~ In (NT (lhs r0)) (rhs r)) ->
  forall t, Driver_proofs.wf_tree tok ttype (G ++ [r0]) t -> Driver.root tok ttype t <> NT (lhs r0) ->
            Driver_proofs.wf_tree tok ttype G t.
Proof.
  intros Hfresh. induction t as [k|r cs IH] using Driver_proofs.dtree_ind'; intros Hw Hr; [exact I|].
  apply Driver_proofs.wf_node_iff in Hw. destruct Hw as (Hin & Hroot & Hf).
  apply in_app_iff in Hin. destruct Hin as [Hin|[<-|[]]]; [|cbn in Hr; congruence].
  apply Driver_proofs.wf_node_iff. split; [exact Hin|]. split; [exact Hroot|].
  unfold Driver_proofs.wf_forest in *. rewrite Forall_forall in *. intros c Hc. apply IH; auto.
  intros E. apply (Hfresh r Hin). rewrite <- Hroot, <- E. apply in_map. exact Hc.
Qed.

Lemma pick_single {A C} (g : option (list A)) (f : A -> option C) d' :
  match g with Some [d] => Some d | _ => None end = Some d' ->
  match option_map (map f) g with Some [v] => v | _ => None end = f d'.
Proof. destruct g as [[|x [|? ?]]|]; try discriminate. intros [= ->]. reflexivity. Qed.

Section Legs.
  Variable rules : list rrec.
  Variable mp : bool.
  Variable nt_ix : string -> nat.
  Variable t_ix : string -> nat.
  Hypothesis nt_inj : forall a b, nt_ix a = nt_ix b -> a = b.
  Hypothesis t_inj : forall a b, t_ix a = t_ix b -> a = b.
  Hypothesis Htable : Forall (fun r => rule_wf r mp = true /\ inline_ok r = true) rules.
  Variable start_name : string.
  Variable d : otree.
  Hypothesis Hu : unique_derivation rules start_name d.
  Notation lexeme := EarleyLeg.lexeme.
  Notation G := (cfg_grammar rules nt_ix t_ix).
  Notation ttype := (ttype t_ix).
  Notation lx_match := (lx_match t_ix).
  Notation start := (nt_ix start_name).
  Notation w := (oyield d).
  Notation lr_o := (lr_o rules nt_ix t_ix).

  Lemma osym_d : osym rules nt_ix t_ix d = NT start.
  Proof. destruct Hu as (_ & Hr & _). destruct d as [ty v|rid ch]; [destruct Hr|]. cbn in *. rewrite Hr. reflexivity. Qed.

  Lemma unique_from_lr t :
    Driver_proofs.wf_tree lexeme ttype G t -> Driver.root lexeme ttype t = NT start -> Driver.yield lexeme t = w -> lr_o t = d.
  Proof.
    intros Hw Hr Hy. destruct Hu as (_ & _ & Huniq). destruct (lr_o_wf rules nt_ix t_ix nt_inj t_inj t Hw) as [Hwo Hyo].
    apply Huniq; [exact Hwo| |congruence].
    pose proof (lr_o_root rules nt_ix t_ix t Hw) as Hs. rewrite Hr in Hs.
    destruct t as [k|r cs]; [discriminate|]. cbn [Engines.lr_o osym oroot_is] in *. injection Hs as Hs. apply nt_inj. exact Hs.
  Qed.

  Lemma chain_on_d : eval_chain mp (o_dtree rules d) = shape mp (o_dtree rules d).
  Proof. apply eval_chain_shape. apply (wf_otree_dtree rules mp Htable). apply Hu. Qed.

  Theorem earley_leg (order : nlabel lexeme -> list (family lexeme) -> list (family lexeme)) :
    (forall l fs f, In f (order l fs) <-> In f fs) ->
    earley_engine rules mp nt_ix t_ix order start w = shape mp (o_dtree rules d).
  Proof.
    intros Hperm. destruct Hu as (Hwf & _ & _).
    destruct (o_dt_wfd rules nt_ix t_ix d Hwf) as [Hwd Hy]. rewrite osym_d in Hwd.
    set (occ := fun (x : lexeme) (i : nat) => match nth_error w i with Some y => lexeme_eqb x y | None => false end).
    assert (occ_spec : forall x i, occ x i = true <-> nth_error w i = Some x).
    { intros x i. unfold occ. destruct (nth_error w i) as [y|]; [|split; discriminate].
      rewrite lexeme_eqb_spec. split; [intros ->; reflexivity|intros [= ->]; reflexivity]. }
    assert (ps : forall a r, In r (pred_lookup G (pred_table G) a) -> In r G /\ lc_reach G a (lhs r)).
    { intros a r. rewrite pred_lookup_eq. apply predictions_spec. }
    assert (pd : forall a r, In r G -> lhs r = a -> In r (pred_lookup G (pred_table G) a)).
    { intros a r. rewrite pred_lookup_eq. apply predictions_direct. }
    destruct (model_forest_complete G _ lexeme lx_match start w ps pd occ occ_spec _ Hwd Hy) as [Hacc Hden].
    unfold earley_engine. rewrite Hacc. rewrite gres_cb_spec.
    set (fams := snd (iparse G (pred_lookup G (pred_table G)) lexeme lx_match start w)) in *.
    pose proof (graph_resolve_total lexeme lexeme_eqb lexeme_eqb_spec fams order Hperm _ _ _ _ Hden) as Hne.
    destruct (graph_resolve lexeme lexeme_eqb fams order (NSym lexeme start 0 (length w))) as [d'|] eqn:Eg; [|exfalso; apply Hne; exact Eg].
    pose proof (graph_resolve_in_den lexeme lexeme_eqb lexeme_eqb_spec fams order Hperm _ _ _ _ Eg) as Hd'.
    apply (model_forest_exact G _ lexeme lx_match start w ps pd occ occ_spec (or_introl Hacc)) in Hd'.
    destruct Hd' as (d0 & [= <-] & Hw' & Hy').
    etransitivity; [exact (pick_single _ (evald lexeme (option stree) (cbo rules mp nt_ix t_ix) tokv) d' Eg)|].
    destruct (dt_lr_wf rules nt_ix t_ix d' _ Hw') as (Hwt & Hrt & Hyt).
    rewrite evald_lr, evalt_lr.
    rewrite (unique_from_lr _ Hwt Hrt (eq_trans Hyt Hy')). apply chain_on_d.
  Qed.

  Variable prio : list Z.
  Variables rootnt tEND fuel : nat.
  Variable A : Automaton.lr0.
  Variable rel : Automaton.relations.
  Variable LA : list (nat * nat * nat).
  Variable R : Driver.rows.
  Variable qe : nat.
  Variable e : lexeme.
  Hypothesis HT : Automaton.compute_lalr (G ++ [mkRule rootnt [NT start]]) prio [length G] tEND fuel = Automaton.ATable A rel LA R.
  Hypothesis Hfresh : forall r, In r G -> ~ In (NT rootnt) (rhs r).
  Hypothesis Hne : start <> rootnt.
  Hypothesis Hqe : Automaton.end_state (G ++ [mkRule rootnt [NT start]]) [length G] A 0 = Some qe.
  Hypothesis Hcf : Lalr_complete.conflict_free A LA.
  Hypothesis He : ttype e = tEND.

  Theorem lalr_leg :
    exists f, lalr_engine rules mp nt_ix t_ix (Driver.ptable_of_rows R 0 qe) f w e = shape mp (o_dtree rules d).
  Proof.
    destruct Hu as (Hwf & _ & _).
    destruct (o_dt_wfd rules nt_ix t_ix d Hwf) as [Hwd Hy]. rewrite osym_d in Hwd.
    pose proof (wfd_derives G lexeme lx_match _ _ Hwd) as Hd. rewrite Hy in Hd.
    apply (derives_tokmap G lexeme nat lx_match (Driver_proofs.tmatch nat (fun k => k)) ttype) in Hd; [|intros t k H; exact H].
    destruct (Lalr_complete.model_complete_user G prio rootnt start tEND fuel A rel LA R qe _ HT Hfresh Hne Hqe Hcf Hd) as (f & tn & Hp).
    exists f.
    pose proof (parse_tokmap lexeme nat ttype ttype (fun k => k) (fun k => eq_refl) (Driver.ptable_of_rows R 0 qe) f w e) as Hm.
    rewrite He, Hp in Hm.
    destruct (Driver.parse lexeme ttype (Driver.ptable_of_rows R 0 qe) f w e) as [c|t'|c|c|c|] eqn:Ep; try discriminate.
    set (rules' := G ++ [mkRule rootnt [NT start]]) in *.
    assert (Hfresh' : forall r, In r rules' -> ~ In (NT rootnt) (rhs r)).
    { intros r Hr. apply in_app_iff in Hr. destruct Hr as [Hr|[<-|[]]]; auto. cbn. intros [E|[]]. congruence. }
    assert (WI : Driver_proofs.wf_items rules' (Automaton_wf.model_ptable R 0 qe) start (Automaton_wf.model_items rules' A)).
    { apply (Automaton_wf.model_wf_items rules' prio [length G] tEND fuel A rel LA R HT) with (r0 := length G) (rootnt := rootnt); auto.
      - repeat constructor. intros [].
      - intros r [<-|[]]. unfold rules'. rewrite app_length. cbn. lia.
      - unfold Automaton.rule_at, rules'. apply nth_middle. }
    pose proof (Driver_proofs.wf_items_table _ _ _ _ WI) as WF.
    destruct (Driver_proofs.driver_sound lexeme ttype rules' _ start WF f w e t' Ep) as (Hwt & Hrt & Hyt & _).
    apply (wf_tree_no_root lexeme ttype G (mkRule rootnt [NT start]) Hfresh) in Hwt; [|rewrite Hrt; cbn; congruence].
    unfold lalr_engine. rewrite vparse_sim, Ep. cbn [omap]. rewrite evalt_lr.
    rewrite (unique_from_lr _ Hwt Hrt Hyt). apply chain_on_d.
  Qed.
End Legs.
