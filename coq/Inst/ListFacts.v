(* Facts about Forall2 and positions that the standard library does not have. *)
From Coq Require Import List.
Import ListNotations.

Lemma Forall2_nth_l {A B} (R : A -> B -> Prop) l1 l2 i x :
  Forall2 R l1 l2 -> nth_error l1 i = Some x -> exists y, nth_error l2 i = Some y /\ R x y.
Proof.
  intros h. revert i. induction h; intros [|i]; simpl; try discriminate; eauto.
  intros [= <-]. eauto.
Qed.

Lemma Forall2_nth_r {A B} (R : A -> B -> Prop) l1 l2 i y :
  Forall2 R l1 l2 -> nth_error l2 i = Some y -> exists x, nth_error l1 i = Some x /\ R x y.
Proof.
  intros h. revert i. induction h; intros [|i]; simpl; try discriminate; eauto.
  intros [= <-]. eauto.
Qed.

Lemma Forall2_nth_none {A B} (R : A -> B -> Prop) l1 l2 i :
  Forall2 R l1 l2 -> nth_error l1 i = None -> nth_error l2 i = None.
Proof. intros h. revert i. induction h; intros [|i]; simpl; try discriminate; auto. Qed.

Lemma Forall2_impl {A B} (P Q : A -> B -> Prop) l1 l2 :
  (forall a b, P a b -> Q a b) -> Forall2 P l1 l2 -> Forall2 Q l1 l2.
Proof. intros I H. induction H; constructor; auto. Qed.

Lemma Forall2_snoc {A B} (R : A -> B -> Prop) l1 l2 x y :
  Forall2 R l1 l2 -> R x y -> Forall2 R (l1 ++ [x]) (l2 ++ [y]).
Proof. intros h hr. apply Forall2_app; auto. Qed.

(* Writing position i of a list.  Inter/IDriver.set_nth, Inst/Threads.upd and Inst/LazyCell.lupd are this
   function (the same fixpoint, hence convertible), so the two facts below apply to them as they stand. *)
Fixpoint set_at {A} (l : list A) (i : nat) (x : A) : list A :=
  match l, i with
  | [], _ => []
  | _ :: r, 0 => x :: r
  | y :: r, S j => y :: set_at r j x
  end.

Lemma Forall2_set_at {A B} (R : A -> B -> Prop) l1 l2 i x y :
  Forall2 R l1 l2 -> R x y -> Forall2 R (set_at l1 i x) (set_at l2 i y).
Proof. intros h. revert i. induction h; intros [|i] hr; simpl; constructor; auto. Qed.

Lemma Forall2_set_at_r {A B} (R : A -> B -> Prop) l1 l2 i x y :
  Forall2 R l1 l2 -> nth_error l1 i = Some x -> R x y -> Forall2 R l1 (set_at l2 i y).
Proof.
  intros h. revert i. induction h; intros [|i] hn hr; simpl in *; try discriminate; constructor; auto.
  injection hn as ->. exact hr.
Qed.
