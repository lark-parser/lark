(* Assembly of the C07 statements about the lexer as it is built (make_lexer):
   sorted terminals, scanner = the non-embedded ones in that order, whatever the chunking. *)
From Coq Require Import ZArith List Bool String Ascii Arith Lia Sorted Permutation.
From LV Require Import Base.Prelude Lex.LexerBase Gen.LexerSortKey Lex.Lexer
     Lex.LexerOrder_proofs Lex.Lexer_proofs Lex.Unless_proofs.
Import ListNotations.

Section Top.

Variable fold : ascii -> ascii.
Variable m : term -> string -> nat -> option nat.
Variable cok : list term -> bool.
Variable text : string.

Lemma make_lexer_spec terms ign L :
  cok_monotone cok -> make_lexer m cok terms ign = Some L ->
  lx_terms L = sort_terms terms /\ lx_ign L = ign /\
  List.concat (lx_mres L) = scanner_terms m (sort_terms terms).
Proof.
  intros Hmono. unfold make_lexer, scanner_mres.
  destruct (build_mres cok _ _ _) as [mres|] eqn:E; [|discriminate].
  intros H; injection H as <-. cbn. repeat split.
  eapply build_mres_concat; eauto.
Qed.

Lemma scanner_terms_sorted terms :
  StronglySorted doc_le (scanner_terms m (sort_terms terms)).
Proof. unfold scanner_terms. cbv zeta. apply filter_sorted. apply sort_sorted. Qed.

(* the terminal chosen at p is the first, in the documented order, of the scanner's
   terminals that match at p - however the alternation was split into chunks *)
Theorem lexer_first_documented terms ign L p t n :
  cok_monotone cok -> make_lexer m cok terms ign = Some L ->
  scan m text (lx_mres L) p = Some (t, n) ->
  In t (scanner_terms m (sort_terms terms)) /\ m t text p = Some n /\
  forall u, In u (scanner_terms m (sort_terms terms)) -> m u text p <> None -> doc_le t u.
Proof.
  intros Hmono HL Hs. destruct (make_lexer_spec _ _ _ Hmono HL) as (_ & _ & Hc).
  rewrite <- Hc. apply scanner_first_documented; [|assumption].
  rewrite Hc. apply scanner_terms_sorted.
Qed.

Theorem unless_keyword L X v :
  (tre X = false -> report fold m L X v = tname X) /\
  ((forall K, keyword_of m L X K -> str_full fold K v = false) -> report fold m L X v = tname X) /\
  (forall pre K post, tre X = true -> L = pre ++ K :: post -> keyword_of m L X K ->
     str_full fold K v = true ->
     (forall K', In K' pre -> keyword_of m L X K' -> str_full fold K' v = false) ->
     report fold m L X v = tname K) /\
  (report fold m L X v <> tname X ->
     exists K, report fold m L X v = tname K /\ tre X = true /\ keyword_of m L X K /\ str_full fold K v = true) /\
  (forall K, str_full fold K v = true <->
     if ci_of K then fold_str fold (tvalue K) = fold_str fold v else tvalue K = v).
Proof.
  split; [apply report_string|]. split; [apply report_no_keyword|].
  split; [intros; eapply report_keyword; eauto|]. split; [|intros; apply str_full_spec].
  intros Hne. destruct (report_inv fold m L X v) as [E|(Hre & K & E & Hk & Hf & _)]; [congruence|].
  exists K. auto.
Qed.

Theorem lexer_tiling terms ign L rs e :
  (forall t p n, m t text p = Some n -> (0 < n)%nat) ->
  (forall t p n, m t text p = Some n -> (p + n <= String.length text)%nat) ->
  make_lexer m cok terms ign = Some L ->
  lex_raw m text (S (String.length text)) (lx_mres L) 0 = (rs, e) ->
  Forall (scanned m text (lx_mres L)) rs /\
  match e with
  | AtEOF => tiled 0 rs (String.length text)
  | ErrAt q => tiled 0 rs q /\ (q < String.length text)%nat /\
               forall t, In t (List.concat (lx_mres L)) -> m t text q = None
  | NoFuel => False
  end.
Proof.
  intros Hpos Hb _ H.
  apply (lex_raw_tiling m text (lx_mres L) (S (String.length text))) with (p := 0);
    [intros t p n _; apply Hpos|intros t p n _; apply Hb|lia|lia|assumption].
Qed.

End Top.
