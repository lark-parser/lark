(* cnf_roundtrip (tree level): every derivation of the original grammar has a CNF pre-image
   (TERM, BIN, UNIT applied to the tree) with the same yield whose reversion by revert_cnf is that
   derivation. *)
From Coq Require Import String Ascii List Bool Arith Lia.
From LV Require Import Base.Prelude Shape.Chain Shape.Spec Shape.Chain_proofs Shape.Shape_proofs Shape.Cnf Shape.CnfLink.
Import ListNotations.

(* induction over two lists of the same length >= 2, as split_tail / split_tree recurse *)
Lemma list2_ind2 {A B} (P : list A -> list B -> Prop) :
  (forall a b x y, P [a; b] [x; y]) ->
  (forall a b c l x y z k, length l = length k -> P (b :: c :: l) (y :: z :: k) -> P (a :: b :: c :: l) (x :: y :: z :: k)) ->
  forall l k, length l = length k -> 2 <= length k -> P l k.
Proof.
  intros H2 H3. induction l as [|a l IH]; intros [|x k] Hl Hk; simpl in *; try lia.
  destruct l as [|b [|c l]], k as [|y [|z k]]; simpl in *; try lia; [apply H2|].
  apply H3; [lia|]. apply IH; simpl; lia.
Qed.

Lemma list2_ind {A} (P : list A -> Prop) :
  (forall a b, P [a; b]) -> (forall a b c l, P (b :: c :: l) -> P (a :: b :: c :: l)) ->
  forall l, 2 <= length l -> P l.
Proof. intros H2 H3 l Hl. apply (list2_ind2 (fun l _ => P l)) with (k := l); auto. Qed.

Section OtreeInd.
  Variable P : otree -> Prop.
  Hypothesis Hl : forall ty v, P (OLeaf ty v).
  Hypothesis Hn : forall rid ch, Forall P ch -> P (ONode rid ch).
  Fixpoint otree_ind' (d : otree) : P d :=
    match d with
    | OLeaf ty v => Hl ty v
    | ONode rid ch => Hn rid ch ((fix go l : Forall P l :=
                                    match l with [] => Forall_nil P | x :: r => Forall_cons x (otree_ind' x) (go r) end) ch)
    end.
End OtreeInd.

Lemma split_tail_3 rid i a b c l :
  split_tail rid i (a :: b :: c :: l)
  = mkC (NSplit rid i) [a; CN (NSplit rid (S i))] ASplitA [] :: split_tail rid (S i) (b :: c :: l).
Proof. reflexivity. Qed.

Lemma split_tree_3 rid i a b c l x y z k :
  split_tree rid i (a :: b :: c :: l) (x :: y :: z :: k)
  = CNode (mkC (NSplit rid i) [a; CN (NSplit rid (S i))] ASplitA []) [x; split_tree rid (S i) (b :: c :: l) (y :: z :: k)].
Proof. reflexivity. Qed.

(* what a parent keeps of a reverted child: the children of a `__SP_` node, else the node *)
Definition splice (c : ctree) : list ctree :=
  match revert c with
  | CNode r' ch' as c' => if is_split (c_lhs r') then ch' else [c']
  | c' => [c']
  end.
Definition flatK (kids : list ctree) : list ctree := flat_map splice kids.

Lemma revert_node r ch :
  (forall t, c_lhs r <> NTerm t) ->
  revert (CNode r ch) = unroll (c_lhs r) (c_rhs r) (c_skipped r) (flatK ch) (c_alias r).
Proof.
  intros Hn. destruct r as [l rhs a sk]. cbn [revert c_lhs c_rhs c_alias c_skipped] in *.
  destruct l as [n|t|rid i]; [|exfalso; apply (Hn t); reflexivity|]; destruct sk; reflexivity.
Qed.

Lemma unroll_lhs l rhs sk K a : exists r ch, unroll l rhs sk K a = CNode r ch /\ c_lhs r = l.
Proof. destruct sk as [|[l1 a1] rest]; simpl; eauto. Qed.

Lemma revert_split_tree rid : forall syms ks, length syms = length ks -> 2 <= length ks -> forall i,
  exists r, revert (split_tree rid i syms ks) = CNode r (flatK ks) /\ is_split (c_lhs r) = true.
Proof.
  apply (list2_ind2 (fun syms ks => forall i, exists r, revert (split_tree rid i syms ks) = CNode r (flatK ks) /\ _)).
  - intros a b x y i. eexists. split; reflexivity.
  - intros a b c l x y z k _ IH i. destruct (IH (S i)) as (r & Hr & Hs).
    exists (mkC (NSplit rid i) [a; CN (NSplit rid (S i))] ASplitA []). split; [|reflexivity].
    rewrite split_tree_3.
    cbn [revert c_lhs c_skipped]. f_equal. unfold flatK. cbn [flat_map]. f_equal.
    rewrite app_nil_r. unfold splice at 1. rewrite Hr, Hs. reflexivity.
Qed.

Lemma cyield_split_tree rid : forall syms ks, length syms = length ks -> 2 <= length ks -> forall i,
  cyield (split_tree rid i syms ks) = flat_map cyield ks.
Proof.
  apply (list2_ind2 (fun syms ks => forall i, cyield (split_tree rid i syms ks) = flat_map cyield ks)).
  - reflexivity.
  - intros a b c l x y z k _ IH i.
    rewrite split_tree_3.
    cbn [cyield flat_map]. rewrite IH, app_nil_r. reflexivity.
Qed.

(* the children of the head rule after BIN: with three or more symbols, the first child and the `__SP_` chain *)
Definition bin_kids (rid : nat) (e : list csym) (ks : list ctree) : list ctree :=
  match e, ks with
  | _ :: _ :: _ :: _, k0 :: krest => [k0; split_tree rid 1 (tl e) krest]
  | _, _ => ks
  end.

Lemma flatK_bin_kids rid e ks : length e = length ks -> flatK (bin_kids rid e ks) = flatK ks.
Proof.
  intros Hl. destruct e as [|x0 [|x1 [|x2 e]]], ks as [|k0 ks]; try reflexivity. cbn [bin_kids tl].
  destruct (revert_split_tree rid (x1 :: x2 :: e) ks ltac:(simpl in *; lia) ltac:(simpl in *; lia) 1) as (r & Hr & Hs).
  unfold flatK. cbn [flat_map]. rewrite app_nil_r. f_equal. unfold splice. rewrite Hr, Hs. reflexivity.
Qed.

Lemma cyield_bin_kids rid e ks : length e = length ks -> flat_map cyield (bin_kids rid e ks) = flat_map cyield ks.
Proof.
  intros Hl. destruct e as [|x0 [|x1 [|x2 e]]], ks as [|k0 ks]; try reflexivity. cbn [bin_kids tl flat_map].
  rewrite cyield_split_tree, app_nil_r by (simpl in *; lia). reflexivity.
Qed.

Lemma unit_dec (ch : list otree) :
  (exists rid' ch', ch = [ONode rid' ch']) \/ (forall rid' ch', ch <> [ONode rid' ch']).
Proof. destruct ch as [|[ty v|rid' ch'] [|c2 ch2]]; eauto; right; intros; discriminate. Qed.

Section WithRules.
  Variable rules : list rrec.
  Notation cnf_parts := (cnf_parts rules).
  Notation cnf_of := (cnf_of rules).
  Notation rule_n := (rule_n rules).
  Notation tf_of := (tf_of rules).
  Notation e_of := (e_of rules).
  Notation head_rhs := (head_rhs rules).

  Lemma wf_otree_node rid ch : wf_otree rules (ONode rid ch) = true ->
    rid < length rules /\ forall2b (ochild_ok rules) (r_exp (rule_n rid)) ch = true /\
    Forall (fun c => wf_otree rules c = true) ch.
  Proof.
    cbn [wf_otree]. rewrite !andb_true_iff, Nat.ltb_lt, forallb_forall, <- Forall_forall. intros [[H1 H2] H3]. auto.
  Qed.

  Lemma e_of_length rid : length (e_of rid) = length (r_exp (rule_n rid)).
  Proof. unfold CnfLink.e_of, exp_of. destruct (tf_of rid); rewrite !map_length; reflexivity. Qed.

  Definition node_of (d : otree) : ctree :=
    match d with
    | OLeaf ty v => CLeaf ty v
    | ONode rid' _ => let '(rhs, kids, sk) := cnf_parts d in
                      CNode (mkC (NOrig (r_origin (rule_n rid'))) rhs (ARule rid') sk) kids
    end.

  Lemma cnf_of_node d : cnf_of d = node_of d.
  Proof. destruct d; reflexivity. Qed.

  Definition mk_child (tf : bool) (c : otree) : ctree := wrap_term tf (node_of c).

  Lemma mk_child_node tf rid ch : mk_child tf (ONode rid ch) = node_of (ONode rid ch).
  Proof. unfold mk_child. cbn [node_of]. destruct (cnf_parts (ONode rid ch)) as [[a b] c]. reflexivity. Qed.

  Lemma cnf_parts_nonunit rid ch :
    (forall rid' ch', ch <> [ONode rid' ch']) -> length (r_exp (rule_n rid)) = length ch ->
    cnf_parts (ONode rid ch) = (head_rhs rid, bin_kids rid (e_of rid) (map (mk_child (tf_of rid)) ch), []).
  Proof.
    intros Hnu Hlen. rewrite <- e_of_length in Hlen. unfold CnfLink.head_rhs, bin_kids.
    assert (E : cnf_parts (ONode rid ch) =
                match e_of rid, map (mk_child (tf_of rid)) ch with
                | x0 :: (_ :: _ :: _), k0 :: krest => ([x0; CN (NSplit rid 1)], [k0; split_tree rid 1 (tl (e_of rid)) krest], [])
                | _, _ => (e_of rid, map (mk_child (tf_of rid)) ch, [])
                end).
    { destruct ch as [|[ty v|rid' ch'] [|c2 ch2]]; try reflexivity. exfalso. eapply Hnu. reflexivity. }
    rewrite E. destruct (e_of rid) as [|x0 [|x1 [|x2 e]]], ch as [|c ch]; try reflexivity; discriminate.
  Qed.

  Lemma cnf_parts_unit rid rid' ch' :
    cnf_parts (ONode rid [ONode rid' ch']) =
    let '(rhs, kids, sk) := cnf_parts (ONode rid' ch') in
    (rhs, kids, (NOrig (r_origin (rule_n rid')), ARule rid') :: sk).
  Proof. reflexivity. Qed.

  Definition reverts (d : otree) : Prop :=
    match d with
    | OLeaf _ _ => True
    | ONode rid _ => let '(rhs, kids, sk) := cnf_parts d in
                     to_otree (unroll (NOrig (r_origin (rule_n rid))) rhs sk (flatK kids) (ARule rid)) = Some d
    end.

  Lemma splice_mk_child tf c : reverts c -> all_some (map to_otree (splice (mk_child tf c))) = Some [c].
  Proof.
    intros IH. destruct c as [ty v|rid ch].
    - unfold mk_child, splice. simpl. destruct tf; reflexivity.
    - rewrite mk_child_node. cbn [node_of reverts] in *.
      destruct (cnf_parts (ONode rid ch)) as [[rhs kids] sk].
      unfold splice. rewrite revert_node by (cbn; discriminate). cbn [c_lhs c_rhs c_skipped c_alias].
      destruct (unroll_lhs (NOrig (r_origin (rule_n rid))) rhs sk (flatK kids) (ARule rid)) as (r & ch0 & E & El).
      rewrite E in *. rewrite El. cbn [is_split map all_some]. rewrite IH. reflexivity.
  Qed.

  Lemma oyield_ok_length s d : ochild_ok rules s d = true -> True.
  Proof. auto. Qed.

  Theorem revert_cnf_parts d : wf_otree rules d = true -> reverts d.
  Proof.
    induction d as [ty v|rid ch IH] using otree_ind'; intros Hwf; [exact I|].
    destruct (wf_otree_node _ _ Hwf) as (_ & Har & Hall). apply forall2b_length in Har.
    pose proof (Forall_mp _ _ _ IH Hall) as IH'. unfold reverts.
    destruct (unit_dec ch) as [(rid' & ch' & ->)|Hnu].
    - (* UNIT: the child's rule heads the skipped list, and unroll rebuilds the child under it *)
      rewrite cnf_parts_unit. inversion IH' as [|? ? IHc _]; subst. unfold reverts in IHc.
      destruct (cnf_parts (ONode rid' ch')) as [[rhs kids] sk]. cbn [unroll to_otree map all_some].
      rewrite IHc. reflexivity.
    - rewrite cnf_parts_nonunit by assumption. cbn [unroll to_otree].
      rewrite flatK_bin_kids by (rewrite e_of_length, map_length; exact Har).
      replace (all_some _) with (Some ch); [reflexivity|]. symmetry.
      clear -IH'. induction IH' as [|c ch Hc _ IHch]; [reflexivity|].
      unfold flatK in *. cbn [map flat_map]. rewrite map_app, all_some_app, (splice_mk_child _ c Hc), IHch. reflexivity.
  Qed.

  Theorem cnf_roundtrip_complete d : wf_otree rules d = true -> to_otree (revert (cnf_of d)) = Some d.
  Proof.
    intros Hwf. destruct d as [ty v|rid ch]; [reflexivity|].
    pose proof (revert_cnf_parts (ONode rid ch) Hwf) as H. unfold reverts in H.
    unfold Cnf.cnf_of. destruct (cnf_parts (ONode rid ch)) as [[rhs kids] sk].
    rewrite revert_node by (cbn; discriminate). exact H.
  Qed.

  Theorem cnf_yield d : wf_otree rules d = true ->
    match d with
    | OLeaf ty v => True
    | ONode _ _ => let '(rhs, kids, sk) := cnf_parts d in flat_map cyield kids = oyield d
    end.
  Proof.
    induction d as [ty v|rid ch IH] using otree_ind'; intros Hwf; [exact I|].
    destruct (wf_otree_node _ _ Hwf) as (_ & Har & Hall). apply forall2b_length in Har.
    pose proof (Forall_mp _ _ _ IH Hall) as IH'.
    destruct (unit_dec ch) as [(rid' & ch' & ->)|Hnu].
    - rewrite cnf_parts_unit. inversion IH' as [|? ? IHc _]; subst.
      destruct (cnf_parts (ONode rid' ch')) as [[rhs kids] sk]. cbn [oyield flat_map]. rewrite app_nil_r. exact IHc.
    - rewrite cnf_parts_nonunit by assumption.
      rewrite cyield_bin_kids by (rewrite e_of_length, map_length; exact Har).
      apply flat_map_map_ext. eapply Forall_impl; [|exact IH']. intros [ty v|rid' ch'] Hc.
      + unfold mk_child. simpl. destruct (tf_of rid); reflexivity.
      + rewrite mk_child_node. cbn [node_of]. destruct (cnf_parts (ONode rid' ch')) as [[rhs kids] sk]. exact Hc.
  Qed.

  Theorem cnf_roundtrip_yield d : wf_otree rules d = true -> cyield (cnf_of d) = oyield d.
  Proof.
    intros Hwf. destruct d as [ty v|rid ch]; [reflexivity|].
    pose proof (cnf_yield (ONode rid ch) Hwf) as H. unfold Cnf.cnf_of.
    destruct (cnf_parts (ONode rid ch)) as [[rhs kids] sk]. exact H.
  Qed.

  Variable mp : bool.
  Hypothesis Htable : Forall (fun r => rule_wf r mp = true /\ inline_ok r = true) rules.

  Lemma eval_chain_shape d : wf_dtree mp d = true -> eval_chain mp d = shape mp d.
  Proof.
    induction d as [ty v|r ch IH] using dtree_ind'; intros Hwf; [reflexivity|].
    destruct (wf_dtree_node _ _ _ Hwf) as (_ & _ & _ & Hall).
    cbn [Cnf.eval_chain]. unfold shape. cbn [eval]. change (eval stree NoneV skids no_user Tr Tok mp) with (shape mp).
    rewrite (map_ext_Forall _ _ (Forall_mp _ _ _ IH Hall)).
    destruct (all_some (map (shape mp) ch)) as [vs|] eqn:Ev; [|reflexivity].
    unfold tree_callback. rewrite (node_callback _ _ _ _ _ _ r ch (shape mp) vs false Hwf Ev). reflexivity.
  Qed.

  Lemma wf_otree_dtree d : wf_otree rules d = true -> wf_dtree mp (o_dtree rules d) = true.
  Proof.
    induction d as [ty v|rid ch IH] using otree_ind'; intros Hwf; [reflexivity|].
    destruct (wf_otree_node _ _ Hwf) as (Hlt & Har & Hall).
    cbn [o_dtree wf_dtree].
    rewrite Forall_forall in Htable. destruct (Htable (rule_n rid)) as [H1 H2]; [apply nth_In; exact Hlt|].
    rewrite H1, H2. cbn [andb].
    apply andb_true_iff. split.
    - clear -Har. revert Har. generalize (r_exp (rule_n rid)) as exp.
      induction ch as [|c ch IHc]; intros [|s exp] Har; simpl in *; try discriminate; auto.
      apply andb_true_iff in Har. destruct Har as [Hc Har]. rewrite (IHc _ Har), andb_true_r.
      destruct c; exact Hc.
    - apply forallb_forall. intros x Hx. apply in_map_iff in Hx. destruct Hx as (c & <- & Hc).
      rewrite Forall_forall in IH, Hall. auto.
  Qed.

  Theorem cyk_is_shape d : wf_otree rules d = true ->
    cyk_result rules mp (cnf_of d) = shape mp (o_dtree rules d).
  Proof.
    intros Hwf. unfold cyk_result. rewrite (cnf_roundtrip_complete d Hwf).
    apply eval_chain_shape. apply wf_otree_dtree. exact Hwf.
  Qed.
End WithRules.
