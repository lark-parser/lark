(* The backtracking matcher of Re/Lang.v decides the declarative language:
   bt_sound / bt_complete (continuation-passing form), and the corollaries for match / fullmatch. *)
From Coq Require Import List Bool Arith Lia.
From LV Require Import Re.Syntax Re.Lang.
Import ListNotations.

Lemma firstn_app_length {X} (u v : list X) : firstn (length u) (u ++ v) = u.
Proof. rewrite firstn_app, Nat.sub_diag, firstn_all. cbn. apply app_nil_r. Qed.

(* [lang (Cat a b)] and [rpow L (S k)] unfold to this *)
Definition cat (L1 L2 : list nat -> Prop) (w : list nat) : Prop :=
  exists u v, w = u ++ v /\ L1 u /\ L2 v.

Lemma cat_iff (L1 L1' L2 L2' : list nat -> Prop) :
  (forall w, L1 w <-> L1' w) -> (forall w, L2 w <-> L2' w) -> forall w, cat L1 L2 w <-> cat L1' L2' w.
Proof.
  intros H1 H2 w. split; intros (u & v & -> & Hu & Hv); exists u, v;
    (split; [reflexivity|]); split; (apply H1 || apply H2); assumption.
Qed.

Lemma rpow_app L i j u v : rpow L i u -> rpow L j v -> rpow L (i + j) (u ++ v).
Proof.
  revert u. induction i as [|i IH]; intros u Hu Hv; cbn in *.
  - subst u. exact Hv.
  - destruct Hu as (a & b & -> & Ha & Hb). exists a, (b ++ v). rewrite app_assoc. auto.
Qed.

Lemma rpow_split L i j w : rpow L (i + j) w -> exists u v, w = u ++ v /\ rpow L i u /\ rpow L j v.
Proof.
  revert w. induction i as [|i IH]; intros w H; cbn in *.
  - exists [], w. auto.
  - destruct H as (a & b & -> & Ha & Hb). destruct (IH _ Hb) as (u & v & -> & Hu & Hv).
    exists (a ++ u), v. rewrite app_assoc. split; auto. split; auto. exists a, u. auto.
Qed.

Lemma rpow_1 (L : list nat -> Prop) w : L w <-> rpow L 1 w.
Proof.
  cbn. split.
  - intros H. exists w, []. rewrite app_nil_r. auto.
  - intros (u & v & -> & Hu & ->). rewrite app_nil_r. auto.
Qed.

Lemma rpow_ext (L L' : list nat -> Prop) : (forall w, L w <-> L' w) -> forall k w, rpow L k w <-> rpow L' k w.
Proof.
  intros H k. induction k as [|k IH]; intros w; cbn; [tauto|]. exact (cat_iff _ _ _ _ H IH w).
Qed.

Definition nonempty (L : list nat -> Prop) (w : list nat) : Prop := L w /\ w <> [].

Lemma rpow_nonempty_weaken L k w : rpow (nonempty L) k w -> rpow L k w.
Proof.
  revert w. induction k as [|k IH]; intros w; cbn; auto.
  intros (u & v & -> & (Hu & _) & Hv). exists u, v. auto.
Qed.

Lemma rpow_nonempty_length L k w : rpow (nonempty L) k w -> k <= length w.
Proof.
  revert w. induction k as [|k IH]; intros w; cbn; [lia|].
  intros (u & v & -> & (_ & Hu) & Hv). apply IH in Hv. rewrite app_length.
  destruct u; [congruence|cbn; lia].
Qed.

Lemma rpow_drop_empty L k w : rpow L k w -> exists j, j <= k /\ rpow (nonempty L) j w.
Proof.
  revert w. induction k as [|k IH]; intros w; cbn.
  - intros ->. exists 0. split; [lia|reflexivity].
  - intros (u & v & -> & Hu & Hv). destruct (IH _ Hv) as (j & Hj & Hp).
    destruct u as [|c u].
    + exists j. split; [lia|exact Hp].
    + exists (S j). split; [lia|]. exists (c :: u), v. split; [reflexivity|]. split; [|exact Hp].
      split; [exact Hu|discriminate].
Qed.

Section LoopSpec.
  Context {A : Type}.
  Variable step : list nat -> (list nat -> option A) -> option A.
  Variable L : list nat -> Prop.
  Hypothesis step_sound : forall s k x, step s k = Some x -> exists u v, s = u ++ v /\ L u /\ k v = Some x.
  Hypothesis step_complete : forall s k, step s k = None -> forall u v, s = u ++ v -> L u -> k v = None.

  Lemma mand_sound n : forall s k x, mand step n s k = Some x ->
    exists u v, s = u ++ v /\ rpow L n u /\ k v = Some x.
  Proof.
    induction n as [|n IH]; intros s k x H; cbn in H.
    - exists [], s. cbn. auto.
    - apply step_sound in H. destruct H as (u & v & -> & Hu & H).
      apply IH in H. destruct H as (u' & v' & -> & Hu' & H).
      exists (u ++ u'), v'. rewrite app_assoc. split; auto. split; auto. exists u, u'. auto.
  Qed.

  Lemma mand_complete n : forall s k, mand step n s k = None ->
    forall u v, s = u ++ v -> rpow L n u -> k v = None.
  Proof.
    induction n as [|n IH]; intros s k H u v -> Hu; cbn in *.
    - subst u. exact H.
    - destruct Hu as (a & b & -> & Ha & Hb).
      pose proof (step_complete _ _ H a (b ++ v)) as H1. rewrite <- app_assoc in H1.
      specialize (H1 eq_refl Ha). eapply IH; eauto.
  Qed.

  Lemma oloop_sound n : forall s k x, oloop step n s k = Some x ->
    exists j u v, j <= n /\ s = u ++ v /\ rpow L j u /\ k v = Some x.
  Proof.
    induction n as [|n IH]; intros s k x H; cbn [oloop] in H.
    - exists 0, [], s. cbn. auto.
    - unfold orelse in H.
      destruct (step s (fun s' => if length s' <? length s then oloop step n s' k else None)) as [y|] eqn:E.
      + cbn in H. injection H as ->. apply step_sound in E. destruct E as (u & v & -> & Hu & E).
        destruct (length v <? length (u ++ v)); [|discriminate].
        apply IH in E. destruct E as (j & u' & v' & Hj & -> & Hu' & E).
        exists (S j), (u ++ u'), v'. rewrite app_assoc. split; [lia|]. split; auto. split; auto.
        exists u, u'. auto.
      + cbn in H. exists 0, [], s. cbn. split; [lia|]. auto.
  Qed.

  Lemma oloop_complete n : forall s k, oloop step n s k = None ->
    forall j u v, j <= n -> s = u ++ v -> rpow (nonempty L) j u -> k v = None.
  Proof.
    induction n as [|n IH]; intros s k H j u v Hj Hs Hu; cbn [oloop] in H.
    - assert (j = 0) by lia. subst j. cbn in Hu. subst u. subst s. exact H.
    - unfold orelse in H.
      destruct (step s (fun s' => if length s' <? length s then oloop step n s' k else None)) as [y|] eqn:E;
        [discriminate|].
      destruct j as [|j]; cbn in Hu.
      + subst u. subst s. exact H.
      + destruct Hu as (a & b & -> & (Ha & Hne) & Hb).
        rewrite <- app_assoc in Hs.
        pose proof (step_complete _ _ E a (b ++ v) Hs Ha) as H1. cbn beta in H1.
        assert (Hlt : (length (b ++ v) <? length s) = true).
        { apply Nat.ltb_lt. subst s. rewrite (app_length a). destruct a; [congruence|cbn; lia]. }
        rewrite Hlt in H1.
        eapply IH; [exact H1| |reflexivity|exact Hb]. lia.
  Qed.
End LoopSpec.

Section BT.
  Context {A : Type}.

  Theorem bt_sound r : forall s (k : list nat -> option A) x, bt r s k = Some x ->
    exists u v, s = u ++ v /\ lang r u /\ k v = Some x.
  Proof.
    induction r as [|c|neg rs| |a IHa b IHb|a IHa b IHb|a IHa|a IHa q]; intros s k x H; cbn in H.
    - exists [], s. cbn. auto.
    - destruct s as [|y s]; [discriminate|]. destruct (Nat.eqb_spec y c); [|discriminate]. subst y.
      exists [c], s. cbn. auto.
    - destruct s as [|y s]; [discriminate|]. destruct (cls_mem neg rs y) eqn:E; [|discriminate].
      exists [y], s. cbn. split; auto. split; auto. exists y. auto.
    - destruct s as [|y s]; [discriminate|]. destruct (Nat.eqb_spec y NEWLINE); [discriminate|].
      exists [y], s. cbn. split; auto. split; auto. exists y. auto.
    - apply IHa in H. destruct H as (u & v & -> & Hu & H). apply IHb in H.
      destruct H as (u' & v' & -> & Hu' & H). exists (u ++ u'), v'. rewrite app_assoc.
      split; auto. split; auto. cbn. exists u, u'. auto.
    - unfold orelse in H. destruct (bt a s k) as [y|] eqn:E.
      + cbn in H. injection H as ->. apply IHa in E. destruct E as (u & v & -> & Hu & E). exists u, v. cbn. auto.
      + cbn in H. apply IHb in H. destruct H as (u & v & -> & Hu & E'). exists u, v. cbn. auto.
    - apply IHa in H. exact H.
    - apply (mand_sound (bt a) (lang a) IHa) in H. destruct H as (u & v & -> & Hu & H).
      apply (oloop_sound (bt a) (lang a) IHa) in H. destruct H as (j & u' & v' & Hj & -> & Hu' & H).
      exists (u ++ u'), v'. rewrite app_assoc. split; auto. split; auto.
      cbn. exists (qmin q + j). split; [|apply rpow_app; assumption].
      unfold quant_ok. split; [lia|]. destruct (qextra q); [lia|exact I].
  Qed.

  Theorem bt_complete r : forall s (k : list nat -> option A), bt r s k = None ->
    forall u v, s = u ++ v -> lang r u -> k v = None.
  Proof.
    induction r as [|c|neg rs| |a IHa b IHb|a IHa b IHb|a IHa|a IHa q]; intros s k H u v -> Hu; cbn in H, Hu.
    - subst u. exact H.
    - subst u. cbn in H. rewrite Nat.eqb_refl in H. exact H.
    - destruct Hu as (c & -> & Hc). cbn in H. rewrite Hc in H. exact H.
    - destruct Hu as (c & -> & Hc). cbn in H. destruct (Nat.eqb_spec c NEWLINE); [contradiction|exact H].
    - destruct Hu as (u1 & u2 & -> & H1 & H2).
      pose proof (IHa _ _ H u1 (u2 ++ v)) as H3. rewrite <- app_assoc in H3. specialize (H3 eq_refl H1).
      eapply IHb; eauto.
    - unfold orelse in H. destruct (bt a (u ++ v) k) as [y|] eqn:E; [discriminate|].
      destruct Hu as [Hu|Hu]; [eapply IHa|eapply IHb]; eauto.
    - eapply IHa; eauto.
    - destruct Hu as (n & (Hmin & Hmax) & Hp).
      replace n with (qmin q + (n - qmin q)) in Hp by lia.
      apply rpow_split in Hp. destruct Hp as (u1 & u2 & -> & H1 & H2).
      pose proof (mand_complete (bt a) (lang a) IHa _ _ _ H u1 (u2 ++ v)) as H3.
      rewrite <- app_assoc in H3. specialize (H3 eq_refl H1). cbn beta in H3.
      apply rpow_drop_empty in H2. destruct H2 as (j & Hj & H2).
      eapply (oloop_complete (bt a) (lang a) IHa); [exact H3| |reflexivity|exact H2].
      destruct (qextra q) as [e|].
      + lia.
      + apply rpow_nonempty_length in H2. rewrite app_length. lia.
  Qed.
End BT.

Theorem bt_match_sound r s n : bt_match r s = Some n -> n <= length s /\ lang r (firstn n s).
Proof.
  unfold bt_match. intros H. apply bt_sound in H. destruct H as (u & v & -> & Hu & H).
  injection H as <-. rewrite app_length. replace (length u + length v - length v) with (length u) by lia.
  rewrite firstn_app_length. split; [lia|exact Hu].
Qed.

Theorem bt_match_none r s : bt_match r s = None -> forall n, ~ lang r (firstn n s).
Proof.
  unfold bt_match. intros H n Hn.
  pose proof (bt_complete r _ _ H (firstn n s) (skipn n s) (eq_sym (firstn_skipn n s)) Hn). discriminate.
Qed.

Corollary bt_match_some_iff r s : (exists n, bt_match r s = Some n) <-> (exists n, lang r (firstn n s)).
Proof.
  split.
  - intros (n & H). exists n. apply (bt_match_sound r s n H).
  - intros (n & H). destruct (bt_match r s) as [m|] eqn:E; [exists m; reflexivity|].
    exfalso. exact (bt_match_none r s E n H).
Qed.

Theorem bt_fullmatch_iff r s : bt_fullmatch r s = true <-> lang r s.
Proof.
  unfold bt_fullmatch.
  destruct (bt r s (fun rest => match rest with [] => Some tt | _ :: _ => None end)) as [[]|] eqn:E.
  - split; [intros _|reflexivity]. apply bt_sound in E. destruct E as (u & v & -> & Hu & E).
    destruct v; [|discriminate]. rewrite app_nil_r. exact Hu.
  - split; [discriminate|]. intros H.
    pose proof (bt_complete r _ _ E s [] (eq_sym (app_nil_r s)) H). discriminate.
Qed.

(* when the whole input matches, re.match reports some prefix; WHICH one is Python's priority
   order (mirrored by bt), about which the language says nothing *)
Corollary bt_fullmatch_match r s : bt_fullmatch r s = true -> exists n, bt_match r s = Some n.
Proof.
  intros H. apply bt_fullmatch_iff in H. apply bt_match_some_iff. exists (length s). rewrite firstn_all. exact H.
Qed.

Lemma lang_grp a w : lang (Grp a) w <-> lang a w.
Proof. reflexivity. Qed.

Lemma lang_quant a q w : lang (Quant a q) w <-> exists k, quant_ok q k /\ rpow (lang a) k w.
Proof. reflexivity. Qed.

Lemma lang_seq_re l w : lang (seq_re l) w <->
  (fix go (l : list re) (w : list nat) : Prop :=
     match l with [] => w = [] | a :: l' => exists u v, w = u ++ v /\ lang a u /\ go l' v end) l w.
Proof.
  revert w. induction l as [|a l IH]; intros w; cbn; [tauto|].
  exact (cat_iff _ _ _ _ (fun _ => iff_refl _) IH w).
Qed.

Lemma lang_alt_re l w : l <> [] -> (lang (alt_re l) w <-> exists a, In a l /\ lang a w).
Proof.
  rewrite <- Exists_exists. induction l as [|a l IH]; [congruence|]. intros _.
  rewrite Exists_cons. destruct l as [|b l].
  - rewrite Exists_nil. cbn. tauto.
  - change (alt_re (a :: b :: l)) with (Alt a (alt_re (b :: l))). cbn [lang]. now rewrite IH.
Qed.

Lemma lang_lit_re s w : lang (lit_re s) w <-> w = codes s.
Proof.
  unfold lit_re. revert w. induction (codes s) as [|c l IH]; intros w; cbn; [tauto|].
  split.
  - intros (u & v & -> & -> & Hv). apply IH in Hv. subst v. reflexivity.
  - intros ->. exists [c], l. split; [reflexivity|]. split; [reflexivity|]. apply IH. reflexivity.
Qed.
