(* Never-early half of "the error is reported at the first offending token"
   for the model LALR parser on CONFLICT-FREE tables, and exactness of accepts().
   The driver is known to follow a derivation tree of any sentence (Lalr_complete.sentence_run); a run
   over a sentence u ++ k :: v is cut at the point where k is shifted, and determinism of
   feed_all (fuel monotonicity) identifies the configuration reached there with the one the
   driver is actually in after consuming u. *)
From Coq Require Import List Arith Bool ZArith Lia.
From LV Require Import Cfg.Grammar Earley.Spec Earley.Prefix LR.Driver LR.Driver_proofs LR.Automaton
     LR.Automaton_proofs LR.Automaton_wf LR.Automaton_la LR.Automaton_complete LR.La_complete
     LR.Lalr_complete LR.Viable LR.Viable_proofs LR.Viable_model.
Import ListNotations.

Section Fuel.
  Variable P : ptable.
  Notation feed := (feed nat (fun k => k) P).
  Notation feed_all := (feed_all nat (fun k => k) P).

  Lemma feed_mono f : forall c k e o, feed f c k e = o -> o <> DFuel -> forall f', f <= f' -> feed f' c k e = o.
  Proof.
    induction f; intros c k e o H Hn f' Hf; simpl in H; [congruence|].
    destruct f' as [|f']; [lia|]. simpl.
    destruct (sstack c) as [|q ss]; auto.
    destruct (pt_action P q (T k)) as [[q'|r]|]; auto.
    destruct (skipn (length (rhs r)) (q :: ss)) as [|q2 ss2]; auto.
    destruct (pt_action P q2 (NT (lhs r))) as [[q3|r3]|]; auto.
    destruct (e && Nat.eqb q3 (pt_end P)); auto.
    apply IHf; auto. lia.
  Qed.

  Lemma feed_all_mono f : forall w c c', feed_all f c w = Shifted c' -> forall f', f <= f' -> feed_all f' c w = Shifted c'.
  Proof.
    induction w as [|k w IH]; intros c c' H f' Hf; simpl in *; auto.
    destruct (feed f c k false) as [c1| | | | |] eqn:E; try discriminate.
    rewrite (feed_mono f c k false _ E) by (auto; discriminate). eauto.
  Qed.

  Lemma feed_det f1 f2 c k e o1 o2 :
    feed f1 c k e = o1 -> feed f2 c k e = o2 -> o1 <> DFuel -> o2 <> DFuel -> o1 = o2.
  Proof.
    intros H1 H2 N1 N2.
    rewrite <- (feed_mono f1 c k e o1 H1 N1 (max f1 f2)), <- (feed_mono f2 c k e o2 H2 N2 (max f1 f2)); auto; lia.
  Qed.

  Lemma feed_all_det f1 f2 c w c1 c2 :
    feed_all f1 c w = Shifted c1 -> feed_all f2 c w = Shifted c2 -> c1 = c2.
  Proof.
    intros H1 H2. apply (feed_all_mono f1 w c c1) with (f' := max f1 f2) in H1; [|lia].
    apply (feed_all_mono f2 w c c2) with (f' := max f1 f2) in H2; [|lia]. congruence.
  Qed.

  Lemma feed_false_not_accepted f : forall c k t, feed f c k false <> Accepted t.
  Proof.
    induction f; intros c k t; simpl; [discriminate|].
    destruct (sstack c) as [|q ss]; [discriminate|].
    destruct (pt_action P q (T k)) as [[q'|r]|]; try discriminate.
    - destruct (Nat.eqb q' (pt_end P)); discriminate.
    - destruct (skipn (length (rhs r)) (q :: ss)) as [|q2 ss2]; [discriminate|].
      destruct (pt_action P q2 (NT (lhs r))) as [[q3|r3]|]; try discriminate. simpl. apply IHf.
  Qed.

  Lemma feed_all_not_accepted f : forall w c t, feed_all f c w <> Accepted t.
  Proof.
    induction w as [|k w IH]; intros c t; simpl; [discriminate|].
    destruct (feed f c k false) eqn:E; try discriminate; auto.
    intros H. inversion H; subst. eapply feed_false_not_accepted; eauto.
  Qed.

  Lemma feed_all_app f : forall w1 w2 c,
    feed_all f c (w1 ++ w2) = match feed_all f c w1 with Shifted c1 => feed_all f c1 w2 | o => o end.
  Proof.
    induction w1 as [|k w1 IH]; intros w2 c; simpl; auto.
    destruct (feed f c k false); auto.
  Qed.

  Notation act := (pt_action P).

  Inductive prun : config nat -> list nat -> config nat -> Prop :=
  | prun_nil c : prun c [] c
  | prun_cons c k w c1 q ss q' c' :
      rsteps P k c c1 -> sstack c1 = q :: ss -> act q (T k) = Some (Shift q') ->
      prun (mkConfig (q' :: q :: ss) (Leaf k :: vstack c1)) w c' ->
      prun c (k :: w) c'.

  Lemma run_cut w1 : forall c w2 a c', run P c (w1 ++ w2) a c' -> exists cu, prun c w1 cu /\ run P cu w2 a c'.
  Proof.
    induction w1 as [|k w1 IH]; intros c w2 a c' H; simpl in H.
    - exists c. split; [constructor|exact H].
    - inversion H as [| ? ? ? ? c1 q ss q' ? Hs Hst Ha Hr]; subst.
      destruct (IH _ _ _ _ Hr) as (cu & Hp & Hr'). exists cu. split; auto. econstructor; eauto.
  Qed.

  Lemma run_split w1 : forall c k w2 a c', run P c (w1 ++ k :: w2) a c' ->
    exists cu c1 q ss q', prun c w1 cu /\ rsteps P k cu c1 /\ sstack c1 = q :: ss /\ act q (T k) = Some (Shift q').
  Proof.
    intros c k w2 a c' H. destruct (run_cut w1 _ _ _ _ H) as (cu & Hp & Hr).
    inversion Hr as [| ? ? ? ? c1 q ss q' ? Hs Hst Ha _]; subst. exists cu, c1, q, ss, q'. auto.
  Qed.

  Lemma run_prefix_all w : forall c a c', run P c w a c' -> exists cu, prun c w cu /\ rsteps P a cu c'.
  Proof.
    intros c a c' H. rewrite <- (app_nil_r w) in H. destruct (run_cut w _ _ _ _ H) as (cu & Hp & Hr).
    inversion Hr; subst. eauto.
  Qed.

  Lemma prun_feed_all c w cu : prun c w cu ->
    (forall q k q', act q (T k) = Some (Shift q') -> q' <> pt_end P) ->
    exists f, forall f', f <= f' -> feed_all f' c w = Shifted cu.
  Proof.
    intros H Hne. induction H as [c | c k w c1 q ss q' c' Hs Hst Ha Hr IH].
    - exists 0. reflexivity.
    - destruct (feed_shift P k c c1 Hs q ss q' Hst Ha (Hne _ _ _ Ha)) as (f1 & Hf1).
      destruct IH as (f2 & Hf2). exists (max f1 f2). intros f' Hf. simpl.
      rewrite Hf1 by lia. apply Hf2. lia.
  Qed.
End Fuel.

Section ModelExact.
  Variable rules : list rule.
  Variable prio : list Z.
  Variable tEND fuel : nat.
  Variable A : lr0.
  Variable rel : relations.
  Variable LA : list (nat * nat * nat).
  Variable R : rows.
  Variable r0 rootnt start qe : nat.
  Hypothesis HT : compute_lalr rules prio [r0] tEND fuel = ATable A rel LA R.
  Hypothesis Hv : r0 < length rules.
  Hypothesis Hr0 : rule_at rules r0 = mkRule rootnt [NT start].
  Hypothesis fresh : forall r, In r rules -> ~ In (NT rootnt) (rhs r).
  Hypothesis Hqe : end_state rules [r0] A 0 = Some qe.
  Hypothesis CF : conflict_free A LA.

  Notation P := (model_ptable R 0 qe).
  Notation act := (pt_action P).
  Notation tm := (tmatch nat (fun k : nat => k)).
  Notation feed := (feed nat (fun k => k) P).
  Notation feed_all := (feed_all nat (fun k => k) P).

  Let shift_not_end := shift_not_end rules prio tEND fuel A rel LA R r0 rootnt start qe HT Hv Hr0 fresh Hqe.

  (* never early: a token that can follow the consumed input is shifted *)
  Theorem never_early_rules f u c k v :
    feed_all f (init_config P) u = Shifted c ->
    derives rules nat tm [NT start] (u ++ k :: v) ->
    exists f' c', feed f' c k false = Shifted c'.
  Proof.
    intros Hf Hd.
    destruct (sentence_run rules prio tEND fuel A rel LA R r0 rootnt start qe HT Hv Hr0 fresh Hqe CF _ Hd) as (t & Hrun).
    destruct (run_split P u _ k v tEND _ Hrun) as (cu & c1 & q & ss & q' & Hp & Hs & Hst & Ha).
    destruct (prun_feed_all P _ _ _ Hp shift_not_end) as (f1 & Hf1).
    rewrite (feed_all_det P _ _ _ _ _ _ (Hf1 f1 (le_n _)) Hf) in Hs.
    destruct (feed_shift P k c c1 Hs q ss q' Hst Ha (shift_not_end _ _ _ Ha)) as (f2 & Hf2).
    exists f2. eexists. apply Hf2. lia.
  Qed.

  (* ... and $END is accepted after every sentence *)
  Theorem end_accepted_rules f u c :
    feed_all f (init_config P) u = Shifted c ->
    derives rules nat tm [NT start] u ->
    exists f' t, feed f' c tEND true = Accepted t.
  Proof.
    intros Hf Hd.
    destruct (model_complete rules prio tEND fuel A rel LA R r0 rootnt start qe HT Hv Hr0 fresh Hqe CF u Hd)
      as (f2 & t & Hp).
    unfold parse in Hp. change (ptable_of_rows R 0 qe) with P in Hp.
    destruct (feed_all f2 (init_config P) u) as [c2| | | | |] eqn:E2; try discriminate.
    - rewrite (feed_all_det P _ _ _ _ _ _ E2 Hf) in Hp. eauto.
    - exfalso. eapply feed_all_not_accepted; eauto.
  Qed.
End ModelExact.

Section UserExact.
  Variable G : grammar.
  Variable prio : list Z.
  Variable rootnt start tEND fuel : nat.
  Variable A : lr0.
  Variable rel : relations.
  Variable LA : list (nat * nat * nat).
  Variable R : rows.
  Variable qe : nat.
  Notation rules := (G ++ [mkRule rootnt [NT start]]).
  Notation tm := (tmatch nat (fun k : nat => k)).
  Hypothesis HT : compute_lalr rules prio [length G] tEND fuel = ATable A rel LA R.
  Hypothesis fresh : forall r, In r G -> ~ In (NT rootnt) (rhs r).
  Hypothesis Hne : start <> rootnt.
  Hypothesis Hqe : end_state rules [length G] A 0 = Some qe.

  Notation P := (ptable_of_rows R 0 qe).
  Notation feed := (feed nat (fun k => k) P).
  Notation feed_all := (feed_all nat (fun k => k) P).
  Notation viable := (viable G nat tm start).

  Section CF.
    Hypothesis CF : conflict_free A LA.

    (* never early (1): a token that keeps the prefix viable is shifted *)
    Theorem never_early_shift f u c k :
      feed_all f (init_config P) u = Shifted c -> viable (u ++ [k]) ->
      exists f' c', feed f' c k false = Shifted c'.
    Proof.
      intros Hf (v & Hd). rewrite <- app_assoc in Hd. simpl in Hd.
      apply (never_early_rules rules prio tEND fuel A rel LA R (length G) rootnt start qe HT
               (user_root_lt G rootnt start) (user_root_rule G rootnt start)
               (user_fresh G rootnt start fresh Hne) Hqe CF f u c k v Hf).
      eapply derives_incl; [apply user_incl|exact Hd].
    Qed.

    (* never early (2): an UnexpectedToken on k means that k cannot follow the consumed input *)
    Theorem never_early_unexpected f u c f' k c' :
      feed_all f (init_config P) u = Shifted c -> feed f' c k false = Unexpected c' ->
      ~ viable (u ++ [k]).
    Proof.
      intros Hf Hu Hvi. destruct (never_early_shift f u c k Hf Hvi) as (f2 & c2 & H2).
      discriminate (feed_det P _ _ _ _ _ _ _ Hu H2); discriminate.
    Qed.

    Theorem end_accepted f u c :
      feed_all f (init_config P) u = Shifted c -> derives G nat tm [NT start] u ->
      exists f' t, feed f' c tEND true = Accepted t.
    Proof.
      intros Hf Hd.
      apply (end_accepted_rules rules prio tEND fuel A rel LA R (length G) rootnt start qe HT
               (user_root_lt G rootnt start) (user_root_rule G rootnt start)
               (user_fresh G rootnt start fresh Hne) Hqe CF f u c Hf).
      eapply derives_incl; [apply user_incl|exact Hd].
    Qed.
  End CF.

  Section Prod.
    Hypothesis Hprod : productive_bodies G nat tm.
    Hypothesis Hstart : exists r, In r G /\ lhs r = start.

    (* what has been consumed is always a viable prefix (never late, configuration form) *)
    Lemma consumed_viable f u c : feed_all f (init_config P) u = Shifted c -> viable u.
    Proof.
      intros Hf. apply (viable_user G rootnt start fresh Hne).
      pose proof (WVu G prio rootnt start tEND fuel A rel LA R qe HT fresh Hne Hqe) as WV.
      pose proof (wf_items_table _ _ _ _ (wv_items _ _ _ _ WV)) as WT.
      destruct (feed_all_init nat (fun k => k) rules _ start WT f u c Hf) as (Hc & <-).
      exact (stack_viable nat (fun k => k) rules _ start _ WV (prod' G rootnt start Hprod Hstart) _ _ Hc).
    Qed.

    Section Both.
      Hypothesis CF : conflict_free A LA.

      (* the reported position is EXACTLY the first offending token *)
      Theorem error_position_exact f u c f' k c' :
        feed_all f (init_config P) u = Shifted c -> feed f' c k false = Unexpected c' ->
        viable u /\ ~ viable (u ++ [k]).
      Proof.
        intros Hf Hu. split; [exact (consumed_viable f u c Hf)|exact (never_early_unexpected CF f u c f' k c' Hf Hu)].
      Qed.

      (* accepts() is exact: a terminal passes the trial feed iff it can legally come next *)
      Theorem accepts_exact f u c k :
        feed_all f (init_config P) u = Shifted c ->
        ((exists f' c', feed f' c k false = Shifted c') <-> viable (u ++ [k])).
      Proof.
        intros Hf. split.
        - intros (f' & c' & H').
          apply (model_accepts_sound G prio rootnt start tEND fuel A rel LA R qe HT fresh Hne Hqe Hprod Hstart
                   (max f f') u c k c').
          + apply (feed_all_mono P f u _ _ Hf). lia.
          + apply (feed_mono P f' c k false _ H'); [discriminate|lia].
        - exact (never_early_shift CF f u c k Hf).
      Qed.

      (* ... and $END passes iff the consumed input is a sentence *)
      Theorem accepts_end_exact f u c :
        feed_all f (init_config P) u = Shifted c ->
        ((exists f' t, feed f' c tEND true = Accepted t) <-> derives G nat tm [NT start] u).
      Proof.
        intros Hf. split.
        - intros (f' & t & H').
          apply (model_accepts_end_sound G prio rootnt start tEND fuel A rel LA R qe HT fresh Hne Hqe (max f f') u c t).
          + apply (feed_all_mono P f u _ _ Hf). lia.
          + apply (feed_mono P f' c tEND true _ H'); [discriminate|lia].
        - exact (end_accepted CF f u c Hf).
      Qed.
    End Both.
  End Prod.
End UserExact.
