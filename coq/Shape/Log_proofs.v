(* calls_once_children_first: each traversal's call log contains every tree/token node exactly
   once, and every child's entry precedes its parent's. *)
From Coq Require Import String Ascii List Bool Arith Lia Permutation.
From LV Require Import Base.Prelude Shape.Chain Shape.Spec Shape.Transform Shape.Transform_proofs
  Shape.InPlace_proofs.
Import ListNotations.

Lemma NoDup_app' {A} (a b : list A) : NoDup a -> NoDup b -> (forall x, In x a -> In x b -> False) -> NoDup (a ++ b).
Proof.
  induction 1 as [|x a Hx Ha IH]; intros Hb Hd; simpl; auto.
  constructor.
  - rewrite in_app_iff. intros [H|H]; [auto|]. apply (Hd x); simpl; auto.
  - apply IH; auto. intros y Hy. apply Hd. simpl; auto.
Qed.

Section Vt.
Variable vt : bool.      (* visit_tokens: token nodes have a callback call only when it is on *)
Notation post_paths := (post_paths vt).

Fixpoint node_paths (p : path) (t : stree) : log :=
  match t with
  | Tr _ ch => p :: mapi_cat node_paths p 0 ch
  | Tok _ _ => tok_log vt p
  | NoneV => []
  end.

Definition before (lg : log) (x y : path) : Prop := exists l1 l2, lg = l1 ++ l2 /\ In x l1 /\ In y l2.

Definition once_children_first (t : stree) (lg : log) : Prop :=
  Permutation lg (node_paths [] t) /\
  forall q i, In (q ++ [i]) lg -> In q lg -> before lg (q ++ [i]) q.

Lemma before_app_l a b x y : before a x y -> before (a ++ b) x y.
Proof. intros (l1 & l2 & -> & H1 & H2). exists l1, (l2 ++ b). rewrite app_assoc. repeat split; auto. apply in_or_app; auto. Qed.

Lemma before_app_r a b x y : before b x y -> before (a ++ b) x y.
Proof. intros (l1 & l2 & -> & H1 & H2). exists (a ++ l1), l2. rewrite app_assoc. repeat split; auto. apply in_or_app; auto. Qed.

Lemma snoc_neq (q : path) i : q <> q ++ [i].
Proof. intros H. apply (f_equal (@length nat)) in H. rewrite app_length in H. simpl in H. lia. Qed.

Lemma child_index_inj (p : path) j s j' s' : (p ++ [j]) ++ s = (p ++ [j']) ++ s' -> j = j'.
Proof. rewrite <- !app_assoc. intros H. apply app_inv_head in H. injection H as H _. exact H. Qed.

Lemma in_mapi_cat (f : path -> stree -> log) p q : forall ch i,
  In q (mapi_cat f p i ch) <-> exists j c, nth_error ch j = Some c /\ In q (f (p ++ [i + j]) c).
Proof.
  induction ch as [|x ch IH]; intros i; simpl.
  - split; [tauto|]. intros ([|j] & c & H & _); discriminate.
  - rewrite in_app_iff, IH. split.
    + intros [H|(j & c & Hj & H)].
      * exists 0, x. rewrite Nat.add_0_r. auto.
      * exists (S j), c. replace (i + S j) with (S i + j) by lia. auto.
    + intros ([|j] & c & Hj & H).
      * left. simpl in Hj. injection Hj as ->. rewrite Nat.add_0_r in H. exact H.
      * right. exists j, c. replace (S i + j) with (i + S j) by lia. auto.
Qed.

Lemma before_mapi_cat (f : path -> stree -> log) p x y : forall ch i j c,
  nth_error ch j = Some c -> before (f (p ++ [i + j]) c) x y -> before (mapi_cat f p i ch) x y.
Proof.
  induction ch as [|z ch IH]; intros i [|j] c Hj Hb; simpl in *; try discriminate.
  - injection Hj as ->. rewrite Nat.add_0_r in Hb. apply before_app_l. exact Hb.
  - apply before_app_r. apply (IH (S i) j c Hj). replace (S i + j) with (i + S j) by lia. exact Hb.
Qed.

Lemma mapi_cat_perm (f g : path -> stree -> log) ch :
  Forall (fun c => forall p, Permutation (f p c) (g p c)) ch ->
  forall p i, Permutation (mapi_cat f p i ch) (mapi_cat g p i ch).
Proof. induction 1; intros p i; simpl; auto. apply Permutation_app; auto. Qed.

Lemma node_paths_prefix t : forall p q, In q (node_paths p t) -> exists s, q = p ++ s.
Proof.
  induction t as [ty v| |n ch IH] using stree_ind'; intros p q H; simpl in H.
  - unfold tok_log in H. destruct vt; simpl in H; [|destruct H].
    destruct H as [<-|[]]. exists []. rewrite app_nil_r. reflexivity.
  - destruct H.
  - destruct H as [<-|H]; [exists []; rewrite app_nil_r; reflexivity|].
    apply in_mapi_cat in H. destruct H as (j & c & Hj & H).
    apply nth_error_In in Hj. eapply Forall_forall in IH; [|exact Hj].
    destruct (IH _ _ H) as [s ->]. exists ([0 + j] ++ s). rewrite app_assoc. reflexivity.
Qed.

Theorem node_paths_nodup t : forall p, NoDup (node_paths p t).
Proof.
  induction t as [ty v| |n ch IH] using stree_ind'; intros p; simpl.
  - unfold tok_log. destruct vt; [constructor; [intros []|constructor]|constructor].
  - constructor.
  - constructor.
    + intros H. apply in_mapi_cat in H. destruct H as (j & c & _ & H).
      apply node_paths_prefix in H. destruct H as [s H].
      apply (f_equal (@length nat)) in H. repeat rewrite app_length in H. simpl in H. lia.
    + generalize 0. induction IH as [|c ch Hc _ IHch]; intros i; simpl; [constructor|].
      apply NoDup_app'; auto.
      intros x H1 H2. apply node_paths_prefix in H1. destruct H1 as [s ->].
      apply in_mapi_cat in H2. destruct H2 as (j & c' & _ & H2).
      apply node_paths_prefix in H2. destruct H2 as [s' H2]. apply child_index_inj in H2. lia.
Qed.

Lemma post_paths_perm t : forall p, Permutation (post_paths p t) (node_paths p t).
Proof.
  induction t as [ty v| |n ch IH] using stree_ind'; intros p; simpl; auto.
  eapply Permutation_trans; [|apply Permutation_sym, Permutation_cons_append].
  apply Permutation_app; auto. apply mapi_cat_perm. exact IH.
Qed.

Lemma post_paths_prefix t p q : In q (post_paths p t) -> exists s, q = p ++ s.
Proof. intros H. eapply node_paths_prefix. eapply Permutation_in; [apply post_paths_perm|exact H]. Qed.

Lemma post_paths_before t : forall p q i,
  In (q ++ [i]) (post_paths p t) -> In q (post_paths p t) -> before (post_paths p t) (q ++ [i]) q.
Proof.
  induction t as [ty v| |n ch IH] using stree_ind'; intros p q i Hx Hy; simpl in *.
  - unfold tok_log in *. destruct vt; simpl in *; [|destruct Hx].
    destruct Hx as [Hx|[]], Hy as [Hy|[]]. rewrite <- Hy in Hx. destruct (snoc_neq _ _ Hx).
  - destruct Hx.
  - apply in_app_iff in Hx. apply in_app_iff in Hy.
    assert (Hlong : forall z, In z (mapi_cat post_paths p 0 ch) -> length p < length z).
    { intros z Hz. apply in_mapi_cat in Hz. destruct Hz as (j & c & _ & Hz).
      apply post_paths_prefix in Hz. destruct Hz as [s ->]. repeat rewrite app_length. simpl. lia. }
    destruct Hy as [Hy|[Hy|[]]].
    + (* q is a proper descendant of p *)
      destruct Hx as [Hx|[Hx|[]]].
      * apply before_app_l.
        apply in_mapi_cat in Hx. destruct Hx as (j & c & Hj & Hx).
        apply in_mapi_cat in Hy. destruct Hy as (j' & c' & Hj' & Hy).
        pose proof (post_paths_prefix _ _ _ Hx) as [s Es].
        pose proof (post_paths_prefix _ _ _ Hy) as [s' Es'].
        assert (j = j') by (rewrite Es', <- (app_assoc _ s') in Es; apply child_index_inj in Es; lia).
        subst j'. rewrite Hj in Hj'. injection Hj' as <-.
        eapply before_mapi_cat; [exact Hj|].
        apply nth_error_In in Hj. eapply Forall_forall in IH; [|exact Hj]. apply IH; auto.
      * apply Hlong in Hy. rewrite Hx in Hy. rewrite app_length in Hy. simpl in Hy. lia.
    + subst q. destruct Hx as [Hx|[Hx|[]]].
      * exists (mapi_cat post_paths p 0 ch), [p]. simpl. auto.
      * destruct (snoc_neq _ _ Hx).
Qed.

Theorem post_paths_ocf t : once_children_first t (post_paths [] t).
Proof. split; [apply post_paths_perm|apply post_paths_before]. Qed.

Definition logged (c : stree) : bool :=
  match c with Tr _ _ => true | Tok _ _ => vt | NoneV => false end.

(* what the rewriting of one subtree's children logs: one entry per child that has a callback *)
Definition child_log (q : path) (c : stree) : log := if logged c then [q] else [].

Definition child_paths (x : path * stree) : log :=
  match snd x with Tr _ ch => mapi_cat child_log (fst x) 0 ch | _ => [] end.

Definition desc (x : path * stree) : log := tl (node_paths (fst x) (snd x)).

Lemma in_child_log p q ch i :
  In q (mapi_cat child_log p i ch) <-> exists j c, nth_error ch j = Some c /\ logged c = true /\ q = p ++ [i + j].
Proof.
  rewrite in_mapi_cat. unfold child_log.
  split; intros (j & c & Hj & H); exists j, c; (split; [exact Hj|]); destruct (logged c).
  - destruct H as [<-|[]]. auto.
  - destruct H.
  - destruct H as [_ ->]. left. reflexivity.
  - destruct H. discriminate.
Qed.

Section IPLog.
  Variable T : transformer.

  Lemma ip_children_log h p : forall ch i, snd (ip_children T vt h p i ch) = mapi_cat child_log p i ch.
  Proof.
    induction ch as [|c ch IH]; intros i; simpl; auto.
    specialize (IH (S i)). destruct (ip_children T vt h p (S i) ch) as [vs l2]. simpl in IH. subst l2.
    destruct c; reflexivity.
  Qed.

  Lemma ip_step_log h x : snd (ip_step T vt h x) = child_paths x.
  Proof.
    unfold ip_step, child_paths. destruct (snd x) as [| n ch |]; auto.
    pose proof (ip_children_log h (fst x) ch 0) as E.
    destruct (ip_children T vt h (fst x) 0 ch). exact E.
  Qed.

  Lemma ip_fold_log order : snd (ip_fold T vt order) = flat_map child_paths order.
  Proof.
    unfold ip_fold.
    assert (G : forall order st, snd (fold_left (fun (st : heap * log) x =>
                 let '(h', l') := ip_step T vt (fst st) x in (h', snd st ++ l')) order st)
               = snd st ++ flat_map child_paths order).
    { induction order0 as [|x o IH]; intros st; simpl; [rewrite app_nil_r; auto|].
      rewrite IH. pose proof (ip_step_log (fst st) x) as E.
      destruct (ip_step T vt (fst st) x). simpl in *. subst l. rewrite app_assoc. reflexivity. }
    apply G.
  Qed.

  Lemma desc_split p : forall ch i,
    Permutation (mapi_cat node_paths p i ch)
                (mapi_cat child_log p i ch ++ flat_map desc (filter (fun x => is_tree (snd x)) (with_paths p i ch))).
  Proof.
    induction ch as [|c ch IH]; intros i; simpl; auto.
    destruct c as [ty v|n ch'|]; simpl.
    - rewrite <- app_assoc. apply Permutation_app_head. apply IH.
    - constructor. unfold desc at 1. simpl.
      eapply Permutation_trans; [apply Permutation_app_head, IH|].
      repeat rewrite app_assoc. apply Permutation_app_tail. apply Permutation_app_comm.
    - apply IH.
  Qed.

  Lemma bfs_desc : forall f q l, bfs f q = Some l ->
    Permutation (flat_map child_paths l) (flat_map desc q).
  Proof.
    apply (bfs_ind (fun q l => Permutation (flat_map child_paths l) (flat_map desc q))); [constructor|].
    intros f p t rest l' _ E. simpl. rewrite flat_map_app in E.
      eapply Permutation_trans; [apply Permutation_app_head, E|].
      rewrite app_assoc. eapply Permutation_trans; [apply Permutation_app_comm|].
      rewrite app_assoc. apply Permutation_app_tail.
      eapply Permutation_trans; [apply Permutation_app_comm|].
      eapply Permutation_trans;
        [apply Permutation_app_head; apply Permutation_flat_map; apply Permutation_sym, Permutation_rev|].
      destruct t as [ty v|n ch|]; unfold child_paths, tree_kids; simpl; auto.
      + unfold desc, tok_log. simpl. destruct vt; constructor.
      + unfold desc. simpl. apply Permutation_sym. apply desc_split.
  Qed.

  Lemma in_child_paths x q : In q (child_paths x) ->
    exists n ch i c, snd x = Tr n ch /\ q = fst x ++ [i] /\ nth_error ch i = Some c /\ logged c = true.
  Proof.
    unfold child_paths. destruct (snd x) as [| n ch |]; simpl; try tauto.
    intros H. apply in_child_log in H. destruct H as (j & c & H1 & H2 & H3). exists n, ch, j, c. auto.
  Qed.

  Theorem transform_ip_log n ch lg v :
    transform_ip T vt (Tr n ch) = Some (v, lg) -> once_children_first (Tr n ch) lg.
  Proof.
    set (root := Tr n ch).
    unfold transform_ip, iter_subtrees.
    destruct (bfs (ssize root) [([], root)]) as [l|] eqn:Hl; simpl; [|discriminate].
    pose proof (ip_fold_log (rev l)) as Elog.
    destruct (ip_fold T vt (rev l)) as [h lg0]. simpl in Elog. intros H. injection H as _ <-. subst lg0.
    assert (Hq : Forall (cons_ok root) [([], root)]) by (constructor; [reflexivity|constructor]).
    pose proof (bfs_cons_ok root _ _ _ Hl Hq) as Hc.
    split.
    - eapply Permutation_trans; [apply Permutation_sym, Permutation_cons_append|].
      simpl. constructor.
      eapply Permutation_trans; [apply Permutation_flat_map, Permutation_sym, Permutation_rev|].
      eapply Permutation_trans; [apply (bfs_desc _ _ _ Hl)|].
      simpl. rewrite app_nil_r. apply Permutation_refl.
    - intros q i Hx Hy.
      apply in_app_iff in Hx. destruct Hx as [Hx|[Hx|[]]]; [|destruct q; discriminate].
      apply in_app_iff in Hy. destruct Hy as [Hy|[Hy|[]]].
      + apply in_flat_map in Hx. destruct Hx as (e1 & He1 & Hx). apply in_rev in He1.
        apply in_flat_map in Hy. destruct Hy as (e0 & He0 & Hy). apply in_rev in He0.
        apply in_child_paths in Hx. destruct Hx as (n1 & ch1 & i1 & c1 & Et1 & Ex & Hn1 & Hc1).
        apply in_child_paths in Hy. destruct Hy as (n0 & ch0 & j & c0 & Et0 & Ey & Hn0 & Hc0).
        apply app_inj_tail in Ex. destruct Ex as [Eq ->].
        pose proof (proj1 (Forall_forall _ _) Hc _ He1) as C1.
        pose proof (proj1 (Forall_forall _ _) Hc _ He0) as C0.
        unfold cons_ok in C1, C0. rewrite Et1, <- Eq in C1. rewrite Et0 in C0.
        assert (Ec0 : c0 = Tr n1 ch1).
        { rewrite Ey, subtree_snoc, C0, Hn0 in C1. injection C1 as ->. reflexivity. }
        destruct (bfs_split _ _ _ Hl e0 He0) as (l1 & l2 & El & Hk).
        assert (Hin2 : In (q, Tr n1 ch1) l2).
        { apply Hk. unfold tree_kids. rewrite Et0. apply filter_In. split; auto.
          apply in_with_paths. exists j. subst c0. rewrite Ey. auto. }
        rewrite El. rewrite rev_app_distr. simpl. rewrite <- app_assoc. rewrite flat_map_app. simpl.
        exists (flat_map child_paths (rev l2)),
               ((child_paths e0 ++ flat_map child_paths (rev l1)) ++ [[]]).
        repeat split.
        * repeat rewrite <- app_assoc. reflexivity.
        * apply in_flat_map. exists (q, Tr n1 ch1). split; [apply -> in_rev; exact Hin2|].
          unfold child_paths. simpl. apply in_child_log. exists i1, c1. auto.
        * apply in_or_app. left. apply in_or_app. left.
          unfold child_paths. rewrite Et0. apply in_child_log. exists j, c0. rewrite Ey. auto.
      + subst q. exists (flat_map child_paths (rev l)), [[]]. simpl. auto.
  Qed.
End IPLog.

Theorem variants_equal T n ch :
  let t := Tr n ch in
  exists l1 l2 l3 l4,
    transform_rec T vt t = (tr T vt t, l1) /\ transform_nr T vt t = Some (tr T vt t, l2) /\
    transform_ip T vt t = Some (tr T vt t, l3) /\ transform_ipr T vt t = (tr T vt t, l4).
Proof.
  intros t. destruct (transform_ip_value T vt t) as [l3 H3]; [unfold t; eauto|].
  exists (post_paths [] t), (post_paths [] t), l3, (post_paths [] t).
  repeat split; auto.
  - apply rec_tc_spec.
  - apply transform_nr_spec.
  - apply ipr_tc_spec.
Qed.

Theorem calls_once_children_first T n ch :
  let t := Tr n ch in
  NoDup (node_paths [] t) /\
  once_children_first t (snd (transform_rec T vt t)) /\
  (forall v lg, transform_nr T vt t = Some (v, lg) -> once_children_first t lg) /\
  (forall v lg, transform_ip T vt t = Some (v, lg) -> once_children_first t lg) /\
  once_children_first t (snd (transform_ipr T vt t)).
Proof.
  intros t. split; [apply node_paths_nodup|]. split; [|split; [|split]].
  - unfold transform_rec. rewrite rec_tc_spec. apply post_paths_ocf.
  - intros v lg H. rewrite transform_nr_spec in H. injection H as _ <-. apply post_paths_ocf.
  - intros v lg H. eapply transform_ip_log; eauto.
  - unfold transform_ipr. rewrite ipr_tc_spec. apply post_paths_ocf.
Qed.
End Vt.
