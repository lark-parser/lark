(* C12 - theorems about the write path Cache/WritePath.v: a single writer that dies anywhere leaves, under plain
   open(), a prefix of the complete file (possibly empty) or the old file, and under atomicwrites the old file; in
   both cases the invariant of Cache_proofs.v holds, so every later reader gets a Miss or the uncached parser, and the
   next construction repairs the file.  Histories of such events keep the invariant. *)
From Coq Require Import String List Ascii Bool Arith Lia.
From LV Require Import Cache.Bytes Cache.PyRepr Gen.CacheKey Cache.Cache Cache.PyRepr_proofs Cache.Cache_proofs
  Cache.WritePath.
Import ListNotations.

Lemma pwrite_end c b : pwrite c (length c) b = c ++ b.
Proof.
  destruct b as [|x b]; cbn [pwrite]; [now rewrite app_nil_r|].
  rewrite firstn_all, Nat.sub_diag. cbn [repeat app].
  rewrite skipn_all2 by lia. now rewrite app_nil_r.
Qed.

Lemma upd_same o w n : upd o w n w = n.
Proof. unfold upd. now rewrite Nat.eqb_refl. Qed.

Lemma exec_writes w bs : forall (c : bytes) (o : offsets), o w = length c ->
  exists o', exec (Some c, o) (map (AWrite w) bs) = (Some (c ++ concat bs), o') /\ o' w = length (c ++ concat bs).
Proof.
  induction bs as [|b bs IH]; intros c o Ho; cbn [map concat].
  - exists o. rewrite app_nil_r. auto.
  - unfold exec. cbn [fold_left exec1]. rewrite Ho, pwrite_end.
    destruct (IH (c ++ b) (upd o w (length c + length b))) as (o' & E & L).
    { rewrite upd_same, app_length. reflexivity. }
    exists o'. unfold exec in E. rewrite <- app_assoc in E, L. split; [exact E | exact L].
Qed.

Lemma exec_cons st a tr : exec st (a :: tr) = exec (exec1 st a) tr.
Proof. reflexivity. Qed.

Lemma exec_app st t1 t2 : exec st (t1 ++ t2) = exec (exec st t1) t2.
Proof. unfold exec. apply fold_left_app. Qed.

Lemma reached_spec calls : forall i j,
  reached calls i j = concat (firstn i calls) ++ match nth_error calls i with Some b => firstn j b | None => [] end.
Proof.
  induction calls as [|b r IH]; intros [|i] j; cbn [reached firstn concat nth_error app]; try reflexivity.
  rewrite IH, app_assoc. reflexivity.
Qed.

Lemma exec_trace1 fl o w calls i j : fst (exec (fl, o) (trace1 w calls i j)) = Some (reached calls i j).
Proof.
  unfold trace1. rewrite exec_cons. cbn [exec1]. rewrite exec_app.
  destruct (exec_writes w (firstn i calls) [] (upd o w 0)) as (o' & E & L); [now rewrite upd_same|].
  rewrite reached_spec. unfold bytes, file, offsets in *. rewrite E. cbn [app] in *.
  destruct (nth_error calls i) as [b|]; [|unfold exec; cbn [fold_left fst]; now rewrite app_nil_r].
  unfold exec. cbn [fold_left exec1 fst]. now rewrite L, pwrite_end.
Qed.

Lemma firstn_app_exact {A} (a y : list A) : firstn (length a) (a ++ y) = a.
Proof. rewrite firstn_app, Nat.sub_diag, firstn_all. cbn. apply app_nil_r. Qed.

Lemma reached_prefix calls : forall i j, exists n, reached calls i j = firstn n (concat calls).
Proof.
  induction calls as [|b r IH]; intros i j; cbn [reached concat].
  - exists 0. reflexivity.
  - destruct i as [|i].
    + exists (length (firstn j b)).
      rewrite <- (firstn_skipn j b) at 3. rewrite <- app_assoc. now rewrite firstn_app_exact.
    + destruct (IH i j) as [n E]. exists (length b + n). rewrite E. now rewrite firstn_app_2.
Qed.

Lemma done_plain fl o w calls : fst (exec (fl, o) (AOpen w :: map (AWrite w) calls)) = Some (concat calls).
Proof.
  rewrite exec_cons. cbn [exec1].
  destruct (exec_writes w calls [] (upd o w 0)) as (o' & E & L); [now rewrite upd_same|].
  unfold bytes, file, offsets in *. now rewrite E.
Qed.

Lemma done_file_eq s fl calls : done_file s fl calls = Some (concat calls).
Proof. destruct s; [apply done_plain | reflexivity]. Qed.

Lemma crash_file_cases s fl calls cp :
  crash_file s fl calls cp = fl \/ exists n, crash_file s fl calls cp = Some (firstn n (concat calls)).
Proof.
  destruct cp as [|i j]; [now left|]. destruct s; [|now left]. right.
  unfold crash_file. rewrite exec_trace1. destruct (reached_prefix calls i j) as [n E]. exists n. now rewrite E.
Qed.

Lemma crash_file_atomic fl calls cp : crash_file Atomic fl calls cp = fl.
Proof. now destruct cp. Qed.

Lemma crash_file_plain fl calls i j : crash_file Plain fl calls (CInWrite i j) = Some (reached calls i j).
Proof. unfold crash_file. apply exec_trace1. Qed.

Section Proofs.
  Variable R : Type.
  Variable sha : bytes -> bytes.
  Variables D P : Type.
  Variable encU : ufiles -> bytes.
  Variable decU : bytes -> option (ufiles * bytes).
  Variable encD : D -> bytes.
  Variable decD : bytes -> option (D * bytes).
  Variable build : cfg R -> env -> option (built D P).
  Variable load : D -> cfg R -> option P.
  Variable okenv : env -> Prop.
  Hypothesis IO : ideal_oracles sha D encU decU encD decD.
  Hypothesis RL : rest_of_lark R sha D P build load okenv.

  Notation lookup := (lookup R sha D P decU decD load).
  Notation construct := (construct R sha D P encU decU encD decD build load).
  Notation write := (write sha D encU encD).
  Notation wcalls := (wcalls sha D encU encD).
  Notation key := (key R).
  Notation Inv := (Inv R sha D P encU encD build okenv).
  Notation valid_for := (valid_for R sha D P encU decU encD decD build load okenv).
  Notation uncached := (uncached R D P build).
  Notation step2 := (step2 R sha D P encU decU encD decD build load).
  Notation run2 := (run2 R sha D P encU decU encD decD build load).

  (* the regenerated sequence of write calls puts the file of the model on the path *)
  Lemma concat_wcalls k u d : concat (wcalls k u d) = write k u d.
  Proof.
    unfold WritePath.wcalls, write_calls, Cache.write, mk_file, header.
    cbn [concat B list_ascii_of_string]. rewrite <- ?app_assoc. cbn [app]. now rewrite app_nil_r.
  Qed.

  Lemma lookup_sound fl c e p : okenv e -> Inv fl -> lookup fl c e = Hit p -> uncached c e = Some p /\ valid_for c e fl.
  Proof. destruct IO, RL. eapply lookup_hit_sound; eauto. Qed.

  Lemma written_ok c e b : okenv e -> build c e = Some b ->
    valid_for c e (Some (write (key c) (bused D P b) (bdata D P b))).
  Proof. destruct IO, RL. eapply written_valid; eauto. Qed.

  Lemma crash_file_Inv s fl c e b cp :
    okenv e -> Inv fl -> build c e = Some b ->
    Inv (crash_file s fl (wcalls (key c) (bused D P b) (bdata D P b)) cp).
  Proof.
    intros Oe I Hb. destruct (crash_file_cases s fl (wcalls (key c) (bused D P b) (bdata D P b)) cp) as [-> | [n ->]].
    - exact I.
    - right. rewrite concat_wcalls. eexists _, n. split; [|reflexivity]. exists c, e, b. auto.
  Qed.

  (* A writer that dies at any point of the write block - before the open, between two write calls, inside one - under
     either kind of FS.open: the path keeps its invariant; every later reader gets a Miss or exactly the uncached
     parser; the next construction returns the uncached parser and leaves a valid cache. *)
  Theorem crash_anywhere_miss_or_correct s fl c e b cp :
    okenv e -> Inv fl -> build c e = Some b ->
    let fl' := crash_file s fl (wcalls (key c) (bused D P b) (bdata D P b)) cp in
    Inv fl' /\
    forall c' e', okenv e' ->
      match lookup fl' c' e' with Hit p => uncached c' e' = Some p | Miss => True end /\
      fst (construct fl' c' e') = uncached c' e' /\
      (uncached c' e' <> None -> valid_for c' e' (snd (construct fl' c' e'))).
  Proof.
    intros Oe I Hb fl'. assert (I' : Inv fl') by (eapply crash_file_Inv; eauto). split; [exact I'|].
    intros c' e' Oe'. split.
    - destruct (lookup fl' c' e') as [p|] eqn:El; [|exact Logic.I]. now apply (lookup_sound fl' c' e' p Oe' I').
    - destruct (construct_spec_b R sha D P encU decU encD decD build load okenv IO RL fl' c' e' Oe' I') as (A & _ & C).
      auto.
  Qed.

  (* under plain open() a writer that died leaves the old file or a prefix of the complete file (that a strict prefix is a
     Miss for every reader is trunc_safe; that atomicwrites leaves the old file is crash_file_atomic) *)
  Theorem crash_plain_prefix fl k u d cp :
    crash_file Plain fl (wcalls k u d) cp = fl \/
    exists n, crash_file Plain fl (wcalls k u d) cp = Some (firstn n (write k u d)).
  Proof. rewrite <- concat_wcalls. apply crash_file_cases. Qed.

  Definition event2_ok (ev : event2 R) (o : option (option P)) (fl' : file) : Prop :=
    Inv fl' /\
    match e2crash R ev with
    | None => o = Some (uncached (e2cfg R ev) (e2env R ev)) /\
              (uncached (e2cfg R ev) (e2env R ev) <> None -> valid_for (e2cfg R ev) (e2env R ev) fl')
    | Some _ => o = None \/ o = Some (uncached (e2cfg R ev) (e2env R ev))
    end.

  Lemma step2_spec fl ev :
    okenv (e2env R ev) -> Inv fl -> event2_ok ev (fst (step2 fl ev)) (snd (step2 fl ev)).
  Proof.
    intros Oe I. unfold WritePath.step2, event2_ok.
    destruct (lookup fl (e2cfg R ev) (e2env R ev)) as [p|] eqn:El.
    - destruct (lookup_sound _ _ _ _ Oe I El) as [U V]. cbn [fst snd]. split; [exact I|].
      destruct (e2crash R ev); [right; now rewrite U|]. split; [now rewrite U|]. intros _. exact V.
    - unfold Cache_proofs.uncached. destruct (build _ _) as [b|] eqn:Hb; cbn [option_map].
      + destruct (e2crash R ev) as [cp|]; cbn [fst snd].
        * split; [eapply crash_file_Inv; eauto | now left].
        * rewrite done_file_eq, concat_wcalls. pose proof (written_ok _ _ _ Oe Hb) as V.
          split; [|split; [reflexivity | intros _; exact V]].
          destruct IO, RL. eapply valid_Inv; eauto.
      + cbn [fst snd]. split; [exact I|]. destruct (e2crash R ev); [now right|]. split; [reflexivity | congruence].
  Qed.

  Theorem history2_inv h : Forall (fun ev => okenv (e2env R ev)) h -> forall fl, Inv fl ->
    Inv (snd (run2 fl h)) /\
    forall h1 ev h2, h = h1 ++ ev :: h2 ->
      let fl1 := snd (run2 fl h1) in
      Inv fl1 /\ event2_ok ev (fst (step2 fl1 ev)) (snd (step2 fl1 ev)).
  Proof.
    apply (run_history step2 run2 _ Inv (fun fl ev => event2_ok ev (fst (step2 fl ev)) (snd (step2 fl ev))));
      [reflexivity | reflexivity |].
    intros fl ev Oe I. pose proof (step2_spec fl ev Oe I) as S. exact (conj (proj1 S) S).
  Qed.
End Proofs.
