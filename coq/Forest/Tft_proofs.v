(* TreeForestTransformer on acyclic forests: expanding the `_ambig` nodes of the
   resolve_ambiguity=False result yields exactly the (unshaped) derivations; the
   resolve_ambiguity=True result is one of them; is_ambiguous. *)
From Coq Require Import ZArith List Bool String Lia Permutation.
From LV Require Import Forest.Sppf Forest.Sppf_proofs Gen.ForestSortKey Forest.Prio Forest.Prio_proofs Forest.Tft
  Forest.Tft_perm_proofs.
Import ListNotations.

(* C20: the trees obtained by expanding the `_ambig` nodes of
   TreeForestTransformer(resolve_ambiguity=False).transform(root) are exactly the unshaped
   derivation trees of the forest *)
Theorem tft_unshaped_exact s t :
  wfb s = true -> tft s = Some t ->
  forall u, In u (expand t) <-> In u (map unshape (root_derivs s)).
Proof.
  intros Hwf Ht u. pose proof (tft_unshaped_perm s t Hwf Ht) as P.
  split; apply Permutation_in; [exact P|apply Permutation_sym; exact P].
Qed.

Lemma talts_root l fams : l_inter l = false -> exists w, talts (Sym l fams) = [w].
Proof. intros H. rewrite talts_sym, H. eauto. Qed.

(* TreeForestTransformer(resolve_ambiguity=True) *)
Theorem tft_resolve_in s :
  wfb s = true -> In (tft_resolve s) (map (map unshape) (derivs s)).
Proof. intros H. unfold tft_resolve. apply in_map. apply resolve_in_derivs. exact H. Qed.

Lemma length_flat_map_ge {A B} (f : A -> list B) l :
  (forall a, In a l -> (1 <= List.length (f a))%nat) -> (List.length l <= List.length (flat_map f l))%nat.
Proof.
  induction l as [|a r IH]; intros H; [cbn; lia|]. cbn [flat_map List.length]. rewrite app_length.
  specialize (H a (or_introl eq_refl)) as Ha.
  assert (List.length r <= List.length (flat_map f r))%nat by (apply IH; intros b Hb; apply H; right; exact Hb). lia.
Qed.

(* every family of a well-formed node contributes at least one derivation: a node with a
   single derivation has a single packed child *)
Theorem is_ambiguous_single s :
  wfb s = true -> (List.length (derivs s) <= 1)%nat -> is_ambiguous s = false.
Proof.
  destruct s as [l fams|a b c]; [|reflexivity]. intros Hwf Hlen. apply wfb_sym in Hwf. destruct Hwf as [_ Hwf].
  rewrite Forall_forall in Hwf. rewrite derivs_sym in Hlen. cbn [is_ambiguous].
  assert (List.length fams <= List.length (flat_map (fun p => map (wrap (l_inter l) p) (derivs_p p)) fams))%nat.
  { apply length_flat_map_ge. intros p Hp. rewrite map_length.
    pose proof (derivs_p_nonempty p (Hwf p Hp)). destruct (derivs_p p); [congruence|cbn; lia]. }
  apply Nat.ltb_ge. lia.
Qed.

(* Reading "a single derivation" as a SET needs the packed-dedup hypothesis: distinct
   packed children of the node stand for distinct derivations (PackedNode equality is
   (left, right) and the grammar loader rejects duplicate rules, so two packed nodes of one
   symbol node never denote the same tree). *)
Definition packed_dedup (s : sym) : Prop := NoDup (derivs s).

Theorem is_ambiguous_iff s :
  wfb s = true -> packed_dedup s ->
  (forall d1 d2, In d1 (derivs s) -> In d2 (derivs s) -> d1 = d2) -> is_ambiguous s = false.
Proof.
  intros Hwf Hnd Hone. apply is_ambiguous_single; [exact Hwf|].
  unfold packed_dedup in Hnd. destruct (derivs s) as [|d1 [|d2 r]]; cbn; try lia.
  exfalso. inversion Hnd as [|? ? Hnin _]; subst. apply Hnin.
  rewrite (Hone d1 d2 (or_introl eq_refl) (or_intror (or_introl eq_refl))). left. reflexivity.
Qed.

(* is_ambiguous looks at the TOP node only: it counts its families *)
Theorem is_ambiguous_spec l fams : is_ambiguous (Sym l fams) = true <-> (2 <= List.length fams)%nat.
Proof. cbn [is_ambiguous]. rewrite Nat.ltb_lt. lia. Qed.
