(* Comparison functions used by the generated correspondence cases for C12 (no proofs).
   The model Cache/Cache.v is instantiated with: sha := the executable SHA-256 of Cache/Sha256.v; the pickle
   codec := a dictionary of the real pickle byte strings located in the implementation's files (a value is
   decoded iff one of the known encodings is a prefix of the input); parser data = its pickle bytes;
   load = identity; build = the (used files, data) pair the implementation wrote for that event. *)
From Coq Require Import List Ascii String Bool Arith ZArith Uint63.
From LV Require Import Cache.Bytes Cache.PyRepr Gen.CacheKey Cache.Cache Cache.Sha256.
Import ListNotations.

Definition ccfg := cfg unit.
Definition mk (g : string) (opts : list (string * string)) (ver pyv : string) : ccfg :=
  mkCfg unit (B g) (map (fun kv => (fst kv, B (snd kv))) opts) tt (B ver) (B pyv).

(* binary data is handed over as (length, big-endian 7-byte groups in primitive integers): number literals are
   parsed natively, string literals of that size are not *)
Definition blob := (nat * list int)%type.

Fixpoint bytes_of_int (x : int) (k : nat) : bytes :=
  match k with
  | O => []
  | S k' => ascii_of_nat (Z.to_nat (to_Z ((x >> (8 * of_Z (Z.of_nat k'))) land 255)%uint63)) :: bytes_of_int x k'
  end.

Fixpoint unpack (len : nat) (l : list int) : bytes :=
  match l with
  | [] => []
  | x :: r => let k := Nat.min len 7 in bytes_of_int x k ++ unpack (len - k) r
  end.

Definition XB (b : blob) : bytes := unpack (fst b) (snd b).

Fixpoint ufiles_eqb (a b : ufiles) : bool :=
  match a, b with
  | [], [] => true
  | (p, h) :: a', (q, k) :: b' => beqb p q && beqb h k && ufiles_eqb a' b'
  | _, _ => false
  end.

(* dictionary codecs *)
Definition tblU := list (bytes * ufiles).
Definition tblD := list bytes.

Fixpoint dec_U (t : tblU) (f : bytes) : option (ufiles * bytes) :=
  match t with
  | [] => None
  | (e, u) :: r => if is_prefix e f then Some (u, skipn (List.length e) f) else dec_U r f
  end.

Fixpoint enc_U (t : tblU) (u : ufiles) : bytes :=
  match t with
  | [] => []
  | (e, u') :: r => if ufiles_eqb u u' then e else enc_U r u
  end.

Fixpoint dec_D (t : tblD) (f : bytes) : option (bytes * bytes) :=
  match t with
  | [] => None
  | e :: r => if is_prefix e f then Some (e, skipn (List.length e) f) else dec_D r f
  end.

Definition env_of (l : list (bytes * bytes)) : env :=
  fun p => match find (fun kv => beqb (fst kv) p) l with Some kv => Some (snd kv) | None => None end.

Definition sU (l : list (string * string)) : ufiles := map (fun ph => (B (fst ph), B (snd ph))) l.
Definition sE (l : list (string * string)) : list (bytes * bytes) := map (fun ph => (B (fst ph), B (snd ph))) l.
(* used-files table: (the pickle, [(path, hex digest)]) *)
Definition sTU (l : list (blob * list (string * string))) : tblU := map (fun eu => (XB (fst eu), sU (snd eu))) l.

Definition c_read (tu : tblU) (td : tblD) (f : bytes) (c : ccfg) (e : env) : bool :=
  match read unit sha256_hex bytes bytes (dec_U tu) (dec_D td) (fun d _ => Some d) f c e with
  | Hit _ => true
  | Miss => false
  end.

(* ---- 1. the file written: header line = sha256 hex of the framed key, space, sha256 hex of the body,
          newline, then the two pickles *)
(* the file is handed over as its first line (text), and the two pickles found after the newline *)
Definition check_write (x : ccfg * string * blob * blob) : bool :=
  let '(c, hdr, pu, pd) := x in
  beqb (B hdr ++ nl :: XB pu ++ XB pd) (mk_file sha256_hex (key unit c) (XB pu ++ XB pd)).

(* hex digest of the framed key alone (compared with the first 64 bytes of the header) *)
Definition key_digest (c : ccfg) : string := string_of_list_ascii (sha256_hex (key unit c)).

(* a file of the history: raw bytes, or header line + newline + the pickles number iu / id of the tables, cut *)
Inductive fileref := FRaw (b : blob) | FParts (hdr : string) (iu id : nat) (cut : option nat).

Definition file_of (tu : tblU) (td : tblD) (r : fileref) : bytes :=
  match r with
  | FRaw b => XB b
  | FParts h iu id cut =>
      let f := B h ++ nl :: fst (nth iu tu ([], [])) ++ nth id td [] in
      match cut with None => f | Some n => firstn n f end
  end.

(* ---- 2. reads of damaged / foreign files: (cfg, used-files table, data table, env, file, edits, observed) *)
(* Rehash n: the body cut to n bytes under a header recomputed for it (a consistent header over a truncated
   pickle: exercises the decode failures that `except Exception` turns into a rebuild) *)
Inductive edit := Trunc (n : nat) | Flip (i : nat) (b : ascii) | Whole | Rehash (n : nat).

Definition apply_edit (c : ccfg) (f : bytes) (e : edit) : bytes :=
  match e with
  | Trunc n => firstn n f
  | Flip i b => set_byte i b f
  | Whole => f
  | Rehash n => mk_file sha256_hex (key unit c) (firstn n (snd (split_line f)))
  end.

Definition check_reads
  (x : ccfg * list (blob * list (string * string)) * list blob * list (string * string) * fileref
       * list (edit * bool)) : bool :=
  let '(c, tu, td, e, fl, obs) := x in
  let tu' := sTU tu in let td' := map XB td in let e' := env_of (sE e) in let f := file_of tu' td' fl in
  forallb (fun eo => Bool.eqb (c_read tu' td' (apply_edit c f (fst eo)) c e') (snd eo)) obs.

(* ---- 3. histories on one path ------------------------------------------------------------------- *)
(* one event: configuration, env, crash offset, what the implementation built when it missed
   (index of the used-files pickle in the table, index of the data pickle), observed hit?, observed file after *)
Record hev := mkHev {
  h_cfg : ccfg; h_env : list (string * string); h_crash : option nat;
  h_built : option (nat * nat); h_hit : bool; h_after : option fileref }.

Definition file_eqb (a b : option bytes) : bool :=
  match a, b with
  | None, None => true
  | Some x, Some y => beqb x y
  | _, _ => false
  end.

Fixpoint check_events (tu : tblU) (td : tblD) (fl : file) (l : list hev) : bool :=
  match l with
  | [] => true
  | ev :: r =>
      let bld := match h_built ev with
                 | None => None
                 | Some (iu, id) => Some (mkBuilt bytes (bool * bytes) (snd (nth iu tu ([], []))) (nth id td [])
                                                  (false, nth id td []))
                 end in
      let e := env_of (sE (h_env ev)) in
      (* parser = (served from the cache?, data) so that the outcome of [step] tells a hit from a rebuild *)
      let '(o, fl') := step unit sha256_hex bytes (bool * bytes) (enc_U tu) (dec_U tu) (fun d => d) (dec_D td)
                            (fun _ _ => bld) (fun d _ => Some (true, d)) fl
                            (mkEv unit (h_cfg ev) e (h_crash ev)) in
      let hit := match o with Some (Some (true, _)) => true | _ => false end in
      Bool.eqb hit (h_hit ev) && file_eqb fl' (option_map (file_of tu td) (h_after ev)) && check_events tu td fl' r
  end.

Definition check_hist
  (x : list (blob * list (string * string)) * list blob * option fileref * list hev) : bool :=
  let '(tu, td, f0, evs) := x in
  let tu' := sTU tu in let td' := map XB td in
  check_events tu' td' (option_map (file_of tu' td') f0) evs.

(* sanity of the executable digest (FIPS 180-4 test vectors) *)
Example sha256_abc :
  string_of_list_ascii (sha256_hex (B "abc")) =
  "ba7816bf8f01cfea414140de5dae2223b00361a396177a9cb410ff61f20015ad"%string.
Proof. vm_compute. reflexivity. Qed.

Example sha256_two_blocks :
  string_of_list_ascii (sha256_hex (B "abcdbcdecdefdefgefghfghighijhijkijkljklmklmnlmnomnopnopq")) =
  "248d6a61d20638b8e5c026930c3e6039a33ce45964ff2167f6ecedd419db06c1"%string.
Proof. vm_compute. reflexivity. Qed.

(* ---- 4. histories with crash points of the write block, under plain open() and under atomicwrites --- *)
From LV Require Import Cache.WritePath.

Record hev2 := mkHev2 {
  h2_cfg : ccfg; h2_env : list (string * string); h2_sem : fsem; h2_cp : option cpoint;
  h2_built : option (nat * nat); h2_hit : bool; h2_after : option fileref }.

Fixpoint check_events2 (tu : tblU) (td : tblD) (fl : file) (l : list hev2) : bool :=
  match l with
  | [] => true
  | ev :: r =>
      let bld := match h2_built ev with
                 | None => None
                 | Some (iu, id) => Some (mkBuilt bytes (bool * bytes) (snd (nth iu tu ([], []))) (nth id td [])
                                                  (false, nth id td []))
                 end in
      let e := env_of (sE (h2_env ev)) in
      let '(o, fl') := step2 unit sha256_hex bytes (bool * bytes) (enc_U tu) (dec_U tu) (fun d => d) (dec_D td)
                             (fun _ _ => bld) (fun d _ => Some (true, d)) fl
                             (mkEv2 unit (h2_cfg ev) e (h2_sem ev) (h2_cp ev)) in
      let hit := match o with Some (Some (true, _)) => true | _ => false end in
      Bool.eqb hit (h2_hit ev) && file_eqb fl' (option_map (file_of tu td) (h2_after ev)) && check_events2 tu td fl' r
  end.

Definition check_hist2
  (x : list (blob * list (string * string)) * list blob * option fileref * list hev2) : bool :=
  let '(tu, td, f0, evs) := x in
  let tu' := sTU tu in let td' := map XB td in
  check_events2 tu' td' (option_map (file_of tu' td') f0) evs.

(* ---- 5. repr() of str, byte for byte: (UTF-8 of the string, UTF-8 of Python's repr of it) ------------ *)
Definition check_repr (x : string * string) : bool := beqb (srepr (B (fst x))) (B (snd x)).

(* the real cache key: configuration and the hex digest found at the start of the header the implementation wrote *)
Definition check_keyd (x : ccfg * string) : bool := String.eqb (key_digest (fst x)) (snd x).
