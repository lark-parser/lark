(* C04 - ambiguity='explicit' enumerates exactly all derivations.
   Property theorems only; proofs are in Forest/ExplicitToTree_proofs.v (layer B: forest -> trees) and
   Forest/ExplicitBuild_proofs.v (layer A: parser -> forest).  The models are hand-written
   (Forest/ExplicitToTree.v, Forest/ExplicitBuild.v) and tied to lark on every run by harness/props/C04.py. *)
From Coq Require Import String Ascii Bool Arith List.
From LV Require Import Base.Prelude Cfg.Grammar Earley.Spec Forest.ExplicitToTree Forest.ExplicitCheck Forest.ExplicitToTree_proofs
  Forest.ExplicitBuild Forest.ExplicitBuild_proofs Forest.ExplicitBuildCheck
  Earley.Alg Earley.Alg_proofs Forest.ExplicitAlgBuild Forest.ExplicitAlgBuild_proofs
  Earley.Dyn Earley.Dyn_proofs Forest.ExplicitDynBuild Forest.ExplicitDynSound Forest.ExplicitDynBuild_proofs
  Forest.ExplicitDynFamilies_proofs Forest.ExplicitDynComplete_proofs Forest.ExplicitDynExact_proofs
  Forest.ExplicitGraph Forest.ExplicitGraphCheck Forest.ExplicitGraph_proofs Gen.ExplicitWalk Forest.ExplicitWalkTie.
Import ListNotations.
Local Open Scope string_scope.
Local Open Scope list_scope.

(* Layer B.  For every acyclic forest of the shape the Earley parser builds (root_okb: the decidable
   well-formedness predicate of Forest/ExplicitCheck.v, evaluated on every forest the harness exports):
   a tree is obtained by choosing one alternative at every _ambig of the model's explicit tree iff it is the
   shape (plain callback chain: token filtering, _rule inlining, None placeholders, ?rule, alias) of a
   derivation stored in the forest.  Covers the _iambig/_inter machinery, PackedData, _collapse_ambig,
   AmbiguousExpander's cartesian product and AmbiguousIntermediateExpander's nested collapse. *)
Theorem C04_B_expand_exact n :
  root_okb n = true ->
  forall t, In t (expand (to_tree_explicit n)) <-> In t (map shape (derivs n)).
Proof. exact (B_expand_exact n). Qed.
Print Assumptions C04_B_expand_exact.

(* the explicit tree contains no _iambig/_inter leftovers and no _ambig without alternatives, and the forest
   has at least one derivation *)
Theorem C04_B_tree_tidy n :
  root_okb n = true -> gdb (to_tree_explicit n) = true /\ derivs n <> [].
Proof. exact (B_tree_tidy n). Qed.
Print Assumptions C04_B_tree_tidy.

(* CollapseAmbiguities (as repaired in /repo): whenever it returns, it returns the expansion, in order;
   it returns on every tree without an empty _ambig, in particular on every explicit tree of layer B. *)
Theorem C04_collapse_is_expand t l : collapse t = Ok l -> l = expand t.
Proof. exact (collapse_ok_is_expand t l). Qed.
Print Assumptions C04_collapse_is_expand.

Theorem C04_collapse_total t : noempty t = true -> collapse t = Ok (expand t).
Proof. exact (collapse_total t). Qed.
Print Assumptions C04_collapse_total.

Theorem C04_collapse_explicit n :
  root_okb n = true -> collapse (to_tree_explicit n) = Ok (expand (to_tree_explicit n)).
Proof. exact (collapse_explicit n). Qed.
Print Assumptions C04_collapse_explicit.

(* Finding F6 (and its residue F6b): the utility of the lark 1.3.1 snapshot raises on a None placeholder child
   although the tree has a well-defined expansion; the repaired model does not.
   f6_tree / f6b_tree are lark's explicit trees for  start: [A] b / b: A? "c"  on "ac"  and
   start: q A / ?q: [A] | b / b: B*  on "a" (both replayed on the code by the exotic stream). *)
Theorem C04_collapse_none_refuted :
  collapse_old false false f6_tree = AssertFail
  /\ expand f6_tree = [Nd "start" [Tk "A" "a"; Nd "b" []]; Nd "start" [Nn; Nd "b" [Tk "A" "a"]]]
  /\ collapse_old true false f6b_tree = AssertFail
  /\ expand f6b_tree = [Nd "start" [Nd "b" []; Tk "A" "a"]; Nd "start" [Nn; Tk "A" "a"]]
  /\ collapse f6_tree = Ok (expand f6_tree) /\ collapse f6b_tree = Ok (expand f6b_tree).
Proof. exact collapse_none_refuted. Qed.
Print Assumptions C04_collapse_none_refuted.

(* Layer A.  A forest is a set of (node label, packed family) pairs; labels carry the span, as lark's node cache
   keys (s, start, end) do.  If every family has the local form of an add_family call (forest_okb, evaluated by
   the harness on every captured forest, cyclic ones included), then every derivation stored below a node -
   every finite unfolding, so this covers cyclic forests - is a well-formed derivation of the node's symbol
   whose lexemes tile the input between the node's positions. *)
Theorem C04_A_sound (G : grammar) (tok : Type) tmatch tlen occurs fams :
  forest_okb G tok tmatch tlen occurs fams = true ->
  forall lbl ds, den tok (in_forest tok fams) lbl ds -> sound G tok tmatch tlen occurs lbl ds.
Proof. exact (A_sound G tok tmatch tlen occurs fams). Qed.
Print Assumptions C04_A_sound.

Theorem C04_A_sound_root (G : grammar) (tok : Type) tmatch tlen occurs fams a i j ds :
  forest_okb G tok tmatch tlen occurs fams = true ->
  den tok (in_forest tok fams) (NSym tok a i j) ds ->
  exists d, ds = [d] /\ derives G tok tmatch [NT a] (yield tok d) /\ tiles tok tlen occurs i j (yield tok d).
Proof. exact (A_sound_root G tok tmatch tlen occurs fams a i j ds). Qed.
Print Assumptions C04_A_sound_root.

(* the families added at the three add_family call sites over the chart of Earley/Spec have that local form,
   hence every tree below the root (start, 0, |w|) of the forest the parser builds derives exactly w *)
Theorem C04_A_added_ok (G : grammar) (tok : Type) tmatch (w : list tok) start occurs :
  (forall x i, occurs x i = true <-> nth_error w i = Some x) ->
  forall lbl f, added G tok tmatch w start lbl f -> fam_ok G tok tmatch (tlen1 tok) occurs lbl f.
Proof. exact (A_added_ok G tok tmatch w start occurs). Qed.
Print Assumptions C04_A_added_ok.

Theorem C04_A_sound_sentence (G : grammar) (tok : Type) tmatch (w : list tok) start occurs :
  (forall x i, occurs x i = true <-> nth_error w i = Some x) ->
  forall ds, den tok (added G tok tmatch w start) (NSym tok start 0 (length w)) ds ->
  exists d, ds = [d] /\ yield tok d = w /\ derives G tok tmatch [NT start] w.
Proof. exact (A_sound_sentence G tok tmatch w start occurs). Qed.
Print Assumptions C04_A_sound_sentence.

(* Completeness of layer A, proved at the specification level: the forest whose families are those the three
   add_family call sites add over the chart of Earley/Spec stores EVERY derivation tree of w below its root, and
   nothing else (exactness); so does any forest containing those families.
   _partial: that lark's worklist (predict_and_complete / scan with the per-column node cache) adds exactly these
   families is not proved here - it is the content of C01's worklist = chart theorem plus the bookkeeping of
   item.node; on every run the harness compares, per case, the families of the captured forest with the
   families generated by these rules (stream added-vs-forest) and the expansion of the explicit tree with a
   brute-force enumeration of all derivations. *)
Definition C04_A_complete_full_statement : Prop :=
  forall (G : grammar) (tok : Type) tmatch (w : list tok) start (occurs : tok -> nat -> bool)
         (lark_forest : nlabel tok -> family tok -> Prop),
    (forall x i, occurs x i = true <-> nth_error w i = Some x) ->
    (* lark_forest = the families earley.Parser.parse leaves in the SPPF *)
    (forall lbl f, lark_forest lbl f <-> added G tok tmatch w start lbl f) ->
    forall ds, den tok lark_forest (NSym tok start 0 (length w)) ds
               <-> exists d, ds = [d] /\ wfd G tok tmatch d (NT start) /\ yield tok d = w.

Theorem C04_A_complete_partial (G : grammar) (tok : Type) tmatch (w : list tok) start occurs :
  (forall x i, occurs x i = true <-> nth_error w i = Some x) ->
  (forall ds, den tok (added G tok tmatch w start) (NSym tok start 0 (length w)) ds
              <-> exists d, ds = [d] /\ wfd G tok tmatch d (NT start) /\ yield tok d = w)
  /\ (forall F : nlabel tok -> family tok -> Prop,
        (forall lbl f, added G tok tmatch w start lbl f -> F lbl f) ->
        forall d, wfd G tok tmatch d (NT start) -> yield tok d = w ->
                  den tok F (NSym tok start 0 (length w)) [d]).
Proof.
  intros H. split.
  - exact (A_exact_chart G tok tmatch w start occurs H).
  - exact (A_complete_superset G tok tmatch w start occurs H).
Qed.
Print Assumptions C04_A_complete_partial.

(* Layer A for the executable model of lark's Earley parser.  Forest/ExplicitAlgBuild.v is the recogniser model
   Earley/Alg.v (LIFO worklist, to_scan, held completions; C01) instrumented with the add_family calls of the three
   call sites of earley.py, nodes being their node_cache keys.  (1) Erasing the log gives back Alg's run.
   (2) Every logged family is one of the specification relation `added`.  (3) When the run consumed the whole input,
   every family of `added` is logged - for a completion inside one column whichever of the two items is popped second
   adds it: the completer from the column, or the predictor from held_completions.  (4) Hence the model's forest
   stores exactly the derivation trees of the input, and contains every derivation tree whenever one exists.
   This closes the gap named in C04_A_complete_partial for the model; the model itself is tied to lark on every run
   by comparing the log of all SymbolNode.add_family calls of a real parse with the model's log (stream alg-families)
   and, in C01, the item sets of every column. *)
Theorem C04_A_alg_erasure G start toks : fst (iearley_parse G start toks) = earley_parse G start toks.
Proof. exact (iearley_erasure G start toks). Qed.
Print Assumptions C04_A_alg_erasure.

Theorem C04_A_alg_families_sound G start toks f :
  In f (snd (iearley_parse G start toks)) -> added G nat Nat.eqb toks start (fst f) (snd f).
Proof. exact (iearley_families_sound G start toks f). Qed.
Print Assumptions C04_A_alg_families_sound.

Theorem C04_A_alg_families_complete G start toks lbl f :
  r_out (fst (iearley_parse G start toks)) = Accept \/ r_out (fst (iearley_parse G start toks)) = RejectEOF ->
  added G nat Nat.eqb toks start lbl f -> In (lbl, f) (snd (iearley_parse G start toks)).
Proof. exact (iearley_families_complete G start toks lbl f). Qed.
Print Assumptions C04_A_alg_families_complete.

Theorem C04_A_exact G start toks :
  r_out (fst (iearley_parse G start toks)) = Accept \/ r_out (fst (iearley_parse G start toks)) = RejectEOF ->
  forall ds, den nat (in_forest nat (snd (iearley_parse G start toks))) (NSym nat start 0 (length toks)) ds
             <-> exists d, ds = [d] /\ wfd G nat Nat.eqb d (NT start) /\ yield nat d = toks.
Proof. exact (iearley_forest_exact G start toks). Qed.
Print Assumptions C04_A_exact.

Theorem C04_A_complete G start toks d :
  wfd G nat Nat.eqb d (NT start) -> yield nat d = toks ->
  r_out (fst (iearley_parse G start toks)) = Accept
  /\ den nat (in_forest nat (snd (iearley_parse G start toks))) (NSym nat start 0 (length toks)) [d].
Proof. exact (iearley_forest_complete G start toks d). Qed.
Print Assumptions C04_A_complete.

(* the same for any token type, matcher and prediction table (Alg's generality) *)
Theorem C04_A_exact_gen G predictions (tok : Type) tmatch start (w : list tok) occurs :
  (forall a r, In r (predictions a) -> In r G /\ Analysis_proofs.lc_reach G a (lhs r)) ->
  (forall a r, In r G -> lhs r = a -> In r (predictions a)) ->
  (forall x i, occurs x i = true <-> nth_error w i = Some x) ->
  r_out (fst (iparse G predictions tok tmatch start w)) = Accept
    \/ r_out (fst (iparse G predictions tok tmatch start w)) = RejectEOF ->
  forall ds, den tok (in_forest tok (snd (iparse G predictions tok tmatch start w))) (NSym tok start 0 (length w)) ds
             <-> exists d, ds = [d] /\ wfd G tok tmatch d (NT start) /\ yield tok d = w.
Proof. intros ps pd os. exact (model_forest_exact G predictions tok tmatch start w ps pd occurs os). Qed.
Print Assumptions C04_A_exact_gen.

(* non-vacuity: S -> S S | a on "aaa" (0 = S, terminal 0 = a): accepted, 13 add_family calls, and the two
   derivation trees are stored below the root *)
Definition exA_G : grammar := [mkRule 0 [NT 0; NT 0]; mkRule 0 [T 0]].
Example C04_A_example :
  r_out (fst (iearley_parse exA_G 0 [0; 0; 0])) = Accept
  /\ length (snd (iearley_parse exA_G 0 [0; 0; 0])) = 13
  /\ forest_okb exA_G nat Nat.eqb (fun _ => 1) (occurs_nat [0; 0; 0]) (snd (iearley_parse exA_G 0 [0; 0; 0])) = true.
Proof. repeat split; vm_compute; reflexivity. Qed.

(* Layer A for the dynamic lexers.  Forest/ExplicitDynBuild.v is the recogniser model Earley/Dyn.v (xearley.py; C01)
   instrumented with the add_family calls of xearley.scan - token nodes identified by (terminal, start, end), and the
   carry-over of items across %ignore-d text, which copies the packed children of the carried node into the node with
   the later end position (a completed start item only with origin 0) - and of the shared predict_and_complete.
   (1) Erasing the log gives back Dyn's run.
   (2) Soundness over the position graph of the text (tokedge t i j: terminal t matches text[i:j]; ign i j: an ignored
       terminal does): if every family has the local form dfam_ok - ignored text may precede a rule's first child and
       follow any child - then every tree stored below a node consists of rule applications whose leaves are token
       edges and whose leaf spans, joined by ignore paths, tile the node's span: it spells the input.  The decidable
       checker dfam_okb implies the local form.
   That every family logged by the model has that form is theorem (3) below (C04_A_dynamic_families_sound), so the
   soundness is unconditional for the model (C04_A_dynamic_model_sound); the model is tied to lark on every run by the
   stream dyn-families (log of all SymbolNode.add_family calls of real dynamic / dynamic_complete parses = the model's
   log, as sets, on recorded regex answers; the checker is also evaluated on the whole log against a position graph
   computed by re.fullmatch).  Completeness w.r.t. Dyn's chart over the position graph is proved for the families of
   predict_and_complete (C04_A_dynamic_complete_partial below) and for the scanner's token families and the carry-over
   copies (C04_A_dynamic_scan_complete). *)
Theorem C04_A_dynamic_erasure G start n rmatch rtrunc complete_lex ignore :
  fst (idyn_parse G start n rmatch rtrunc complete_lex ignore) = dyn_parse G start n rmatch rtrunc complete_lex ignore.
Proof. exact (dyn_erasure G (pred_lookup G (pred_table G)) start n rmatch rtrunc complete_lex ignore). Qed.
Print Assumptions C04_A_dynamic_erasure.

Theorem C04_A_dynamic_sound (G : grammar) tokedge ign (F : nlabel span -> family span -> Prop) :
  (forall lbl f, F lbl f -> dfam_ok G tokedge ign lbl f) ->
  forall lbl ds, den span F lbl ds -> dsound G tokedge ign lbl ds.
Proof. exact (dyn_sound_gen G tokedge ign F). Qed.
Print Assumptions C04_A_dynamic_sound.

(* in particular below a symbol node (a, i, j): one tree, a derivation of a, whose token spans and ignore paths tile i..j *)
Theorem C04_A_dynamic_sound_checked (G : grammar) te ig (fams : list (nlabel nat * family nat)) a i j ds :
  forallb (dfam_okb G te ig) fams = true ->
  den span (in_forest span (map span_fam fams)) (NSym span a i j) ds ->
  exists d, ds = [d] /\ dwfd G (tokedge_t te) d (NT a) /\ gtiles (tokedge_t te) (ign_t ig) i j (yield span d).
Proof. intros H Hd. exact (dyn_forest_sound G te ig fams H _ _ Hd). Qed.
Print Assumptions C04_A_dynamic_sound_checked.

(* (3) The invariant of the run: every family the instrumented dynamic model logs has that local form over the
   position graph of the run itself - token edge t i j iff j is one of the ends Dyn.ends_of puts into delayed_matches for
   terminal t tried at i, ignore edge i j iff an ignored terminal matches from i to j.  A token entry adds
   (advance item at i+1, (rule, node at the scan position, token node)) and the match table says the terminal matches
   from the scan position to i+1: a token edge; a carried entry copies the families of (s, start, scan position) to
   (s, start, i+1) along an ignore edge; predict_and_complete adds completer / held-completion families between chart
   items (Dyn_proofs.gchart), an item with the dot at the start having only been carried over ignored text since it
   was predicted.  Hence, unconditionally for the model: every tree stored below a node of its forest is built from
   rule applications, its leaves are token edges, and the leaf spans joined by ignore paths tile the node's span. *)
Theorem C04_A_dynamic_families_sound G start n rmatch rtrunc complete_lex ignore f :
  In f (snd (idyn_parse G start n rmatch rtrunc complete_lex ignore)) ->
  dfam_ok G (run_tokedge rmatch rtrunc complete_lex) (ign_edge rmatch ignore) (fst (span_fam f)) (snd (span_fam f)).
Proof. exact (idyn_families_sound G start n rmatch rtrunc complete_lex ignore f). Qed.
Print Assumptions C04_A_dynamic_families_sound.

Theorem C04_A_dynamic_model_sound G start n rmatch rtrunc complete_lex ignore a i j ds :
  den span (in_forest span (map span_fam (snd (idyn_parse G start n rmatch rtrunc complete_lex ignore)))) (NSym span a i j) ds ->
  exists d, ds = [d] /\ dwfd G (run_tokedge rmatch rtrunc complete_lex) d (NT a)
            /\ gtiles (run_tokedge rmatch rtrunc complete_lex) (ign_edge rmatch ignore) i j (yield span d).
Proof. exact (idyn_model_sound_root G start n rmatch rtrunc complete_lex ignore a i j ds). Qed.
Print Assumptions C04_A_dynamic_model_sound.

(* Completeness for the dynamic model, _partial: the families of predict_and_complete.  For every column the run
   builds, every completion between two items of the chart over the position graph (Dyn_proofs.gchart: originator y in
   column i expecting a, completed item x of a in column k with origin i) has its family
   (label of advance y at k, (rule, node of y at i, (a, i, k))) in the log - inside one column whichever of the two is
   popped second adds it - and every completed empty rule has its (None, None) family.  That the token family of every
   scan step and every copy made by the carry-over is logged is C04_A_dynamic_scan_complete below; the dyn-families
   stream compares exactly these sets with lark on every run. *)
Theorem C04_A_dynamic_complete_partial G start n rmatch rtrunc complete_lex ignore :
  fwd rmatch rtrunc ->
  (forall i k y x a,
      gchart G start rmatch rtrunc complete_lex ignore i y -> expect y = Some (NT a) ->
      gchart G start rmatch rtrunc complete_lex ignore k x -> expect x = None -> orig x = i -> lhs (irule x) = a ->
      k < length (d_cols (fst (idyn_parse G start n rmatch rtrunc complete_lex ignore))) ->
      In (comp_fam nat k i a y) (snd (idyn_parse G start n rmatch rtrunc complete_lex ignore)))
  /\ (forall k x,
      gchart G start rmatch rtrunc complete_lex ignore k x -> expect x = None -> dot x = 0 ->
      k < length (d_cols (fst (idyn_parse G start n rmatch rtrunc complete_lex ignore))) ->
      In (NSym nat (lhs (irule x)) (orig x) k, (irule x, None, None))
         (snd (idyn_parse G start n rmatch rtrunc complete_lex ignore))).
Proof.
  intros Hf. split.
  - exact (idyn_completion_families G start n rmatch rtrunc complete_lex ignore Hf).
  - exact (idyn_empty_families G start n rmatch rtrunc complete_lex ignore Hf).
Qed.
Print Assumptions C04_A_dynamic_complete_partial.

(* Completeness of the scanner's bookkeeping in the dynamic model (delayed_matches invariant lifted to the instrumented
   entries): for every column the run builds,
   - every chart item advanced over a token edge has its token family
     (label of advance x at j, (rule, node of x at k, token node (t, k, j))) in the log;
   - every carry-over (a to_scan item, or a completed start item, carried along an ignore edge k -> j) has copied the
     packed children of the carried node (s, start, k) to (s, start, j).  What lark copies is node.children, i.e. the
     first family per (left, right) - PackedNode equality ignores the rule -, so the statement is modulo that
     equality: for every family f logged under (s, start, k) there is a family f0 under the same label with the same
     (left, right) whose (rule, left, right) is logged under (s, start, j).
   Together with C04_A_dynamic_complete_partial (completions, empty rules) every add_family call site of the dynamic
   parser is covered; the assembly into tree-level exactness is C04_A_dynamic_exact below. *)
Theorem C04_A_dynamic_scan_complete G start n rmatch rtrunc complete_lex ignore :
  fwd rmatch rtrunc ->
  (forall k x t j,
      gchart G start rmatch rtrunc complete_lex ignore k x -> expect x = Some (T t) ->
      In j (ends_of rmatch rtrunc complete_lex t k) ->
      j < length (d_cols (fst (idyn_parse G start n rmatch rtrunc complete_lex ignore))) ->
      In (tok_fam x k t j) (snd (idyn_parse G start n rmatch rtrunc complete_lex ignore)))
  /\ (forall k x j f,
      gchart G start rmatch rtrunc complete_lex ignore k x -> is_term_item x = true \/ is_solution start x = true ->
      ign_edge rmatch ignore k j ->
      j < length (d_cols (fst (idyn_parse G start n rmatch rtrunc complete_lex ignore))) -> has_node x ->
      In f (snd (idyn_parse G start n rmatch rtrunc complete_lex ignore)) -> fst f = node_label x k ->
      exists f0, fst f0 = node_label x k /\ same_children f f0 = true
                 /\ In (node_label x j, snd f0) (snd (idyn_parse G start n rmatch rtrunc complete_lex ignore))).
Proof.
  intros Hf. split.
  - exact (idyn_token_families G start n rmatch rtrunc complete_lex ignore Hf).
  - exact (idyn_carry_copies G start n rmatch rtrunc complete_lex ignore Hf).
Qed.
Print Assumptions C04_A_dynamic_scan_complete.

(* packed_dedup_safe: a node's packed children are a set under PackedNode equality, which compares (left, right) and
   ignores the rule.  For families of the local form this loses nothing: label, left and right determine the rule (an
   intermediate left child names it; without one the rule is the node's symbol -> the right child's symbol, or the
   empty rule of the symbol).  Hence the carry-over, which copies node.children = the first family per (left, right),
   copies every family. *)
Theorem C04_A_packed_dedup_safe (G : grammar) tokedge ign lbl r1 r2 l rt :
  dfam_ok G tokedge ign lbl (r1, l, rt) -> dfam_ok G tokedge ign lbl (r2, l, rt) -> r1 = r2.
Proof. exact (packed_dedup_safe G tokedge ign lbl r1 r2 l rt). Qed.
Print Assumptions C04_A_packed_dedup_safe.

(* Tree-level exactness for the dynamic lexers (the former C04_A_dynamic_exact_full_statement, kept below, follows).
   Over the run's own position graph - token edge (t, i, j) iff j is one of the ends xearley.scan explores for terminal
   t at i (the regex engine's match; with complete_lex also the matches on its truncations, which is where finding F7
   lives: the graph is what the scanner explores, not all matches), ignore edge iff an %ignore terminal matches -
   the trees stored below the root (start, 0, n) of the model's forest are exactly the derivation trees of the start
   symbol whose leaves are token edges and whose leaf spans, joined by ignore paths, tile 0..n.  The only hypothesis
   is fwd (the engine returns no empty match); the outcome of the run is not assumed: a derivation tree forces
   acceptance (C04_A_dynamic_complete).  Proof: the tree is walked left to right along Dyn's chart; an item waiting for
   a terminal is carried along the ignore path in front of the token (every step copies the node's families:
   C04_A_dynamic_scan_complete + packed_dedup_safe), the token family advances it; a non-terminal child is predicted
   where the item stands, built recursively, and completed (C04_A_dynamic_complete_partial); the finished start item
   is carried over the trailing ignore path. *)
Theorem C04_A_dynamic_exact G start n rmatch rtrunc complete_lex ignore :
  fwd rmatch rtrunc ->
  forall ds,
    den span (in_forest span (map span_fam (snd (idyn_parse G start n rmatch rtrunc complete_lex ignore))))
        (NSym span start 0 n) ds
    <-> exists d, ds = [d] /\ dwfd G (run_tokedge rmatch rtrunc complete_lex) d (NT start)
                  /\ gtiles (run_tokedge rmatch rtrunc complete_lex) (ign_edge rmatch ignore) 0 n (yield span d).
Proof. exact (idyn_forest_exact G start n rmatch rtrunc complete_lex ignore). Qed.
Print Assumptions C04_A_dynamic_exact.

Theorem C04_A_dynamic_complete G start n rmatch rtrunc complete_lex ignore d :
  fwd rmatch rtrunc ->
  dwfd G (run_tokedge rmatch rtrunc complete_lex) d (NT start) ->
  gtiles (run_tokedge rmatch rtrunc complete_lex) (ign_edge rmatch ignore) 0 n (yield span d) ->
  d_out (fst (idyn_parse G start n rmatch rtrunc complete_lex ignore)) = DAccept
  /\ den span (in_forest span (map span_fam (snd (idyn_parse G start n rmatch rtrunc complete_lex ignore))))
         (NSym span start 0 n) [d].
Proof. intros Hf. exact (idyn_forest_complete G start n rmatch rtrunc complete_lex ignore Hf d). Qed.
Print Assumptions C04_A_dynamic_complete.

Definition C04_A_dynamic_exact_full_statement : Prop :=
  forall G start n rmatch rtrunc complete_lex ignore,
    fwd rmatch rtrunc ->
    d_out (fst (idyn_parse G start n rmatch rtrunc complete_lex ignore)) = DAccept ->
    forall ds,
      den span (in_forest span (map span_fam (snd (idyn_parse G start n rmatch rtrunc complete_lex ignore))))
          (NSym span start 0 n) ds
      <-> exists d, ds = [d] /\ dwfd G (run_tokedge rmatch rtrunc complete_lex) d (NT start)
                    /\ gtiles (run_tokedge rmatch rtrunc complete_lex) (ign_edge rmatch ignore) 0 n (yield span d).

Theorem C04_A_dynamic_exact_closed : C04_A_dynamic_exact_full_statement.
Proof. intros G start n rmatch rtrunc complete_lex ignore Hf _. exact (idyn_forest_exact G start n rmatch rtrunc complete_lex ignore Hf). Qed.
Print Assumptions C04_A_dynamic_exact_closed.

(* fwd is needed.  start: E A | A with E matching the empty string at 0 and A matching 0..1, text of length 1: the
   position graph has the token edge (E, 0, 0), the tree start(E@0..0, A@0..1) is a derivation over the graph that
   tiles 0..1, the run accepts (through start: A) - and the tree is not stored: delayed_matches[0] is never read once
   column 0 exists.  lark raises GrammarError for zero-width terminals under the dynamic lexers. *)
Theorem C04_A_dynamic_exact_fwd_refuted :
  let G := [fx_r1; fx_r2] in
  let rt := fun _ _ _ : nat => @None nat in
  let run := idyn_parse G 0 1 fx_rm rt false [] in
  ~ fwd fx_rm rt
  /\ d_out (fst run) = DAccept
  /\ dwfd G (run_tokedge fx_rm rt false) fx_d (NT 0)
  /\ gtiles (run_tokedge fx_rm rt false) (ign_edge fx_rm []) 0 1 (yield span fx_d)
  /\ ~ den span (in_forest span (map span_fam (snd run))) (NSym span 0 0 1) [fx_d].
Proof. exact dyn_exact_fwd_refuted. Qed.
Print Assumptions C04_A_dynamic_exact_fwd_refuted.

(* non-vacuity: start: X with %ignore " " on "x " (terminal 0 = X matches 0..1, terminal 1 = the ignored blank matches
   1..2): accepted; the family of (start, 0, 1) is copied to (start, 0, 2) by the carry-over; all families have the
   local form, so the tree below (start, 0, 2) spells "x " *)
Definition exD_rm (t i : nat) : option nat :=
  match t, i with 0, 0 => Some 1 | 1, 1 => Some 2 | _, _ => None end.
Example C04_A_dynamic_example :
  let r := idyn_parse [mkRule 0 [T 0]] 0 2 exD_rm (fun _ _ _ => None) false [1] in
  d_out (fst r) = DAccept
  /\ snd r = [(NSym nat 0 0 1, (mkRule 0 [T 0], None, Some (NTok nat 0 0 0 1)));
              (NSym nat 0 0 2, (mkRule 0 [T 0], None, Some (NTok nat 0 0 0 1)))]
  /\ forallb (dfam_okb [mkRule 0 [T 0]] [(0, 0, 1)] [(1, 2)]) (snd r) = true.
Proof. repeat split; vm_compute; reflexivity. Qed.

(* ... and by exactness the one tree start(X@0..1) is stored below the root (start, 0, 2), the trailing blank being
   absorbed by the carry-over of the finished start item *)
Lemma exD_fwd : fwd exD_rm (fun _ _ _ => None).
Proof.
  split; [|intros; discriminate].
  intros [|[|t]] [|[|i]] j H; simpl in H; inversion H; auto.
Qed.
Example C04_A_dynamic_exact_example :
  let G := [mkRule 0 [T 0]] in
  let run := idyn_parse G 0 2 exD_rm (fun _ _ _ => None) false [1] in
  forall ds, den span (in_forest span (map span_fam (snd run))) (NSym span 0 0 2) ds
             <-> ds = [DN span (mkRule 0 [T 0]) [DL span 0 (0, 1)]].
Proof.
  cbv zeta. intros ds. rewrite (C04_A_dynamic_exact _ _ _ _ _ _ _ exD_fwd). split.
  - intros (d & -> & Hw & Ht). f_equal.
    destruct d as [t x|r ks]; [apply dwfd_leaf_inv in Hw; destruct Hw; discriminate|].
    apply dwfd_node_inv in Hw. destruct Hw as (_ & [<- |[]] & HF). cbn [rhs] in HF.
    destruct ks as [|k [|k2 ks]]; [inversion HF| |inversion HF as [|? ? ? ? ? HF2]; inversion HF2]. f_equal.
    assert (Hk : dwfd [mkRule 0 [T 0]] (run_tokedge exD_rm (fun _ _ _ => None) false) k (T 0)) by (inversion HF; auto).
    destruct k as [t [m e]|r ks]; [|apply dwfd_node_inv in Hk; destruct Hk; discriminate].
    apply dwfd_leaf_inv in Hk. destruct Hk as (Et & He). inversion Et. subst t. cbn [fst snd] in He.
    unfold run_tokedge in He. rewrite ends_spec in He.
    destruct He as (e0 & Hm & [-> |(Hc & _)]); [|discriminate].
    destruct m as [|[|m]]; simpl in Hm; inversion Hm. reflexivity.
  - intros ->. eexists. split; [reflexivity|]. split.
    + apply (dwfd_node _ _ (mkRule 0 [T 0])); [left; reflexivity|]. repeat constructor; unfold run_tokedge; vm_compute; auto.
    + simpl. apply gt_cons with (m := 0) (e := 1); [constructor|exists 0; unfold run_tokedge; vm_compute; auto|].
      constructor. apply gap_step with (m := 2); [|constructor]. exists 1. split; [left; reflexivity|reflexivity].
Qed.

(* Layer B on cyclic forests (cyclic grammars).  Forest/ExplicitGraph.v models the explicit-mode walk of
   ForestToParseTree on the SPPF as a numbered graph: a child already on the path is not entered (on_cycle), a packed
   node is kept iff both children are kept, a symbol / intermediate node iff one of its packed children is, once the
   left child is not kept the right one contributes nothing (it is entered in retreat), and the transformation of a kept
   packed node is cached by identity and reused under other paths.  The model computes the kept part as an acyclic
   forest (gunfold) and the tree as to_tree_explicit of it; lark's tree is compared with it exactly on every cyclic
   forest of the streams cyclic-corpus / cyclic.
   C04_B_cyclic_sound: for a graph of the local form gwfb (evaluated on every exported graph), the kept part is a
   well-formed forest (root_okb), so C04_B_expand_exact applies to it - the alternatives of the returned tree are exactly
   the shapes of the derivations of the kept part - and each of those is a finite unfolding of the graph (gder): every
   returned alternative is the shape of a derivation stored in the forest, which by C04_A_sound tiles the input.
   C04_B_cyclic_total: the model's fuel |g| + 1 always suffices (the path is duplicate-free); termination of the coded
   loop for any callbacks is C20_visit_terminates / C20_loop_eq_rec. *)
Theorem C04_B_cyclic_sound g root nd :
  gwfb g = true -> groot_okb g root = true -> gunfold g root = Some (Some nd) ->
  root_okb nd = true
  /\ (forall t, In t (expand (to_tree_explicit nd)) <-> In t (map shape (derivs nd)))
  /\ (forall d, In d (derivs nd) -> gder g root [d]).
Proof. intros Hw. exact (graph_explicit_sound g Hw root nd). Qed.
Print Assumptions C04_B_cyclic_sound.

Theorem C04_B_cyclic_total g root : gwfb g = true -> root < length g -> gunfold g root <> None.
Proof. intros Hw. exact (gunfold_total g Hw root). Qed.
Print Assumptions C04_B_cyclic_total.

(* What is kept on a cyclic forest is not "the derivations in which no node repeats on a path" (sder), in either
   direction, and depends on the order of the alternatives: the packed-node cache is filled under the path of the first
   visit and reused under other paths.  Witnesses (forests lark builds on "a", exported by the harness; stream
   cyclic-corpus compares lark's trees with cx_tree / cx_tree2 through the model):
     start: a | x   a: x | A   x: y   y: a | A    3 alternatives; start(x(y(a))) repeats no node and is lost
     start: x | a   (same otherwise)              5 alternatives; start(a(x(y(a)))) passes through a twice and is kept
   Soundness is not affected (C04_B_cyclic_sound); the property claims exactness for acyclic grammars only. *)
Definition C04_B_cyclic_cycle_free_exact_full_statement : Prop :=
  forall g root nd, gwfb g = true -> groot_okb g root = true -> gunfold g root = Some (Some nd) ->
    forall d, In d (derivs nd) <-> sder g [] root [d].

Theorem C04_B_cyclic_cycle_free_exact_refuted :
  (gwfb cx_g = true /\ groot_okb cx_g 0 = true /\
   exists nd, gunfold cx_g 0 = Some (Some nd) /\ to_tree_explicit nd = cx_tree /\ length (derivs nd) = 3 /\
              sder cx_g [] 0 [cx_lost] /\ ~ In cx_lost (derivs nd))
  /\
  (gwfb cx_g2 = true /\ groot_okb cx_g2 0 = true /\
   exists nd, gunfold cx_g2 0 = Some (Some nd) /\ to_tree_explicit nd = cx_tree2 /\ length (derivs nd) = 5 /\
              In cx_pumped (derivs nd) /\ ~ sder cx_g2 [] 0 [cx_pumped]).
Proof. exact cyclic_kept_is_order_dependent. Qed.
Print Assumptions C04_B_cyclic_cycle_free_exact_refuted.

(* Tie by regeneration.  translator/gen_explicit.py pins, by fail-closed source templates, the bodies of
   ForestToParseTree.on_cycle, _check_cycle, visit_symbol_node_in, visit_packed_node_in / _out, transform_symbol_node,
   transform_intermediate_node, transform_packed_node, _call_ambig_func, _collapse_ambig, visit, of
   ForestTransformer._visit_node_out_helper and of PackedData.__init__, and regenerates their conditions into
   Gen/ExplicitWalk.v on every run.  The conditions the hand models build in are equal to the regenerated ones: for the
   walk over cyclic forests (Forest/ExplicitGraph.v) and for the tree construction (Forest/ExplicitToTree.v). *)
Theorem C04_walk_conditions_are_source :
  on_cycle_sets_retreat = true
  /\ retreat_stops false false = false
  /\ (forall c, retreat_stops c true = true)
  /\ (forall r, sym_in_skips r = r)
  /\ (forall ps, packed_in_visits false ps = true)
  /\ (forall cached, packed_in_uncached true cached = negb cached)
  /\ (forall r, packed_out_marks r = negb r).
Proof. exact walk_conditions_are_source. Qed.
Print Assumptions C04_walk_conditions_are_source.

Theorem C04_tree_conditions_are_source :
  iambig_above = 1 /\ ambig_above = 1
  /\ (forall x, call_ambig [x] = x)
  /\ (forall x y l, call_ambig (x :: y :: l) = Nd AMBIG (x :: y :: l))
  /\ (forall li ll, left_spliced li ll = li && ll).
Proof. exact tree_conditions_are_source. Qed.
Print Assumptions C04_tree_conditions_are_source.

(* Non-vacuity: the forest lark builds for
     start: _i q _i     _i: A | A A     ?q: A? "a"     A: "a"          on "aaaa" (dynamic lexer)
   (exported by the harness) satisfies the hypothesis, its explicit tree is lark's tree, and its three
   expansions are the shapes of its three derivations. *)
Definition ex_r0 := mkX "start"%string "start"%string false false false [(mkSym "_i"%string false false); (mkSym "q"%string false false); (mkSym "_i"%string false false)] [].
Definition ex_r1 := mkX "_i"%string "_i"%string false false false [(mkSym "A"%string true false); (mkSym "A"%string true false)] [].
Definition ex_r2 := mkX "q"%string "q"%string false true false [(mkSym "A"%string true true)] [].
Definition ex_r3 := mkX "_i"%string "_i"%string false false false [(mkSym "A"%string true false)] [].
Definition ex_r4 := mkX "q"%string "q"%string false true false [(mkSym "A"%string true false); (mkSym "A"%string true true)] [].
Definition ex_forest : node :=
  (SymN (LSym "start"%string) [(Pack ex_r0 (Some (SymN (LInter ex_r0 2%nat) [(Pack ex_r0 (Some (SymN (LInter ex_r0 1%nat) [(Pack ex_r0 None (Some (SymN (LSym "_i"%string) [(Pack ex_r1 (Some (SymN (LInter ex_r1 1%nat) [(Pack ex_r1 None (Some (TokN "A"%string "a"%string)))])) (Some (TokN "A"%string "a"%string)))])))])) (Some (SymN (LSym "q"%string) [(Pack ex_r2 None (Some (TokN "A"%string "a"%string)))]))); (Pack ex_r0 (Some (SymN (LInter ex_r0 1%nat) [(Pack ex_r0 None (Some (SymN (LSym "_i"%string) [(Pack ex_r3 None (Some (TokN "A"%string "a"%string)))])))])) (Some (SymN (LSym "q"%string) [(Pack ex_r4 (Some (SymN (LInter ex_r4 1%nat) [(Pack ex_r4 None (Some (TokN "A"%string "a"%string)))])) (Some (TokN "A"%string "a"%string)))])))])) (Some (SymN (LSym "_i"%string) [(Pack ex_r3 None (Some (TokN "A"%string "a"%string)))]))); (Pack ex_r0 (Some (SymN (LInter ex_r0 2%nat) [(Pack ex_r0 (Some (SymN (LInter ex_r0 1%nat) [(Pack ex_r0 None (Some (SymN (LSym "_i"%string) [(Pack ex_r3 None (Some (TokN "A"%string "a"%string)))])))])) (Some (SymN (LSym "q"%string) [(Pack ex_r2 None (Some (TokN "A"%string "a"%string)))])))])) (Some (SymN (LSym "_i"%string) [(Pack ex_r1 (Some (SymN (LInter ex_r1 1%nat) [(Pack ex_r1 None (Some (TokN "A"%string "a"%string)))])) (Some (TokN "A"%string "a"%string)))])))]).
Definition ex_tree : tree :=
  (Nd "_ambig"%string [(Nd "start"%string [(Tk "A"%string "a"%string); (Tk "A"%string "a"%string); (Nd "q"%string []); (Tk "A"%string "a"%string)]); (Nd "start"%string [(Tk "A"%string "a"%string); (Tk "A"%string "a"%string); (Tk "A"%string "a"%string)]); (Nd "start"%string [(Tk "A"%string "a"%string); (Nd "q"%string []); (Tk "A"%string "a"%string); (Tk "A"%string "a"%string)])]).

Example C04_example :
  root_okb ex_forest = true /\ to_tree_explicit ex_forest = ex_tree /\ length (expand ex_tree) = 3
  /\ expand ex_tree = map shape (derivs ex_forest).
Proof. repeat split; vm_compute; reflexivity. Qed.
