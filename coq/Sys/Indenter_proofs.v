(* Proofs about the Indenter model (C18, and the reuse half of C10). *)
From Coq Require Import ZArith List Bool String Ascii Lia.
From LV Require Import Base.Prelude Sys.IndenterBase Gen.IndenterHoles Sys.Indenter.
Import ListNotations.
Local Open Scope Z_scope.

Fixpoint wf_stack (l : list Z) : Prop :=
  match l with
  | [] => False
  | x :: r => match r with [] => x = 0 | y :: _ => x > y /\ wf_stack r end
  end.

Lemma wf_stack_below_top x r y : wf_stack (x :: r) -> In y r -> y < x.
Proof.
  revert x. induction r as [|z r IH]; intros x H Hin; [contradiction|].
  simpl in H. destruct H as [Hxz Hr]. destruct Hin as [->|Hin]; [lia|]. specialize (IH z Hr Hin). lia.
Qed.

Lemma wf_stack_tail x y r : wf_stack (x :: y :: r) -> wf_stack (y :: r).
Proof. simpl. tauto. Qed.

Lemma wf_stack_suffix popped S : S <> [] -> wf_stack (popped ++ S) -> wf_stack S.
Proof.
  intros N. induction popped as [|p ps IH]; [trivial|]. intros H. apply IH.
  cbn [app] in H. destruct (ps ++ S) eqn:E; [apply app_eq_nil in E; tauto | eapply wf_stack_tail; eauto].
Qed.

Lemma wf_stack_NoDup l : wf_stack l -> NoDup l.
Proof.
  induction l as [|x r IH]; intros H; [constructor|].
  constructor.
  - intro Hin. pose proof (wf_stack_below_top _ _ _ H Hin). lia.
  - destruct r as [|y r']; [constructor|]. apply IH. eapply wf_stack_tail; eauto.
Qed.

Definition is_dedent cfg s (t : tok) := t = DEDENT cfg s.

Lemma pop_while_spec cfg indent s stk o stk' e :
  wf_stack stk -> 0 <= indent ->
  pop_while cfg indent s stk = (o, stk', e) ->
  exists popped,
    stk = popped ++ stk' /\
    o = map (fun _ => DEDENT cfg s) popped /\
    Forall (fun x => indent < x) popped /\
    wf_stack stk' /\
    ((e = None /\ hd 0 stk' = indent) \/ (e = Some DedentErr /\ hd 0 stk' < indent /\ ~ In indent stk)).
Proof.
  revert o stk' e. induction stk as [|top rest IH]; intros o stk' e Hwf Hi H; [contradiction|].
  cbn [pop_while] in H. unfold h_lt, h_ne in H. destruct (Z.ltb_spec indent top) as [Hlt|Hge].
  - (* the bottom level 0 is never popped *)
    destruct rest as [|y rest']; [simpl in Hwf; lia|].
    destruct (pop_while cfg indent s (y :: rest')) as [[o1 s1] e1] eqn:Hp. injection H as <- <- <-.
    destruct (IH _ _ _ (wf_stack_tail _ _ _ Hwf) Hi eq_refl) as (popped & E & -> & Hall & Hwf' & He).
    exists (top :: popped). cbn [app map]. rewrite <- E. repeat split; auto.
    destruct He as [He|(He & Hlt' & Hn)]; [left; exact He | right]. repeat split; auto.
    intros [Heq|Hin]; [lia | auto].
  - exists []. destruct (Z.eqb_spec indent top) as [->|Hne]; injection H as <- <- <-; repeat split; auto.
    right. cbn [hd]. repeat split; [lia|]. intros [Heq|Hin]; [lia|].
    pose proof (wf_stack_below_top _ _ _ Hwf Hin). lia.
Qed.

Lemma h_indent_nonneg cfg s : 0 < tab_len cfg -> 0 <= h_indent cfg s.
Proof. intros. unfold h_indent. nia. Qed.

(* core of property bracket_silent: while paren_level > 0 a newline token produces nothing *)
Lemma handle_NL_in_brackets cfg st t :
  paren st > 0 -> handle_NL cfg st t = ([], st, None).
Proof. intros H. unfold handle_NL, h_inparen. destruct (Z.gtb_spec (paren st) 0); [reflexivity | lia]. Qed.

Definition line_indent cfg (t : tok) : option Z :=
  option_map (h_indent cfg) (after_last_nl (tval t)).

(* what handle_NL does outside brackets: an INDENT for a deeper line; otherwise one DEDENT per level popped, ending at
   the line's level or, when that is not an open level, in DedentError *)
Lemma handle_NL_shape cfg st t o st' e indent :
  0 < tab_len cfg -> paren st <= 0 -> wf_stack (stack st) ->
  line_indent cfg t = Some indent ->
  handle_NL cfg st t = (o, st', e) ->
  exists top rest istr, stack st = top :: rest /\ after_last_nl (tval t) = Some istr /\
  paren st' = paren st /\ wf_stack (stack st') /\
  ( (indent > top /\ o = [t; INDENT cfg istr] /\ stack st' = indent :: stack st /\ e = None) \/
    (indent <= top /\ exists popped,
       stack st = popped ++ stack st' /\ o = t :: map (fun _ => DEDENT cfg istr) popped /\
       Forall (fun x => indent < x) popped /\
       ((e = None /\ hd 0 (stack st') = indent) \/
        (e = Some DedentErr /\ indent < top /\ ~ In indent (stack st)))) ).
Proof.
  intros Htab Hp Hwf Hli H. unfold handle_NL, h_inparen in H.
  destruct (Z.gtb_spec (paren st) 0); [lia|].
  unfold line_indent in Hli. destruct (after_last_nl (tval t)) as [istr|] eqn:Ha; [|discriminate].
  simpl in Hli. inversion Hli; subst indent; clear Hli.
  destruct (stack st) as [|top rest] eqn:Hs; [simpl in Hwf; contradiction|].
  exists top, rest, istr. split; auto. split; auto.
  unfold h_gt in H. destruct (Z.gtb_spec (h_indent cfg istr) top) as [Hgt|Hgt].
  - inversion H; subst; clear H. cbn [paren stack]. split; auto. split; [split; [lia | exact Hwf]|].
    left. repeat split; auto; lia.
  - destruct (pop_while cfg (h_indent cfg istr) istr (top :: rest)) as [[o1 s1] e1] eqn:Hpw.
    inversion H; subst; clear H. cbn [paren stack].
    destruct (pop_while_spec _ _ _ _ _ _ _ Hwf (h_indent_nonneg cfg istr Htab) Hpw)
      as (popped & E & Eo & Hall & Hwf' & He).
    split; auto. split; auto. right. split; [lia|]. exists popped. rewrite Eo. repeat split; auto.
    destruct He as [He|(-> & _ & Hnin)]; [left; exact He | right]. repeat split; auto.
    enough (h_indent cfg istr <> top) by lia. intros Heq. apply Hnin. left. auto.
Qed.

(* the same as four cases that do not mention the loop *)
Lemma handle_NL_spec cfg st t o st' e indent :
  0 < tab_len cfg -> paren st <= 0 -> wf_stack (stack st) ->
  line_indent cfg t = Some indent ->
  handle_NL cfg st t = (o, st', e) ->
  exists top rest istr, stack st = top :: rest /\ after_last_nl (tval t) = Some istr /\
  paren st' = paren st /\ wf_stack (stack st') /\
  ( (* INDENT *) (indent > top /\ o = [t; INDENT cfg istr] /\ stack st' = indent :: stack st /\ e = None)
    \/ (* same level *) (indent = top /\ o = [t] /\ stack st' = stack st /\ e = None)
    \/ (* DEDENT(s) to an open level *)
       (indent < top /\ e = None /\ exists popped,
          popped <> [] /\ stack st = popped ++ stack st' /\ hd 0 (stack st') = indent /\
          Forall (fun x => indent < x) popped /\
          o = t :: map (fun _ => DEDENT cfg istr) popped)
    \/ (* DedentError: not an open level *)
       (indent < top /\ e = Some DedentErr /\ ~ In indent (stack st)) ).
Proof.
  intros Htab Hp Hwf Hli H.
  destruct (handle_NL_shape _ _ _ _ _ _ _ Htab Hp Hwf Hli H) as (top & rest & istr & Hs & Ha & Hp1 & Hwf1 & Hc).
  exists top, rest, istr. do 4 (split; [assumption|]).
  destruct Hc as [Hc|(Hle & popped & E & Eo & Hall & [(-> & Hhd)|(-> & Hlt & Hnin)])]; [left; exact Hc | | auto 6].
  rewrite Hs in E. destruct popped as [|p ps]; simpl in E.
  - right; left. rewrite <- E in Hhd. simpl in Hhd. rewrite Hs, <- E. auto.
  - right; right; left. inversion E; subst p. inversion Hall; subst.
    split; [lia|]. split; [reflexivity|]. exists (top :: ps). rewrite Hs. repeat split; auto; discriminate.
Qed.

Definition cnt (ty : string) (l : list tok) : Z :=
  Z.of_nat (List.length (filter (fun t => String.eqb (ttype t) ty) l)).

Lemma cnt_app ty a b : cnt ty (a ++ b) = cnt ty a + cnt ty b.
Proof. unfold cnt. rewrite filter_app, app_length. lia. Qed.

Lemma cnt_cons ty t l : cnt ty (t :: l) = (if String.eqb (ttype t) ty then 1 else 0) + cnt ty l.
Proof. unfold cnt. cbn [filter]. destruct (String.eqb (ttype t) ty); cbn [List.length]; lia. Qed.

Lemma cnt_nil ty : cnt ty [] = 0.
Proof. reflexivity. Qed.

Lemma cnt_map_const ty (t : tok) {A} (l : list A) :
  cnt ty (map (fun _ => t) l) = (if String.eqb (ttype t) ty then Z.of_nat (List.length l) else 0).
Proof.
  induction l as [|x l IH]; simpl.
  - rewrite cnt_nil. destruct (String.eqb (ttype t) ty); reflexivity.
  - rewrite cnt_cons, IH. destruct (String.eqb (ttype t) ty); lia.
Qed.

Definition fresh cfg (ts : list tok) : Prop :=
  indent_type cfg <> dedent_type cfg /\
  Forall (fun t => ttype t <> indent_type cfg /\ ttype t <> dedent_type cfg) ts.

Definition balance cfg (o : list tok) : Z := cnt (indent_type cfg) o - cnt (dedent_type cfg) o.
Definition depth (stk : list Z) : Z := Z.of_nat (List.length stk) - 1.

Lemma eqb_neq' a b : a <> b -> String.eqb a b = false. Proof. apply String.eqb_neq. Qed.

Lemma final_pops_spec cfg stk o s e :
  wf_stack stk -> final_pops cfg stk = (o, s, e) ->
  e = None /\ s = [0] /\ o = map (fun _ => DEDENT cfg EmptyString) (removelast stk).
Proof.
  revert o s e. induction stk as [|top rest IH]; intros o s e Hwf H; [simpl in Hwf; contradiction|].
  simpl in H. unfold h_more in H.
  destruct rest as [|y rest'].
  - simpl in H. inversion H; subst. simpl in Hwf. subst. auto.
  - destruct (Z.gtb_spec (Z.of_nat (List.length (top :: y :: rest'))) 1); [|simpl List.length in *; lia].
    destruct (final_pops cfg (y :: rest')) as [[o1 s1] e1] eqn:Hf.
    inversion H; subst; clear H.
    destruct (IH _ _ _ (wf_stack_tail _ _ _ Hwf) eq_refl) as (He & Hs & Ho).
    subst. repeat split; auto.
Qed.

Definition no_index_err (e : istatus) := e <> IndexErr.

(* every NL token of the stream has a newline in it (the NL terminal's contract) *)
Definition nl_ok cfg (ts : list tok) : Prop :=
  Forall (fun t => ttype t = nl_type cfg -> after_last_nl (tval t) <> None) ts.

Lemma step_paren_cases cfg st t st2 e2 :
  step_paren cfg st t = (st2, e2) ->
  stack st2 = stack st /\
  ( (mem_string (ttype t) (open_types cfg) = true /\ paren st2 = paren st + 1 /\ e2 = None) \/
    (mem_string (ttype t) (open_types cfg) = false /\ mem_string (ttype t) (close_types cfg) = true /\
     paren st2 = paren st - 1 /\ ((paren st - 1 >=? 0) = true /\ e2 = None \/ (paren st - 1 >=? 0) = false /\ e2 = Some AssertErr)) \/
    (mem_string (ttype t) (open_types cfg) = false /\ mem_string (ttype t) (close_types cfg) = false /\
     paren st2 = paren st /\ e2 = None) ).
Proof.
  unfold step_paren, h_inc, h_dec, h_parenok. intros H.
  destruct (mem_string (ttype t) (open_types cfg)).
  - inversion H; subst; cbn. split; auto.
  - destruct (mem_string (ttype t) (close_types cfg)).
    + inversion H; subst; cbn. split; auto. right; left. repeat split; auto.
      destruct (paren st - 1 >=? 0); auto.
    + inversion H; subst. split; auto. right; right. auto.
Qed.

Lemma step_paren_spec cfg st t st2 e2 :
  0 <= paren st -> step_paren cfg st t = (st2, e2) ->
  stack st2 = stack st /\ (e2 = None -> 0 <= paren st2) /\ (e2 = None \/ e2 = Some AssertErr).
Proof.
  intros Hp H. destruct (step_paren_cases _ _ _ _ _ H) as (Hs & Hc). split; [exact Hs|].
  destruct Hc as [(_ & -> & ->)|[(_ & _ & -> & [(? & ->)|(_ & ->)])|(_ & _ & -> & ->)]];
    split; auto; try lia; try discriminate.
Qed.

Definition phase1 cfg st t :=
  if String.eqb (ttype t) (nl_type cfg) then handle_NL cfg st t else ([t], st, None).

Lemma balance_app cfg a b : balance cfg (a ++ b) = balance cfg a + balance cfg b.
Proof. unfold balance. rewrite !cnt_app. lia. Qed.

Lemma balance_plain cfg t l :
  ttype t <> indent_type cfg -> ttype t <> dedent_type cfg -> balance cfg (t :: l) = balance cfg l.
Proof.
  intros A B. unfold balance. rewrite !cnt_cons.
  rewrite (eqb_neq' _ _ A), (eqb_neq' _ _ B). lia.
Qed.

Lemma balance_dedents cfg s {A} (l : list A) :
  indent_type cfg <> dedent_type cfg ->
  balance cfg (map (fun _ => DEDENT cfg s) l) = - Z.of_nat (List.length l).
Proof.
  intros Hne. unfold balance. rewrite !cnt_map_const. simpl ttype.
  rewrite String.eqb_refl, (eqb_neq' (dedent_type cfg) (indent_type cfg)) by congruence. lia.
Qed.

Lemma balance_indent cfg s l :
  indent_type cfg <> dedent_type cfg -> balance cfg (INDENT cfg s :: l) = 1 + balance cfg l.
Proof.
  intros Hne. unfold balance. rewrite !cnt_cons. simpl ttype.
  rewrite String.eqb_refl, (eqb_neq' (indent_type cfg) (dedent_type cfg)) by auto. lia.
Qed.

Definition step_ok cfg st (t : tok) : Prop :=
  wf_stack (stack st) /\ 0 <= paren st /\
  ttype t <> indent_type cfg /\ ttype t <> dedent_type cfg /\
  (ttype t = nl_type cfg -> after_last_nl (tval t) <> None).

Lemma phase1_spec cfg st t o1 st1 e1 :
  0 < tab_len cfg -> indent_type cfg <> dedent_type cfg -> step_ok cfg st t ->
  phase1 cfg st t = (o1, st1, e1) ->
  wf_stack (stack st1) /\ paren st1 = paren st /\
  balance cfg o1 = depth (stack st1) - depth (stack st) /\
  (e1 = None \/ e1 = Some DedentErr).
Proof.
  intros Htab Hne (Hwf & Hp & Hti & Htd & Hnlt) H. unfold phase1 in H.
  destruct (String.eqb (ttype t) (nl_type cfg)) eqn:Hisnl.
  2:{ inversion H; subst. repeat split; auto. rewrite balance_plain by auto. unfold balance; rewrite !cnt_nil. lia. }
  apply String.eqb_eq in Hisnl.
  destruct (Z_gt_le_dec (paren st) 0) as [Hin|Hout].
  { rewrite handle_NL_in_brackets in H by auto. inversion H; subst. repeat split; auto.
    unfold balance; rewrite !cnt_nil. lia. }
  destruct (after_last_nl (tval t)) as [istr|] eqn:Ha; [|exfalso; apply (Hnlt Hisnl); auto].
  assert (Hli : line_indent cfg t = Some (h_indent cfg istr)) by (unfold line_indent; rewrite Ha; reflexivity).
  destruct (handle_NL_shape _ _ _ _ _ _ _ Htab Hout Hwf Hli H)
    as (top & rs & istr' & Hs & Ha' & Hp1 & Hwf1 & Hc).
  split; auto. split; auto.
  destruct Hc as [(Hg & -> & Hs1 & ->)|(Hle & popped & E & -> & _ & He)].
  - rewrite Hs1, balance_plain, balance_indent by auto. split; auto.
    unfold balance, depth. rewrite !cnt_nil. cbn [List.length]. lia.
  - rewrite balance_plain, balance_dedents by auto. split; [|destruct He as [(-> & _)|(-> & _)]; auto].
    unfold depth. rewrite E, app_length. lia.
Qed.

Lemma run_cons cfg st t rest :
  run cfg st (t :: rest) =
  let '(o1, st1, e1) := phase1 cfg st t in
  match e1 with
  | Some err => (o1, st1, err)
  | None =>
      let '(st2, e2) := step_paren cfg st1 t in
      match e2 with
      | Some err => (o1, st2, err)
      | None => let '(o, s, e) := run cfg st2 rest in (o1 ++ o, s, e)
      end
  end.
Proof. reflexivity. Qed.

Inductive runs cfg : istate -> list tok -> list tok -> istate -> istatus -> Prop :=
| runs_end st : wf_stack (stack st) ->
    runs cfg st [] (map (fun _ => DEDENT cfg EmptyString) (removelast (stack st))) (mkSt (paren st) [0]) Done
| runs_dedent st t rest o1 st1 : step_ok cfg st t ->
    phase1 cfg st t = (o1, st1, Some DedentErr) -> runs cfg st (t :: rest) o1 st1 DedentErr
| runs_assert st t rest o1 st1 st2 : step_ok cfg st t ->
    phase1 cfg st t = (o1, st1, None) -> step_paren cfg st1 t = (st2, Some AssertErr) ->
    runs cfg st (t :: rest) o1 st2 AssertErr
| runs_step st t rest o1 st1 st2 o s e : step_ok cfg st t ->
    phase1 cfg st t = (o1, st1, None) -> step_paren cfg st1 t = (st2, None) ->
    runs cfg st2 rest o s e -> runs cfg st (t :: rest) (o1 ++ o) s e.

Lemma run_runs cfg ts : forall st o st' e,
  0 < tab_len cfg -> fresh cfg ts -> nl_ok cfg ts -> wf_stack (stack st) -> 0 <= paren st ->
  run cfg st ts = (o, st', e) -> runs cfg st ts o st' e.
Proof.
  induction ts as [|t rest IH]; intros st o st' e Htab Hfresh Hnl Hwf Hp H.
  - simpl in H. destruct (final_pops cfg (stack st)) as [[o1 s1] e1] eqn:Hf.
    destruct (final_pops_spec _ _ _ _ _ Hwf Hf) as (-> & -> & ->).
    unfold h_bottom in H. simpl in H. inversion H; subst. constructor. exact Hwf.
  - destruct Hfresh as [Hne Hfr]. inversion Hfr as [|? ? [Hti Htd] Hfr']; subst.
    inversion Hnl as [|? ? Hnlt Hnl']; subst.
    assert (Hok : step_ok cfg st t) by (repeat split; assumption).
    rewrite run_cons in H.
    destruct (phase1 cfg st t) as [[o1 st1] e1] eqn:Hph.
    destruct (phase1_spec _ _ _ _ _ _ Htab Hne Hok Hph) as (Hwf1 & Hp1 & _ & [-> | ->]).
    2:{ inversion H; subst. apply runs_dedent; assumption. }
    destruct (step_paren cfg st1 t) as [st2 e2] eqn:Hsp.
    destruct (step_paren_spec cfg st1 t st2 e2 ltac:(lia) Hsp) as (Hs2 & Hp2 & [-> | ->]).
    2:{ inversion H; subst. eapply runs_assert; eassumption. }
    destruct (run cfg st2 rest) as [[o2 s2] e2'] eqn:Hr. inversion H; subst.
    eapply runs_step; try eassumption. apply IH; auto; [split; auto | rewrite Hs2; auto].
Qed.

Theorem run_invariant cfg ts : forall st o st' e,
  0 < tab_len cfg -> fresh cfg ts -> nl_ok cfg ts -> wf_stack (stack st) -> 0 <= paren st ->
  run cfg st ts = (o, st', e) ->
  wf_stack (stack st') /\ e <> IndexErr /\
  balance cfg o = depth (stack st') - depth (stack st) /\
  (e = Done -> stack st' = [0] /\ balance cfg o = - depth (stack st)).
Proof.
  intros st o st' e Htab Hfresh Hnl Hwf Hp H. apply run_runs in H; auto.
  destruct Hfresh as [Hne _]. clear Hnl Hwf Hp.
  induction H as [st Hwf | st t rest o1 st1 Hok Hph | st t rest o1 st1 st2 Hok Hph Hsp
                 | st t rest o1 st1 st2 o s e Hok Hph Hsp _ IH].
  1:{ assert (Hb : balance cfg (map (fun _ => DEDENT cfg EmptyString) (removelast (stack st)))
                   = - depth (stack st)).
      { rewrite balance_dedents by auto. destruct (stack st) as [|q qs]; [contradiction|].
        unfold depth. rewrite removelast_firstn_len, firstn_length. cbn [List.length]. lia. }
      repeat split; auto; try discriminate; rewrite Hb; unfold depth at 1; simpl; lia. }
  all: destruct (phase1_spec _ _ _ _ _ _ Htab Hne Hok Hph) as (Hwf1 & Hp1 & Hb1 & _).
  1: repeat split; auto; discriminate.
  all: destruct Hok as (_ & Hp & _); destruct (step_paren_spec cfg st1 t st2 _ ltac:(lia) Hsp) as (Hs2 & _);
    rewrite Hs2 in *.
  - repeat split; auto; discriminate.
  - destruct IH as (A & B & C & D). rewrite balance_app. repeat split; auto.
    + lia.
    + apply D; auto.
    + destruct (D H) as [_ D2]. lia.
Qed.

Theorem process_reset cfg old1 old2 ts : process cfg old1 ts = process cfg old2 ts.
Proof. reflexivity. Qed.

Theorem process_balanced cfg old ts o st' e :
  0 < tab_len cfg -> fresh cfg ts -> nl_ok cfg ts ->
  process cfg old ts = (o, st', e) ->
  e <> IndexErr /\ wf_stack (stack st') /\
  balance cfg o = depth (stack st') /\
  (e = Done -> balance cfg o = 0 /\ stack st' = [0]).
Proof.
  intros Htab Hf Hnl H. unfold process, h_p0, h_i0 in H.
  destruct (run_invariant cfg ts _ _ _ _ Htab Hf Hnl (eq_refl : wf_stack (stack (mkSt 0 [0]))) (Z.le_refl 0) H)
    as (A & B & C & D).
  simpl stack in *. unfold depth in C at 2. unfold depth in D at 1. simpl in C, D.
  repeat split; auto.
  - lia.
  - destruct (D H0); lia.
  - destruct (D H0); auto.
Qed.

(* One logical line of indentation c, outside brackets, without error, takes stack S to S'. *)
Definition lstep (c : Z) (S S' : list Z) : Prop :=
  (exists top r, S = top :: r /\ c > top /\ S' = c :: S) \/
  (exists popped r, S = popped ++ S' /\ S' = c :: r /\ Forall (fun x => c < x) popped).

Lemma handle_NL_lstep cfg st t o st' indent :
  0 < tab_len cfg -> paren st <= 0 -> wf_stack (stack st) ->
  line_indent cfg t = Some indent ->
  handle_NL cfg st t = (o, st', None) -> lstep indent (stack st) (stack st').
Proof.
  intros Htab Hp Hwf Hli H.
  destruct (handle_NL_shape _ _ _ _ _ _ _ Htab Hp Hwf Hli H) as (top & rs & istr & Hs & _ & _ & Hwf1 & Hc).
  destruct Hc as [(Hg & _ & Hs1 & _)|(_ & popped & E & _ & Hall & [(_ & Hhd)|([=] & _)])].
  - left. exists top, rs. auto.
  - right. destruct (stack st') as [|c r]; [contradiction|]. simpl in Hhd. subst c. exists popped, r. auto.
Qed.

Lemma lstep_wf c S S' : wf_stack S -> 0 <= c -> lstep c S S' -> wf_stack S'.
Proof.
  intros Hwf Hc [(top & r & -> & Hg & ->)|(popped & r & -> & E' & _)].
  - simpl. split; [lia|]. exact Hwf.
  - apply (wf_stack_suffix popped); [rewrite E'; discriminate | exact Hwf].
Qed.

Lemma lstep_members c S S' l :
  wf_stack S -> lstep c S S' -> (In l S' <-> (In l S /\ l <= c) \/ l = c).
Proof.
  intros Hwf [(top & r & -> & Hg & ->)|(popped & r & -> & -> & Hall)].
  - split.
    + intros [->|[->|Hin]]; auto; left; split; simpl; auto; try lia.
      pose proof (wf_stack_below_top _ _ _ Hwf Hin). lia.
    + intros [[Hin _]| ->]; simpl; auto.
  - apply wf_stack_suffix in Hwf; [|discriminate].
    rewrite Forall_forall in Hall. split.
    + intros [->|Hin]; auto. left. split; [apply in_or_app; right; right; exact Hin|].
      pose proof (wf_stack_below_top _ _ _ Hwf Hin). lia.
    + intros [[Hin Hle]| ->]; [|left; reflexivity].
      apply in_app_or in Hin. destruct Hin as [Hin|Hin]; auto. specialize (Hall _ Hin). lia.
Qed.

Inductive lsteps : list Z -> list Z -> list Z -> Prop :=
| ls_nil S : lsteps [] S S
| ls_cons c cs S S1 S' : lstep c S S1 -> lsteps cs S1 S' -> lsteps (c :: cs) S S'.

(* A level is open after the lines cs iff it was open before and no later line went below
   it, or it is the indentation of some line that no later line went below. *)
Theorem open_levels_declarative cs : forall S S' l,
  wf_stack S -> Forall (fun c => 0 <= c) cs -> lsteps cs S S' ->
  (In l S' <->
     (In l S /\ Forall (fun c => l <= c) cs) \/
     (exists pre post, cs = pre ++ l :: post /\ Forall (fun c => l <= c) post)).
Proof.
  induction cs as [|c cs IH]; intros S S' l Hwf Hnn H; inversion H as [|? ? ? S1 ? Hl Hls]; subst.
  - split.
    + intros Hin. left. split; auto.
    + intros [[Hin _]|(pre & post & E & _)]; auto. destruct pre; discriminate.
  - inversion Hnn as [|? ? Hc0 Hcs0]; subst.
    assert (Hwf1 : wf_stack S1) by (eapply lstep_wf; eauto).
    pose proof (IH _ _ l Hwf1 Hcs0 Hls) as I1. pose proof (lstep_members _ _ _ l Hwf Hl) as I2.
    split.
    + intros Hin. apply I1 in Hin. destruct Hin as [[Hin Hall]|(pre & post & -> & Hall)].
      * apply I2 in Hin. destruct Hin as [[Hin Hle]| ->].
        -- left. split; auto.
        -- right. exists [], cs. split; auto.
      * right. exists (c :: pre), post. split; auto.
    + intros [[Hin Hall]|(pre & post & E & Hall)].
      * inversion Hall; subst. apply I1. left. split; auto. apply I2. left; auto.
      * destruct pre as [|p pre]; simpl in E; inversion E; subst.
        -- apply I1. left. split; auto. apply I2. right; auto.
        -- apply I1. right. exists pre, post. split; auto.
Qed.
