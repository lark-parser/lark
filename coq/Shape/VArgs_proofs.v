(* v_args wrappers: the embedded call equals the post-hoc call for every wrapper that takes no meta. *)
From Coq Require Import String Ascii List Bool Arith.
From LV Require Import Base.Prelude Shape.Chain Shape.Spec Shape.Shape_proofs Shape.Transform Shape.Transform_proofs Shape.VArgs.
Import ListNotations.
Local Open Scope string_scope.

Lemma posthoc_call_meta_free c d ch m : meta_free c -> posthoc_call c d ch m = posthoc_call c d ch MNone.
Proof.
  unfold meta_free, posthoc_call. destruct (u_wrap c) as [[| | | |w]|]; cbn; intros H; auto; try contradiction.
Qed.

(* one call: create_callback's wrapper around the user function returns what _call_userfunc returns on the node the
   default callback would have built (tree.data = the callback name), whatever that node's meta is *)
Theorem vargs_call_agree c name ch m : meta_free c -> embedded_call c name ch = Some (posthoc_call c name ch m).
Proof.
  intros H. rewrite (posthoc_call_meta_free c name ch m H). revert H.
  unfold meta_free, embedded_call, posthoc_call. destruct (u_wrap c) as [[| | | |w]|]; cbn; intros H; auto; contradiction.
Qed.

Lemma emb_user_is_vargs_T tbl toks : (forall n c, tbl n = Some c -> meta_free c) ->
  forall n, match emb_user tbl n, on_rule (vargs_T tbl toks) n with
            | Some f, Some g => forall vs, f vs = g vs
            | None, None => True
            | _, _ => False
            end.
Proof.
  intros H n. unfold emb_user, vargs_T. cbn [on_rule]. destruct (tbl n) as [c|] eqn:E; cbn; [|exact I].
  intros vs. rewrite (vargs_call_agree c n vs MNone (H n c E)). reflexivity.
Qed.

(* the meta wrappers are refused by the embedded path (documented), and an embedded Transformer_InPlace hands a
   plain callback a Tree instead of the children list (finding F27) *)
Lemma embedded_meta_refused f name ch : embedded_call (mkU f (Some VMeta)) name ch = None /\
                                       embedded_call (mkU f (Some VMetaInline)) name ch = None.
Proof. split; reflexivity. Qed.

Definition f27_f : ufun := fun a => match a with AList ch => VUser "list" ch | ATree d ch _ => VUser "tree" ch | _ => VNone end.
Lemma embedded_inplace_refuted :
  embedded_call_inplace (mkU f27_f None) "a" "a" [] = Some (VUser "tree" []) /\
  posthoc_call (mkU f27_f None) "a" [] MNone = VUser "list" [].
Proof. split; reflexivity. Qed.

Section Eval.
  Variable tbl : string -> option ucb.
  Variable toks : string -> option (string -> string -> value).
  Hypothesis Hfree : forall n c, tbl n = Some c -> meta_free c.

  Lemma eval_user_ext (user1 user2 : string -> option (list value -> value)) tokf mp :
    (forall n, match user1 n, user2 n with
               | Some f, Some g => forall vs, f vs = g vs
               | None, None => True
               | _, _ => False
               end) ->
    forall d, eval value VNone vkids user1 VTree tokf mp d = eval value VNone vkids user2 VTree tokf mp d.
  Proof.
    intros Hu. induction d as [ty v|r ch IH] using dtree_ind'; [reflexivity|]. cbn [eval].
    rewrite (map_ext_Forall _ _ IH). destruct (all_some _) as [vs|]; [|reflexivity].
    unfold spec_rule. destruct (spec_children value VNone vkids r mp vs) as [l|]; [|reflexivity].
    specialize (Hu (spec_name r)). destruct (user1 (spec_name r)), (user2 (spec_name r)); try contradiction; [rewrite Hu|]; reflexivity.
  Qed.

  Theorem vargs_embedded_eq_posthoc vt mp d :
    (forall n, starts_us n = true -> tbl n = None) ->
    wf_dtree mp d = true ->
    eval value VNone vkids (emb_user tbl) VTree (visit_tok (vargs_T tbl toks) vt) mp d
    = option_map (tr (vargs_T tbl toks) vt) (shape mp d).
  Proof.
    intros Hus Hwf.
    rewrite (eval_user_ext (emb_user tbl) (on_rule (vargs_T tbl toks)) _ mp (emb_user_is_vargs_T tbl toks Hfree) d).
    apply (embedded_eq_posthoc (vargs_T tbl toks) vt); [|exact Hwf].
    intros n Hn. cbn [vargs_T on_rule]. rewrite (Hus n Hn). reflexivity.
  Qed.
End Eval.
