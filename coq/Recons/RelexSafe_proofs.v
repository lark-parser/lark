(* C19, character level, per grammar: relex_safe_b (RelexSafe.v) implies the boundary condition bc_b of Relex.v for
   EVERY list of tokens the lexer itself can produce (and the literals the Reconstructor re-inserts).
     stable            : a token scanned by terminal t in front of some rest is scanned the same way in front of whatever
                         reconstruct() may write after it (S1, S2)
     blank_scanned     : the inserted blank is one ignored terminal whatever follows (S3)
     relex_safe_bc     : relex_safe_b -> Forall lexable toks -> bc_b (reconstruct_text toks) toks
     lex_with_lexable  : every token lex_with returns is lexable. *)
From Coq Require Import ZArith String Ascii List Arith Bool Lia.
From LV Require Import Base.Prelude Lex.LexerBase Lex.Lexer Lex.Lexer_proofs Recons.Recons Recons.Relex
     Recons.Relex_proofs Recons.RelexSafe.
Import ListNotations.

Lemma sprefix_spec v s : sprefix v s = true <-> exists r, s = append v r.
Proof.
  revert s. induction v as [|a v IH]; intros s; simpl.
  - split; [intros _; exists s; reflexivity|reflexivity].
  - destruct s as [|b s]; [split; [discriminate|intros (r & E); discriminate]|].
    rewrite andb_true_iff, IH. split.
    + intros (E & r & ->). apply Ascii.eqb_eq in E. subst. exists r. reflexivity.
    + intros (r & E). inversion E; subst. split; [apply Ascii.eqb_refl|exists r; reflexivity].
Qed.

Lemma sprefix_refl_app x F : sprefix x (append x F) = true.
Proof. apply sprefix_spec. exists F. reflexivity. Qed.

Lemma sprefix_app_same x w F : sprefix (append x w) (append x F) = sprefix w F.
Proof. induction x as [|a x IH]; simpl; auto. rewrite Ascii.eqb_refl. exact IH. Qed.

Lemma sprefix_len v s : sprefix v s = true -> String.length v <= String.length s.
Proof. intros H. apply sprefix_spec in H. destruct H as (r & ->). rewrite slen_app. lia. Qed.

Lemma sprefix_comparable v x F : sprefix v (append x F) = true -> sprefix v x = true \/ sprefix x v = true.
Proof.
  revert x. induction v as [|a v IH]; intros x H; simpl; auto.
  destruct x as [|b x]; [right; reflexivity|]. simpl in H. apply andb_true_iff in H. destruct H as (E & H).
  simpl. rewrite E. apply Ascii.eqb_eq in E. subst. rewrite Ascii.eqb_refl. simpl. apply IH; auto.
Qed.

Lemma sprefix_weaken v x G : sprefix v x = true -> sprefix v (append x G) = true.
Proof.
  intros H. apply sprefix_spec in H. destruct H as (r & ->). apply sprefix_spec. exists (append r G).
  apply sapp_assoc.
Qed.

Lemma sprefix_split x v : sprefix x v = true -> v = append x (sdrop (String.length x) v).
Proof.
  revert v. induction x as [|a x IH]; intros v H; simpl; [destruct v; reflexivity|].
  destruct v as [|b v]; [discriminate|]. simpl in H. apply andb_true_iff in H. destruct H as (E & H).
  apply Ascii.eqb_eq in E. subst. simpl. f_equal. apply IH; auto.
Qed.

Lemma sprefix_same_len v x G : sprefix v (append x G) = true -> String.length v = String.length x -> v = x.
Proof.
  revert x. induction v as [|a v IH]; intros x H E; destruct x as [|b x]; simpl in *; try discriminate; auto.
  apply andb_true_iff in H. destruct H as (Eab & H). apply Ascii.eqb_eq in Eab. subst. f_equal. apply IH; auto.
Qed.

Lemma sdrop_app pre s : sdrop (String.length pre) (append pre s) = s.
Proof. induction pre; simpl; auto. Qed.

Lemma sdrop_nil n : sdrop n EmptyString = EmptyString.
Proof. destruct n; reflexivity. Qed.

Lemma substring_sdrop p n s : substring p n s = substring 0 n (sdrop p s).
Proof.
  revert s. induction p as [|p IH]; intros s; simpl; [reflexivity|].
  destruct s as [|c s]; [destruct n; reflexivity|]. apply IH.
Qed.

Lemma take_drop k s : k <= String.length s ->
  s = append (substring 0 k s) (sdrop k s) /\ String.length (substring 0 k s) = k.
Proof.
  revert s. induction k as [|k IH]; intros s H; simpl.
  - destruct s; simpl; auto.
  - destruct s as [|c s]; simpl in *; [lia|]. destruct (IH s) as (E & El); [lia|]. rewrite <- E, El. auto.
Qed.

Lemma str_eqb_prefix v s : str_eqb lower false v (substring 0 (String.length v) s) = sprefix v s.
Proof.
  revert s. induction v as [|a v IH]; intros s; simpl.
  - destruct s; reflexivity.
  - destruct s as [|b s]; simpl; [reflexivity|]. rewrite IH. reflexivity.
Qed.

Lemma m_cp_str t text p : tre t = false -> tflags t = [] -> m_cp t text p = str_match_at lower t text p.
Proof.
  intros Hre Hfl. unfold m_cp, mm, str_match_at, ci_of. rewrite Hre, Hfl. simpl.
  rewrite substring_sdrop, str_eqb_prefix. reflexivity.
Qed.

Fixpoint all_in (c : ascii -> bool) (s : string) : bool :=
  match s with EmptyString => true | String a r => c a && all_in c r end.

Lemma run_le c s : run c s <= String.length s.
Proof. induction s as [|a s IH]; simpl; [lia|]. destruct (c a); lia. Qed.

Lemma run_ge_all c x G : String.length x <= run c (append x G) -> all_in c x = true.
Proof.
  induction x as [|a x IH]; simpl; auto. destruct (c a); [|lia]. intros H. apply IH. lia.
Qed.

Lemma run_all_app c x F : all_in c x = true -> run c (append x F) = String.length x + run c F.
Proof.
  induction x as [|a x IH]; simpl; auto. destruct (c a); [|discriminate]. intros H. rewrite IH; auto.
Qed.

Lemma all_in_first c x a : all_in c x = true -> first_char x = Some a -> c a = true.
Proof. destruct x; simpl; [discriminate|]. intros H E. inversion E; subst. apply andb_true_iff in H. tauto. Qed.

Lemma all_in_last c x a : all_in c x = true -> last_char x = Some a -> c a = true.
Proof.
  induction x as [|b x IH]; [discriminate|]. intros H E. simpl in H. apply andb_true_iff in H. destruct H as (Hb & H).
  destruct x as [|b' x]; [inversion E; subst; auto|]. apply IH; auto.
Qed.

Lemma in_all_ascii a : In a all_ascii.
Proof.
  unfold all_ascii. rewrite <- (ascii_nat_embedding a). apply in_map. apply in_seq.
  pose proof (nat_ascii_bounded a). lia.
Qed.

Lemma in_cls_chars rs a : in_cls rs a = true -> In a (cls_chars rs).
Proof. intros H. unfold cls_chars. apply filter_In. split; [apply in_all_ascii|exact H]. Qed.

Lemma memc_In c l : memc c l = true <-> In c l.
Proof.
  unfold memc. rewrite existsb_exists. split.
  - intros (y & Hy & E). apply Ascii.eqb_eq in E. subst. auto.
  - intros H. exists c. split; auto. apply Ascii.eqb_refl.
Qed.

Lemma first_some_ext {A B} (f g : A -> option B) l : (forall u, In u l -> f u = g u) -> first_some f l = first_some g l.
Proof.
  induction l as [|y r IH]; intros H; simpl; auto.
  rewrite (H y (or_introl eq_refl)). destruct (g y); auto. apply IH. intros u Hu. apply H. now right.
Qed.

Lemma first_char_some_last x a : first_char x = Some a -> exists b, last_char x = Some b.
Proof.
  intros H. destruct x as [|c x]; [discriminate|]. clear H. revert c.
  induction x as [|d x IH]; intros c; [exists c; reflexivity|]. destruct (IH d) as (b & E). exists b. exact E.
Qed.

Lemma nonempty_first x : x <> EmptyString -> exists a, first_char x = Some a.
Proof. destruct x; [congruence|]. intros _. eexists; reflexivity. Qed.

Lemma mm_len t s k : term_ok t = true -> mm t s = Some k -> k <> 0 /\ k <= String.length s.
Proof.
  unfold term_ok, mm. intros Hok H. apply andb_true_iff in Hok. destruct Hok as (_ & Hok).
  destruct (tre t).
  - destruct (cls_of (tvalue t)) as [rs|]; [|discriminate].
    pose proof (run_le (in_cls rs) s). destruct (run (in_cls rs) s); inversion H; subst. lia.
  - destruct (sprefix (tvalue t) s) eqn:E; inversion H; subst. split; [|apply sprefix_len; auto].
    destruct (tvalue t); [discriminate|simpl; lia].
Qed.

Section SafeProofs.
  Variable names : list string.
  Variable L : blexer.
  Notation flat := (flat L).
  Notation ign_t := (ign_t L).
  Notation live := (live L).

  Definition fs (s : string) : option (term * nat) := first_some (fun u => mm u s) flat.

  Lemma scan_fs text p : scan m_cp text (lx_mres L) p = fs (sdrop p text).
  Proof. rewrite scan_concat. reflexivity. Qed.

  Definition lexw (t : term) (x : string) : Prop :=
    x <> EmptyString /\ exists G, fs (append x G) = Some (t, String.length x) /\ ign_t t = false.
  Definition lexable (tok : nat * string) : Prop :=
    exists t, lexw t (snd tok) /\ name_index names (report lower m_cp (lx_terms L) t (snd tok)) = Some (fst tok).

  Hypothesis Hok : forallb term_ok flat = true.

  Lemma lexw_live t x : lexw t x -> In t live.
  Proof.
    intros (_ & G & H & Hi). apply first_some_spec in H. destruct H as (pre & post & E & _).
    unfold RelexSafe.live. apply filter_In. split; [|rewrite Hi; reflexivity].
    unfold RelexSafe.flat in *. rewrite E. apply in_or_app. right. now left.
  Qed.

  Lemma lexw_shape t x : lexw t x ->
    (tre t = true /\ exists rs, cls_of (tvalue t) = Some rs /\ all_in (in_cls rs) x = true) \/
    (tre t = false /\ tvalue t = x).
  Proof.
    intros (Hne & G & H & _). apply first_some_spec in H. destruct H as (pre & post & _ & Hm & _).
    unfold mm in Hm. destruct (tre t).
    - left. split; auto. destruct (cls_of (tvalue t)) as [rs|]; [|discriminate]. exists rs. split; auto.
      apply (run_ge_all _ x G). destruct (run (in_cls rs) (append x G)); inversion Hm. lia.
    - right. split; auto. destruct (sprefix (tvalue t) (append x G)) eqn:E; inversion Hm.
      eapply sprefix_same_len; eauto.
  Qed.

  Lemma lexw_chars t x : lexw t x ->
    (exists a, last_char x = Some a /\ In a (lasts t)) /\ (exists b, first_char x = Some b /\ In b (firsts t)).
  Proof.
    intros H. pose proof (lexw_shape _ _ H) as Hs. destruct H as (Hne & _).
    destruct (nonempty_first x Hne) as (b & Eb). destruct (first_char_some_last x b Eb) as (a & Ea).
    destruct Hs as [(Hre & rs & Ec & Hall)|(Hre & Ev)].
    - split; [exists a|exists b]; split; auto; unfold lasts, firsts; rewrite Hre, Ec; apply in_cls_chars.
      + eapply all_in_last; eauto.
      + eapply all_in_first; eauto.
    - split; [exists a|exists b]; split; auto; unfold lasts, firsts; rewrite Hre, Ev, ?Ea, ?Eb; now left.
  Qed.

  (* S2 as a statement about splits of the scanner list *)
  Lemma s2_go_spec l : forall pre0, s2_go L pre0 l = true ->
    forall a t b, l = a ++ t :: b -> ign_t t = false -> forall u, In u (pre0 ++ a) -> loser_ok L u t = true.
  Proof.
    induction l as [|y l IH]; intros pre0 H a t b E Hi u Hu; [destruct a; discriminate|].
    simpl in H. apply andb_true_iff in H. destruct H as (Hy & Hrest).
    destruct a as [|y' a]; simpl in E; inversion E; subst.
    - rewrite app_nil_r in Hu. unfold RelexSafe.ign_t in *. rewrite Hi in Hy. simpl in Hy.
      rewrite forallb_forall in Hy. auto.
    - apply (IH (pre0 ++ [y']) Hrest a t b eq_refl Hi). rewrite <- app_assoc. exact Hu.
  Qed.

  Hypothesis H1 : s1_b L = true.
  Hypothesis H2 : s2_b L = true.

  Theorem stable t x F : lexw t x ->
    (F = EmptyString \/ exists ch F', F = String ch F' /\ In ch (next_firsts L t)) ->
    fs (append x F) = Some (t, String.length x).
  Proof using Hok H1 H2. (* stated under the conditions of relex_safe_b; term_ok itself matters in lex_with_lexable *)
    intros Hw HF. pose proof (lexw_shape _ _ Hw) as Hs. pose proof (lexw_live _ _ Hw) as Hlive.
    destruct Hw as (Hne & G & Hfs & Hi).
    apply first_some_spec in Hfs. destruct Hfs as (pre & post & Eflat & Hm & Hpre).
    unfold fs. rewrite Eflat. apply first_some_intro.
    - (* terminals tried before t still do not match *)
      intros u Hu. specialize (Hpre u Hu).
      assert (Hlo : loser_ok L u t = true).
      { apply (s2_go_spec flat [] H2 pre t post Eflat Hi). exact Hu. }
      unfold loser_ok in Hlo. unfold mm in *. destruct (tre u) eqn:Eu.
      + (* u class-plus: it did not match the first character of x *)
        destruct (cls_of (tvalue u)) as [rs'|]; auto.
        destruct x as [|b x]; [congruence|]. simpl in *. destruct (in_cls rs' b); [discriminate|reflexivity].
      + simpl in Hlo. destruct (sprefix (tvalue u) (append x G)) eqn:Epg; [discriminate|].
        destruct (sprefix (tvalue u) (append x F)) eqn:Epf; auto. exfalso.
        destruct Hs as [(Hre & rs & Ec & Hall)|(Hre & Ev)]; rewrite Hre in Hlo.
        * rewrite Ec in Hlo. destruct (first_char (tvalue u)) as [c0|] eqn:Ec0; [|discriminate].
          destruct (tvalue u) as [|c0' v']; [discriminate|]. inversion Ec0; subst c0'.
          destruct x as [|b x]; [congruence|]. simpl in Epf, Hall. apply andb_true_iff in Epf, Hall.
          destruct Epf as (Eb & _). apply Ascii.eqb_eq in Eb. subst b. destruct Hall as (Hb & _).
          rewrite Hb in Hlo. discriminate.
        * rewrite Ev in Hlo. destruct (sprefix x (tvalue u)) eqn:Exu.
          -- pose proof (sprefix_split _ _ Exu) as Esp. set (w := sdrop (String.length x) (tvalue u)) in *.
             destruct w as [|c0 w'] eqn:Ew.
             ++ rewrite sapp_nil_r in Esp. rewrite Esp, sprefix_refl_app in Epg. discriminate.
             ++ simpl in Hlo. rewrite Esp, sprefix_app_same in Epf.
                destruct HF as [->|(ch & F' & -> & Hch)]; [discriminate|].
                simpl in Epf. apply andb_true_iff in Epf. destruct Epf as (Ecc & _). apply Ascii.eqb_eq in Ecc. subst ch.
                apply memc_In in Hch. rewrite Hch in Hlo. discriminate.
          -- destruct (sprefix_comparable _ _ _ Epf) as [Hp|Hp]; [|congruence].
             rewrite (sprefix_weaken _ _ G Hp) in Epg. discriminate.
    - (* t still matches with the same length *)
      unfold mm in *. destruct Hs as [(Hre & rs & Ec & Hall)|(Hre & Ev)]; rewrite Hre in *.
      + rewrite Ec in *. rewrite (run_all_app _ _ _ Hall).
        assert (HrF : run (in_cls rs) F = 0).
        { destruct HF as [->|(ch & F' & -> & Hch)]; [reflexivity|]. simpl.
          unfold s1_b in H1. rewrite forallb_forall in H1. specialize (H1 t Hlive). rewrite Hre, Ec in H1. simpl in H1.
          rewrite forallb_forall in H1. specialize (H1 ch Hch). apply negb_true_iff in H1. rewrite H1. reflexivity. }
        rewrite HrF, Nat.add_0_r. destruct x; [congruence|reflexivity].
      + rewrite Ev, sprefix_refl_app. reflexivity.
  Qed.

  Theorem blank_scanned F : blank_ok L = true -> exists tb, fs (String " "%char F) = Some (tb, 1) /\ ign_t tb = true.
  Proof.
    unfold blank_ok. intros H. apply andb_true_iff in H. destruct H as (Hall & Hb).
    assert (E : fs (String " "%char F) = fs " "%string).
    { unfold fs. apply first_some_ext. intros u Hu. rewrite forallb_forall in Hall. specialize (Hall u Hu).
      unfold mm. destruct (tre u).
      - destruct (cls_of (tvalue u)) as [rs|]; auto. simpl. apply negb_true_iff in Hall. rewrite Hall. reflexivity.
      - destruct (tvalue u) as [|c v] eqn:Ev; [discriminate|]. simpl in Hall. simpl.
        destruct (Ascii.eqb c " "%char) eqn:Ec; simpl in *.
        + apply String.eqb_eq in Hall. inversion Hall; subst. reflexivity.
        + reflexivity. }
    rewrite E. unfold fs. destruct (first_some (fun u => mm u " "%string) flat) as [[tb k]|]; [|discriminate].
    destruct k as [|[|k]]; try discriminate. exists tb. auto.
  Qed.

  Hypothesis H3 : s3_b L = true.

  Lemma In_all_firsts t b : In t live -> In b (firsts t) -> In b (all_firsts L).
  Proof. intros Ht Hb. unfold all_firsts. apply in_flat_map. exists t. auto. Qed.

  Lemma need_space_chars prev x a b : last_char prev = Some a -> first_char x = Some b ->
    need_space prev x = is_id_continue a && is_id_continue b.
  Proof. intros Ea Eb. unfold need_space. rewrite Ea, Eb. reflexivity. Qed.

  Lemma follow_char t x rest : lexw t x -> Forall lexable rest ->
    join_sp x (map snd rest) = EmptyString \/
    exists ch F', join_sp x (map snd rest) = String ch F' /\ In ch (next_firsts L t).
  Proof.
    intros Hw Hr. destruct rest as [|[n' x'] rest]; [left; reflexivity|right].
    inversion Hr as [|? ? (t' & Hw' & _) _]; subst. simpl in Hw'.
    destruct (lexw_chars _ _ Hw) as ((a & Ea & Ha) & _). destruct (lexw_chars _ _ Hw') as (_ & (b & Eb & Hb)).
    pose proof (In_all_firsts _ _ (lexw_live _ _ Hw') Hb) as Hbf.
    assert (Hin : In (nextc a b) (next_firsts L t)).
    { unfold next_firsts. apply in_flat_map. exists a. split; auto. apply in_map; auto. }
    cbn [map snd join_sp]. rewrite (need_space_chars _ _ _ _ Ea Eb). unfold nextc in Hin.
    destruct (is_id_continue a && is_id_continue b).
    - eexists _, _. split; [reflexivity|exact Hin].
    - destruct x' as [|c x'']; [discriminate|]. inversion Eb; subst. eexists _, _. split; [reflexivity|exact Hin].
  Qed.

  Theorem bc_gen text : forall toks pre prev,
    text = append pre (join_sp prev (map snd toks)) ->
    (prev = EmptyString \/ exists tp, lexw tp prev) ->
    Forall lexable toks ->
    bc_b m_cp names L text (String.length pre) prev toks = true.
  Proof.
    induction toks as [|[n x] rest IH]; intros pre prev Et Hprev Hl; [reflexivity|].
    apply Forall_cons_iff in Hl. destruct Hl as ((t & Hw & Hn) & Hrest). simpl in Hw, Hn.
    cbn [map snd join_sp] in Et. cbn [bc_b].
    set (sp := if need_space prev x then " "%string else EmptyString) in *.
    assert (Et2 : text = append (append pre sp) (append x (join_sp x (map snd rest)))).
    { rewrite Et, sapp_assoc. reflexivity. }
    assert (Eq : (if need_space prev x then S (String.length pre) else String.length pre) = String.length (append pre sp)).
    { unfold sp. rewrite slen_app. destruct (need_space prev x); simpl; lia. }
    apply andb_true_iff. split.
    - (* the blank *)
      destruct (need_space prev x) eqn:Ens; auto.
      rewrite scan_fs. rewrite Et. rewrite sdrop_app. unfold sp. simpl.
      assert (Hb : blank_ok L = true).
      { unfold s3_b in H3. apply orb_true_iff in H3. destruct H3 as [Hn0|]; auto. exfalso.
        apply negb_true_iff in Hn0. unfold need_any in Hn0.
        destruct Hprev as [->|(tp & Hwp)]; [discriminate|].
        destruct (lexw_chars _ _ Hwp) as ((a & Ea & Ha) & _). destruct (lexw_chars _ _ Hw) as (_ & (b & Eb & Hb)).
        rewrite (need_space_chars _ _ _ _ Ea Eb) in Ens. apply andb_true_iff in Ens. destruct Ens as (Ia & Ib).
        assert (X1 : existsb (fun t0 => existsb is_id_continue (lasts t0)) live = true).
        { apply existsb_exists. exists tp. split; [eapply lexw_live; eauto|]. apply existsb_exists. exists a; auto. }
        assert (X2 : existsb is_id_continue (all_firsts L) = true).
        { apply existsb_exists. exists b. split; auto. eapply In_all_firsts; eauto. eapply lexw_live; eauto. }
        rewrite X1, X2 in Hn0. discriminate. }
      destruct (blank_scanned (append x (join_sp x (map snd rest))) Hb) as (tb & Es & Hi). rewrite Es. exact Hi.
    - rewrite Eq. rewrite scan_fs. rewrite Et2 at 1. rewrite sdrop_app.
      rewrite (stable t x _ Hw (follow_char t x rest Hw Hrest)).
      destruct Hw as (Hne & G & Hfs & Hi).
      rewrite Nat.eqb_refl. unfold RelexSafe.ign_t in Hi. rewrite Hi, Hn. simpl. rewrite Nat.eqb_refl.
      assert (Hx0 : Nat.eqb (String.length x) 0 = false) by (destruct x; [congruence|reflexivity]).
      rewrite Hx0. simpl.
      replace (String.length (append pre sp) + String.length x) with (String.length (append (append pre sp) x))
        by (rewrite (slen_app (append pre sp)); reflexivity).
      apply IH; auto.
      + rewrite Et2. symmetry. apply sapp_assoc.
      + right. exists t. split; auto. exists G. auto.
  Qed.
End SafeProofs.

Lemma relex_safe_parts names L lits : relex_safe_b names L lits = true ->
  forallb term_ok (flat L) = true /\ s1_b L = true /\ s2_b L = true /\ s3_b L = true /\ s4_b names L lits = true.
Proof.
  unfold relex_safe_b. intros H. apply andb_true_iff in H. destruct H as (H & H4).
  apply andb_true_iff in H. destruct H as (H & H3). apply andb_true_iff in H. destruct H as (H & H2).
  apply andb_true_iff in H. destruct H as (Hok & H1). auto.
Qed.

Theorem relex_safe_bc names L lits toks :
  relex_safe_b names L lits = true -> Forall (lexable names L) toks ->
  bc_b m_cp names L (reconstruct_text toks) 0 EmptyString toks = true.
Proof.
  intros H Hl. destruct (relex_safe_parts _ _ _ H) as (Hok & H1 & H2 & H3 & _).
  apply (bc_gen names L Hok H1 H2 H3 (reconstruct_text toks) toks EmptyString EmptyString); auto.
Qed.

Lemma lookup_lit_In tbl n v : lookup_lit tbl n = Some v -> In (n, v) tbl.
Proof.
  induction tbl as [|[k w] r IH]; simpl; [discriminate|].
  destruct (Nat.eqb_spec k n); [intros E; inversion E; subst; now left|intros H; right; auto].
Qed.

Lemma onat_eqb_eq a b : onat_eqb a b = true -> a = b.
Proof.
  destruct a, b; simpl; try discriminate; auto. intros H. apply Nat.eqb_eq in H. subst. reflexivity.
Qed.

(* the literals the Reconstructor re-inserts are lexable tokens (S4) *)
Theorem lits_lexable names L lits n v :
  relex_safe_b names L lits = true -> lookup_lit lits n = Some v -> lexable names L (n, v).
Proof.
  intros H Hl. destruct (relex_safe_parts _ _ _ H) as (_ & _ & _ & _ & H4).
  unfold s4_b in H4. rewrite forallb_forall in H4. specialize (H4 _ (lookup_lit_In _ _ _ Hl)).
  unfold scans_b in H4. simpl in H4. apply andb_true_iff in H4. destruct H4 as (Hne & H4).
  destruct (first_some (fun u => mm u (append v EmptyString)) (flat L)) as [[t k]|] eqn:E; [|discriminate].
  apply andb_true_iff in H4. destruct H4 as (H4 & Hn). apply andb_true_iff in H4. destruct H4 as (Hk & Hi).
  apply Nat.eqb_eq in Hk. subst k. apply negb_true_iff in Hi. apply onat_eqb_eq in Hn.
  exists t. simpl. split; auto. split.
  - intros ->. discriminate.
  - exists EmptyString. split; auto.
Qed.

Section LexLexable.
  Variable names : list string.
  Variable L : blexer.
  Hypothesis Hok : forallb term_ok (flat L) = true.
  Variable src : string.

  Definition raw_good (r : rawtok) : Prop := scan m_cp src (lx_mres L) (rstart r) = Some (rterm r, rlen r).

  Lemma lex_raw_good fuel : forall p rs e, lex_raw m_cp src fuel (lx_mres L) p = (rs, e) -> Forall raw_good rs.
  Proof.
    induction fuel as [|f IH]; intros p rs e H; simpl in H.
    - destruct (String.length src <=? p); inversion H; constructor.
    - destruct (String.length src <=? p); [inversion H; constructor|].
      destruct (scan m_cp src (lx_mres L) p) as [[t k]|] eqn:Es; [|inversion H; constructor].
      destruct (lex_raw m_cp src f (lx_mres L) (p + k)) as [ts e'] eqn:Er. inversion H; subst.
      constructor; [exact Es|eapply IH; eauto].
  Qed.

  Lemma raw_lexable r n : raw_good r -> ignored (lx_ign L) r = false ->
    name_index names (report lower m_cp (lx_terms L) (rterm r) (substring (rstart r) (rlen r) src)) = Some n ->
    lexable names L (n, substring (rstart r) (rlen r) src).
  Proof.
    unfold raw_good. intros Hs Hi Hn. rewrite scan_fs in Hs. set (s := sdrop (rstart r) src) in *.
    pose proof Hs as Hs'. apply first_some_spec in Hs'. destruct Hs' as (pre & post & Ef & Hm & _).
    assert (Hto : term_ok (rterm r) = true).
    { rewrite forallb_forall in Hok. apply Hok. rewrite Ef. apply in_or_app. right. now left. }
    destruct (mm_len _ _ _ Hto Hm) as (Hk0 & Hk). destruct (take_drop _ _ Hk) as (Esplit & Elen).
    exists (rterm r). simpl. rewrite substring_sdrop. fold s. split; [|rewrite substring_sdrop in Hn; exact Hn].
    split.
    - intros E. rewrite E in Elen. simpl in Elen. lia.
    - exists (sdrop (rlen r) s). rewrite <- Esplit, Elen. split; auto.
  Qed.

  Lemma emit_lexable : forall rs toks, Forall raw_good rs ->
    conv_toks names src (emit lower m_cp src (lx_terms L) (lx_ign L) rs) = Some toks -> Forall (lexable names L) toks.
  Proof.
    induction rs as [|r rs IH]; intros toks Hg H; unfold emit in *; simpl in H.
    - inversion H. constructor.
    - inversion Hg; subst. destruct (ignored (lx_ign L) r) eqn:Ei; simpl in H; [apply IH; auto|].
      destruct (name_index names _) as [n|] eqn:En; [|discriminate].
      destruct (conv_toks names src _) as [l|] eqn:Ec; [|discriminate]. inversion H; subst.
      constructor; [|apply IH; auto]. apply raw_lexable; auto.
  Qed.

  Theorem lex_with_lexable toks : lex_with m_cp names L src = Some toks -> Forall (lexable names L) toks.
  Proof.
    unfold lex_with, lex_from. destruct (lex_raw m_cp src _ (lx_mres L) 0) as [rs e] eqn:Er.
    destruct e; try discriminate. intros H. apply (emit_lexable rs toks); [eapply lex_raw_good; eauto|exact H].
  Qed.
End LexLexable.
