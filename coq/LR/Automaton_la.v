(* la_closure: the model's digraph (hence Read, Follow and the look-ahead
   sets) is the LEAST solution of the DeRemer-Pennello equations
       F x = G x  U  U { F y | x R y }.
   |X| rounds of simultaneous iteration suffice (shortest witnesses are cycle-free paths). *)
From Coq Require Import List Arith Bool Lia.
From LV Require Import Cfg.Grammar LR.Driver LR.Automaton LR.Automaton_proofs LR.Automaton_wf.
Import ListNotations.

Lemma iter_S {A} (f : A -> A) k x : iter (S k) f x = f (iter k f x).
Proof. revert x; induction k; simpl; intros; auto. now rewrite <- IHk. Qed.

Lemma last_app_cons {A} (a : list A) x b d : last (a ++ x :: b) d = last (x :: b) d.
Proof. induction a as [|y a IH]; auto. simpl app. rewrite <- IH. simpl. destruct (a ++ x :: b) eqn:E; auto. destruct a; discriminate. Qed.

Lemma NoDup_app_r {A} (a b : list A) : NoDup (a ++ b) -> NoDup b.
Proof. induction a; simpl; auto. intros H. inversion H; auto. Qed.

Lemma in_combine_nth {A B} (l1 : list A) (l2 : list B) a b da db :
  length l1 = length l2 ->
  (In (a, b) (combine l1 l2) <-> exists i, i < length l1 /\ nth i l1 da = a /\ nth i l2 db = b).
Proof.
  revert l2; induction l1 as [|x l1 IH]; destruct l2 as [|y l2]; simpl; intros HL; try discriminate.
  - split; [tauto|]. intros (i & Hi & _). lia.
  - rewrite IH by lia. split.
    + intros [E|(i & Hi & H1 & H2)].
      * inversion E; subst. exists 0. repeat split; auto. lia.
      * exists (S i). repeat split; auto. lia.
    + intros (i & Hi & H1 & H2). destruct i.
      * left. congruence.
      * right. exists i. repeat split; auto. lia.
Qed.

Section Digraph.
  Variable nts : list ntrans.
  Variable R : list (list ntrans).
  Variable G0 : list (list nat).
  Let n := length nts.
  Hypothesis HR : length R = n.
  Hypothesis HG : length G0 = n.

  Definition Gs (i : nat) : list nat := nth i G0 [].
  Definition Rs (i : nat) : list ntrans := nth i R [].
  Definition edge (i j : nat) : Prop := i < n /\ exists y, In y (Rs i) /\ index_of pair_eqb y nts = Some j.
  Definition M (F : list (list nat)) (i : nat) (t : nat) : Prop := In t (nth i F []).

  Lemma edge_lt i j : edge i j -> i < n /\ j < n.
  Proof. intros (Hi & y & _ & Hy). split; auto. apply (index_of_nth _ pair_eqb_eq _ _ _ Hy). Qed.

  Lemma step_length F : length (digraph_step nts R G0 F) = n.
  Proof. unfold digraph_step. rewrite map_length, combine_length, HR, HG. apply Nat.min_id. Qed.

  Lemma step_M F i t :
    M (digraph_step nts R G0 F) i t <->
    i < n /\ (In t (Gs i) \/ exists j, edge i j /\ M F j t).
  Proof.
    unfold M, digraph_step. destruct (lt_dec i n) as [Hi|Hi].
    - set (f := fun rg : list ntrans * list nat => dedup_nat (snd rg ++ flat_map (lookup_F nts F) (fst rg))).
      rewrite (nth_indep _ [] (f ([], []))) by (rewrite map_length, combine_length, HR, HG, Nat.min_id; exact Hi).
      rewrite map_nth, combine_nth by lia. unfold f. simpl.
      rewrite dedup_nat_In, in_app_iff, in_flat_map. fold (Gs i) (Rs i). split.
      + intros [H|(y & Hy & H)]; split; auto. right.
        unfold lookup_F in H. destruct (index_of pair_eqb y nts) as [j|] eqn:E; [|contradiction].
        exists j. split; auto. split; auto. exists y; auto.
      + intros (_ & [H|(j & (_ & y & Hy & E) & H)]); auto. right. exists y. split; auto.
        unfold lookup_F. now rewrite E.
    - split; [|tauto]. rewrite nth_overflow; [contradiction|].
      rewrite map_length, combine_length, HR, HG, Nat.min_id. lia.
  Qed.

  Inductive W : nat -> nat -> nat -> Prop :=
  | W0 k i t : i < n -> In t (Gs i) -> W k i t
  | WS k i j t : edge i j -> W k j t -> W (S k) i t.

  Lemma iter_M k : forall i t, M (iter k (digraph_step nts R G0) G0) i t <-> W k i t.
  Proof.
    induction k; intros i t.
    - simpl. unfold M. split.
      + intros H. apply W0; auto. destruct (lt_dec i n); auto.
        rewrite nth_overflow in H; [contradiction|lia].
      + intros H. inversion H; subst. assumption.
    - rewrite iter_S, step_M. split.
      + intros (Hi & [H|(j & He & H)]); [now apply W0|]. apply WS with j; auto. now apply IHk.
      + intros H. inversion H; subst.
        * split; auto.
        * split; [apply (edge_lt _ _ H1)|]. right. exists j. split; auto. now apply IHk.
  Qed.

  Inductive wpath : list nat -> Prop :=
  | wp1 i : i < n -> wpath [i]
  | wpS i j p : edge i j -> wpath (j :: p) -> wpath (i :: j :: p).

  Lemma wpath_suffix a : forall i b, wpath (a ++ i :: b) -> wpath (i :: b).
  Proof.
    induction a as [|x a IH]; simpl; intros i b H; auto.
    inversion H; subst.
    - destruct a; discriminate.
    - apply IH. rewrite <- H1. exact H3.
  Qed.

  Lemma wpath_lt p : wpath p -> forall x, In x p -> x < n.
  Proof.
    induction 1; intros x Hx.
    - destruct Hx as [<-|[]]; auto.
    - destruct Hx as [<-|Hx]; auto. apply (edge_lt _ _ H).
  Qed.

  (* a witness gives a path without repeated nodes to a node whose G holds t: where the path built so
     far comes back to i, it is cut there *)
  Lemma W_simple_path k i t : W k i t ->
    exists p, wpath (i :: p) /\ NoDup (i :: p) /\ In t (Gs (last (i :: p) 0)).
  Proof.
    induction 1 as [k i t Hi Ht | k i j t He _ (p & Hp & Hnd & Ht)].
    - exists []. split; [now constructor|]. split; [|exact Ht]. constructor; [intros []|constructor].
    - destruct (in_dec Nat.eq_dec i (j :: p)) as [Hin|Hnin].
      + apply in_split in Hin. destruct Hin as (a & b & E). rewrite E in *. exists b.
        split; [exact (wpath_suffix a _ _ Hp)|]. split; [exact (NoDup_app_r a _ Hnd)|].
        now rewrite last_app_cons in Ht.
      + exists (j :: p). split; [now apply wpS|]. split; [now constructor|exact Ht].
  Qed.

  Lemma path_W p : forall i t, wpath (i :: p) -> In t (Gs (last (i :: p) 0)) -> W (length p) i t.
  Proof.
    induction p as [|j p IH]; intros i t H Ht.
    - inversion H; subst. now apply W0.
    - inversion H; subst. simpl length. apply WS with j; auto.
  Qed.

  Lemma W_mono k i t : W k i t -> forall k', k <= k' -> W k' i t.
  Proof.
    induction 1; intros k' Hk.
    - now apply W0.
    - destruct k'; [lia|]. apply WS with j; auto. apply IHW. lia.
  Qed.

  Lemma W_bound k i t : W k i t -> W (n - 1) i t.
  Proof.
    intros H. destruct (W_simple_path _ _ _ H) as (p' & Hp' & Hnd & Ht).
    apply (W_mono (length p')); [now apply path_W|].
    assert (Hlen : length (i :: p') <= length (seq 0 n)).
    { apply NoDup_incl_length; auto. intros x Hx. apply in_seq. pose proof (wpath_lt _ Hp' x Hx). lia. }
    rewrite seq_length in Hlen. simpl in Hlen. lia.
  Qed.

  Definition Fd : list (list nat) := digraph nts R G0.

  Lemma Fd_W i t : M Fd i t <-> exists k, W k i t.
  Proof.
    unfold Fd, digraph. fold n. rewrite iter_M. split; [eauto|].
    intros (k & H). apply (W_mono (n - 1)); [now apply (W_bound k)|lia].
  Qed.

  Theorem digraph_solution i t :
    M Fd i t <-> i < n /\ (In t (Gs i) \/ exists j, edge i j /\ M Fd j t).
  Proof.
    rewrite Fd_W. split.
    - intros (k & H). inversion H; subst.
      + split; auto.
      + split; [apply (edge_lt _ _ H0)|]. right. exists j. split; auto. apply Fd_W. eauto.
    - intros (Hi & [H|(j & He & H)]).
      + exists 0. now apply W0.
      + apply Fd_W in H. destruct H as (k & H). exists (S k). now apply WS with j.
  Qed.

  Theorem digraph_least (Phi : nat -> nat -> Prop) :
    (forall i t, i < n -> In t (Gs i) -> Phi i t) ->
    (forall i j t, edge i j -> Phi j t -> Phi i t) ->
    forall i t, M Fd i t -> Phi i t.
  Proof.
    intros H1 H2 i t H. apply Fd_W in H. destruct H as (k & H).
    induction H; eauto.
  Qed.
End Digraph.

Lemma digraph_length nts R G0 : length R = length nts -> length G0 = length nts ->
  length (digraph nts R G0) = length nts.
Proof.
  intros HR HG. unfold digraph.
  assert (G : forall k F, length F = length nts -> length (iter k (digraph_step nts R G0) F) = length nts).
  { induction k; simpl; auto. intros F HF. apply IHk. now apply step_length. }
  now apply G.
Qed.

Definition least_solution (nts : list ntrans) (R : list (list ntrans)) (G0 F : list (list nat)) : Prop :=
  (forall i t, M F i t <-> i < length nts /\ (In t (Gs G0 i) \/ exists j, edge nts R i j /\ M F j t)) /\
  (forall Phi : nat -> nat -> Prop,
     (forall i t, i < length nts -> In t (Gs G0 i) -> Phi i t) ->
     (forall i j t, edge nts R i j -> Phi j t -> Phi i t) ->
     forall i t, M F i t -> Phi i t).

Theorem digraph_least_solution nts R G0 :
  length R = length nts -> length G0 = length nts -> least_solution nts R G0 (digraph nts R G0).
Proof.
  intros HR HG. split.
  - intros i t. apply (digraph_solution nts R G0 HR HG).
  - intros Phi. apply (digraph_least nts R G0 HR HG).
Qed.

(* la_closure: Read is the least solution over [reads] from DR, Follow the least solution
   over [includes] from Read, and LA(q, r) is the union of Follow over lookback *)
Theorem la_closure rules roots tEND A :
  let rel := compute_relations rules roots tEND A in
  least_solution (r_nts rel) (r_reads rel) (r_dr rel) (read_sets rel) /\
  least_solution (r_nts rel) (r_includes rel) (read_sets rel) (follow_sets rel) /\
  forall q s r, In (q, s, r) (la_triples rel) <->
                exists i, i < length (r_nts rel) /\ In (q, r) (nth i (r_lookback rel) []) /\ M (follow_sets rel) i s.
Proof.
  intros rel.
  assert (L1 : length (r_reads rel) = length (r_nts rel)) by apply map_length.
  assert (L2 : length (r_dr rel) = length (r_nts rel)) by apply map_length.
  assert (L3 : length (r_includes rel) = length (r_nts rel)) by apply map_length.
  assert (L4 : length (r_lookback rel) = length (r_nts rel)) by apply map_length.
  assert (L5 : length (read_sets rel) = length (r_nts rel)) by (apply digraph_length; auto).
  assert (L6 : length (follow_sets rel) = length (r_nts rel)) by (apply digraph_length; auto).
  split; [|split].
  - apply digraph_least_solution; auto.
  - apply digraph_least_solution; auto.
  - intros q s r. unfold la_triples. rewrite la_triples_of_In. split.
    + intros (lb & f & Hc & Hlb & Hs).
      apply (in_combine_nth _ _ _ _ [] []) in Hc; [|lia]. destruct Hc as (i & Hi & <- & <-).
      exists i. rewrite L4 in Hi. auto.
    + intros (i & Hi & Hlb & Hs). exists (nth i (r_lookback rel) []), (nth i (follow_sets rel) []).
      split; auto. apply (in_combine_nth _ _ _ _ [] []); [lia|]. exists i. rewrite L4. auto.
Qed.
