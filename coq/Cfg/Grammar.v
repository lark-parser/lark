(* Context-free grammars over numbered terminals / non-terminals, and derivability as a
   relation between symbol lists and token lists.  Shared by the parser models. *)
From Coq Require Import List Arith Lia Bool.
Import ListNotations.

Inductive symbol := T (t : nat) | NT (a : nat).

Definition symbol_eq_dec : forall x y : symbol, {x = y} + {x <> y}.
Proof. decide equality; apply Nat.eq_dec. Defined.

Definition symbol_eqb (x y : symbol) : bool :=
  match x, y with
  | T a, T b => Nat.eqb a b
  | NT a, NT b => Nat.eqb a b
  | _, _ => false
  end.

Lemma symbol_eqb_spec x y : reflect (x = y) (symbol_eqb x y).
Proof.
  destruct x as [a|a], y as [b|b]; simpl; try (constructor; congruence);
    destruct (Nat.eqb_spec a b); constructor; congruence.
Qed.

(* Any boolean function with the unfolding equation of the pointwise comparison by symbol_eqb decides equality of
   symbol lists (the models define that comparison more than once). *)
Lemma symbols_eqb_spec (eqb : list symbol -> list symbol -> bool) :
  (forall a b, eqb a b = match a, b with
                         | [], [] => true
                         | x :: a', y :: b' => symbol_eqb x y && eqb a' b'
                         | _, _ => false
                         end) ->
  forall a b, eqb a b = true <-> a = b.
Proof.
  intros E. induction a as [|x a IH]; intros [|y b]; rewrite E; try (split; congruence).
  rewrite andb_true_iff, IH.
  destruct (symbol_eqb_spec x y) as [->|N]; split; try (intros [F _]; discriminate).
  - intros [_ ->]; reflexivity.
  - intros H; inversion H; auto.
  - intros H; inversion H; contradiction.
Qed.

Record rule := mkRule { lhs : nat; rhs : list symbol }.
Definition grammar := list rule.

Definition rule_eq_dec : forall x y : rule, {x = y} + {x <> y}.
Proof. decide equality; [apply (list_eq_dec symbol_eq_dec) | apply Nat.eq_dec]. Defined.

Section Derives.
  Variable G : grammar.
  Variable tok : Type.
  (* tmatch t k: token k is an occurrence of terminal t *)
  Variable tmatch : nat -> tok -> bool.

  (* ss derives w: the sentential form ss rewrites to the token string w *)
  Inductive derives : list symbol -> list tok -> Prop :=
  | d_nil : derives [] []
  | d_term t k ss w : tmatch t k = true -> derives ss w -> derives (T t :: ss) (k :: w)
  | d_nt a r ss w1 w2 : In r G -> lhs r = a -> derives (rhs r) w1 -> derives ss w2 ->
      derives (NT a :: ss) (w1 ++ w2).

  Lemma derives_app a b u v : derives a u -> derives b v -> derives (a ++ b) (u ++ v).
  Proof.
    induction 1; intros; simpl; auto.
    - constructor; auto.
    - rewrite <- app_assoc. econstructor; eauto.
  Qed.

  Lemma derives_split a b w :
    derives (a ++ b) w -> exists u v, w = u ++ v /\ derives a u /\ derives b v.
  Proof.
    revert w; induction a as [|x a IH]; simpl; intros w H.
    - exists [], w; repeat split; auto; constructor.
    - inversion H as [|t k ss w' Hm Hd|a0 r ss w1 w2 Hin Hl Hd1 Hd2]; subst.
      + destruct (IH _ Hd) as (u & v & -> & Hu & Hv).
        exists (k :: u), v; repeat split; auto. constructor; auto.
      + destruct (IH _ Hd2) as (u & v & -> & Hu & Hv).
        exists (w1 ++ u), v. rewrite app_assoc. repeat split; auto. econstructor; eauto.
  Qed.

  Lemma derives_rule r w : In r G -> derives (rhs r) w -> derives [NT (lhs r)] w.
  Proof. intros Hr Hd. rewrite <- (app_nil_r w). eapply d_nt; eauto. constructor. Qed.

  Lemma derives_nt_inv a w : derives [NT a] w -> exists r, In r G /\ lhs r = a /\ derives (rhs r) w.
  Proof.
    inversion 1 as [| |a' r ss w1 w2 Hr Hl Hd1 Hd2]; subst. inversion Hd2; subst.
    rewrite app_nil_r. eauto.
  Qed.

  (* the language of the grammar from a start symbol *)
  Definition sentence (start : nat) (w : list tok) : Prop := derives [NT start] w.
End Derives.
