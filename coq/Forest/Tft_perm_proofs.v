(* TreeForestTransformer(resolve_ambiguity=False) on acyclic forests: expanding the `_ambig` nodes of its result
   yields a PERMUTATION of the unshaped derivations of the forest (no loss and no duplication). *)
From Coq Require Import ZArith List Bool String Lia Permutation.
From LV Require Import Forest.Sppf Forest.Sppf_proofs Gen.ForestSortKey Forest.Prio Forest.Prio_proofs Forest.Tft.
Import ListNotations.

Lemma flat_map_perm_ext {A B} (f g : A -> list B) l :
  (forall a, In a l -> Permutation (f a) (g a)) -> Permutation (flat_map f l) (flat_map g l).
Proof.
  induction l as [|a r IH]; intros H; [constructor|]. cbn [flat_map]. apply Permutation_app.
  - apply H. left. reflexivity.
  - apply IH. intros b Hb. apply H. right. exact Hb.
Qed.

Lemma flat_map_map' {A B C} (f : A -> B) (g : B -> list C) l :
  flat_map g (map f l) = flat_map (fun a => g (f a)) l.
Proof. induction l as [|a r IH]; [reflexivity|]. cbn. rewrite IH. reflexivity. Qed.

Lemma map_flat_map' {A B C} (f : B -> C) (g : A -> list B) l :
  map f (flat_map g l) = flat_map (fun a => map f (g a)) l.
Proof. induction l as [|a r IH]; [reflexivity|]. cbn. rewrite map_app, IH. reflexivity. Qed.

Lemma flat_map_flat_map {A B C} (f : B -> list C) (g : A -> list B) l :
  flat_map f (flat_map g l) = flat_map (fun a => flat_map f (g a)) l.
Proof. induction l as [|a r IH]; [reflexivity|]. cbn. rewrite flat_map_app, IH. reflexivity. Qed.

Lemma flat_map_single {A B} (f : A -> B) l : flat_map (fun x => [f x]) l = map f l.
Proof. induction l as [|a r IH]; [reflexivity|]. cbn. rewrite IH. reflexivity. Qed.

Lemma cross_app_r_perm {A} (L R1 R2 : list (list A)) :
  Permutation (cross L (R1 ++ R2)) (cross L R1 ++ cross L R2).
Proof.
  unfold cross. induction L as [|l L IH]; [constructor|]. cbn [flat_map]. rewrite map_app.
  eapply Permutation_trans; [apply Permutation_app_head; exact IH|].
  rewrite <- !app_assoc. apply Permutation_app_head.
  rewrite !app_assoc. apply Permutation_app_tail. apply Permutation_app_comm.
Qed.

Lemma cross_flat_map_r_perm {A B} (L : list (list A)) (F : B -> list (list A)) l :
  Permutation (flat_map (fun b => cross L (F b)) l) (cross L (flat_map F l)).
Proof.
  induction l as [|b r IH]; cbn [flat_map].
  - rewrite cross_nil_r. constructor.
  - eapply Permutation_trans; [apply Permutation_app_head; exact IH|].
    apply Permutation_sym. apply cross_app_r_perm.
Qed.

Lemma cross_perm {A} (L L' R R' : list (list A)) :
  Permutation L L' -> Permutation R R' -> Permutation (cross L R) (cross L' R').
Proof.
  intros HL HR. unfold cross.
  eapply Permutation_trans; [apply (Permutation_flat_map _ HL)|].
  apply flat_map_perm_ext. intros l _. apply Permutation_map. exact HR.
Qed.

Lemma lprod_app {A} (l1 l2 : list (list A)) : lprod (l1 ++ l2) = cross (lprod l1) (lprod l2).
Proof.
  induction l1 as [|X l1 IH]; cbn [app lprod].
  - unfold cross. cbn. rewrite app_nil_r, map_id. reflexivity.
  - rewrite IH. induction X as [|x X IHX]; [reflexivity|]. cbn [flat_map].
    rewrite cross_app_l, IHX, cross_map_cons. reflexivity.
Qed.

Lemma in_lprod {A} (x : list A) Ls : In x (lprod Ls) <-> Forall2 (fun xi Li => In xi Li) x Ls.
Proof.
  revert x. induction Ls as [|X r IH]; intros x; cbn [lprod].
  - split.
    + intros [<-|[]]. constructor.
    + intros H. inversion H. left. reflexivity.
  - rewrite in_flat_map. split.
    + intros [a [Ha H]]. apply in_map_iff in H. destruct H as [y [<- Hy]].
      constructor; [exact Ha|]. apply IH. exact Hy.
    + intros H. inversion H as [|a X' y r' Ha Hy]; subst. exists a. split; [exact Ha|].
      apply in_map. apply IH. exact Hy.
Qed.

Lemma kinsert_perm {A} (x : key * A) l : Permutation (kinsert x l) (x :: l).
Proof.
  induction l as [|y r IH]; cbn [kinsert]; [constructor; constructor|].
  destruct (klt (fst y) (fst x)); [|apply Permutation_refl].
  eapply Permutation_trans; [apply perm_skip; exact IH|]. apply perm_swap.
Qed.
Lemma ksort_perm {A} (l : list (key * A)) : Permutation (ksort l) l.
Proof.
  induction l as [|x r IH]; [constructor|]. unfold ksort in *. cbn [fold_right].
  eapply Permutation_trans; [apply kinsert_perm|]. apply perm_skip. exact IH.
Qed.

Definition srt_of (l : label) (fams : list packed) :=
  map snd (ksort (map (fun p => (pkey (l_inter l) p, (r_name (p_rule p), talts_p p))) fams)).

Lemma talts_sym l fams :
  talts (Sym l fams) =
  if l_inter l then flat_map snd (srt_of l fams)
  else [ambig_wrap (flat_map (fun na => map (UNode (fst na)) (snd na)) (srt_of l fams))].
Proof. reflexivity. Qed.

Lemma talts_pack r lft rgt :
  talts_p (Pack r lft rgt) = cross (match lft with None => [[]] | Some s => talts s end)
                                   (match rgt with None => [[]] | Some s => talts s end).
Proof. reflexivity. Qed.

Lemma srt_of_perm l fams :
  Permutation (srt_of l fams) (map (fun p => (r_name (p_rule p), talts_p p)) fams).
Proof.
  unfold srt_of. eapply Permutation_trans; [apply Permutation_map; apply ksort_perm|].
  rewrite map_map. apply Permutation_refl.
Qed.

(* the children sequences a list of alternatives stands for *)
Definition xalts (A : list (list utree)) : list (list utree) :=
  flat_map (fun a => lprod (map expand a)) A.

Lemma xalts_app A B : xalts (A ++ B) = xalts A ++ xalts B.
Proof. unfold xalts. apply flat_map_app. Qed.

Lemma xalts_flat_map {T} (f : T -> list (list utree)) l :
  xalts (flat_map f l) = flat_map (fun a => xalts (f a)) l.
Proof. unfold xalts. apply flat_map_flat_map. Qed.

Lemma xalts_cross_perm A B : Permutation (xalts (cross A B)) (cross (xalts A) (xalts B)).
Proof.
  induction A as [|a A IH].
  - constructor.
  - change (cross (a :: A) B) with (map (app a) B ++ cross A B).
    rewrite xalts_app. change (xalts (a :: A)) with (lprod (map expand a) ++ xalts A).
    rewrite cross_app_l. apply Permutation_app; [|exact IH].
    unfold xalts at 1. rewrite flat_map_map'.
    eapply Permutation_trans; [|apply (cross_flat_map_r_perm (lprod (map expand a)) (fun b => lprod (map expand b)) B)].
    apply flat_map_perm_ext. intros b _. rewrite map_app, lprod_app. apply Permutation_refl.
Qed.

Lemma expand_unode_alts n A :
  flat_map expand (map (UNode n) A) = map (UNode n) (xalts A).
Proof.
  rewrite flat_map_map'. unfold xalts. rewrite map_flat_map'. reflexivity.
Qed.

Lemma xalts_wrap alts : alts <> [] -> xalts [ambig_wrap alts] = map (fun u => [u]) (flat_map expand alts).
Proof.
  intros H. destruct alts as [|t [|t2 r]]; [congruence| |].
  - cbn [ambig_wrap xalts flat_map map lprod]. rewrite !app_nil_r.
    rewrite <- flat_map_single. apply flat_map_ext. intros x. reflexivity.
  - cbn [ambig_wrap xalts flat_map map lprod]. rewrite app_nil_r.
    change (expand (UAmbig (t :: t2 :: r))) with (flat_map expand (t :: t2 :: r)).
    rewrite <- flat_map_single. apply flat_map_ext. intros x. reflexivity.
Qed.

Lemma tft_perm_aux :
  (forall s, wfb s = true -> Permutation (xalts (talts s)) (map (map unshape) (derivs s))) /\
  (forall p, wfb_p p = true -> Permutation (xalts (talts_p p)) (map (map unshape) (derivs_p p))).
Proof.
  apply sym_packed_ind.
  - intros a b c _. cbn. apply Permutation_refl.
  - intros l fams IH Hwf. apply wfb_sym in Hwf. destruct Hwf as [Hne Hwf].
    rewrite Forall_forall in IH, Hwf. rewrite talts_sym, derivs_sym, map_flat_map'.
    destruct (l_inter l) eqn:Ei.
    + rewrite xalts_flat_map.
      eapply Permutation_trans; [apply (Permutation_flat_map _ (srt_of_perm l fams))|].
      rewrite flat_map_map'. cbn [snd]. apply flat_map_perm_ext. intros p Hp.
      eapply Permutation_trans; [apply (IH p Hp (Hwf p Hp))|].
      rewrite map_map. cbn [wrap]. apply Permutation_refl.
    + set (alts := flat_map (fun na => map (UNode (fst na)) (snd na)) (srt_of l fams)).
      assert (Hperm : Permutation (flat_map expand alts)
                        (flat_map (fun p => map (UNode (r_name (p_rule p))) (map (map unshape) (derivs_p p))) fams)).
      { unfold alts. rewrite flat_map_flat_map.
        eapply Permutation_trans; [apply (Permutation_flat_map _ (srt_of_perm l fams))|].
        rewrite flat_map_map'. cbn [fst snd]. apply flat_map_perm_ext. intros p Hp.
        rewrite expand_unode_alts. apply Permutation_map. apply (IH p Hp (Hwf p Hp)). }
      assert (Hnonempty : alts <> []).
      { (* [fams] has a first member [p0], and [p0] has a derivation ([derivs_p_nonempty]): the right-hand side of
           [Hperm] is not empty *)
        intros E. rewrite E in Hperm. cbn in Hperm. apply Permutation_nil in Hperm.
        destruct fams as [|p0 r0]; [congruence|]. cbn [flat_map] in Hperm.
        apply app_eq_nil in Hperm. destruct Hperm as [Hp0 _].
        pose proof (derivs_p_nonempty p0 (Hwf p0 (or_introl eq_refl))) as Hd.
        destruct (derivs_p p0); [congruence|discriminate]. }
      rewrite (xalts_wrap alts Hnonempty).
      eapply Permutation_trans; [apply Permutation_map; exact Hperm|].
      rewrite map_flat_map'. apply flat_map_perm_ext. intros p Hp.
      rewrite !map_map. cbn [wrap map unshape]. apply Permutation_refl.
  - intros r lft rgt IHl IHr Hwf. apply wfb_pack in Hwf. destruct Hwf as [Hwl Hwr].
    rewrite talts_pack, derivs_pack, <- map_cross.
    eapply Permutation_trans; [apply xalts_cross_perm|]. apply cross_perm.
    + destruct lft as [s|]; [apply IHl; [reflexivity|apply Hwl; reflexivity]|]. apply Permutation_refl.
    + destruct rgt as [s|]; [apply IHr; [reflexivity|apply Hwr; reflexivity]|]. apply Permutation_refl.
Qed.

Lemma concat_singletons {A} (l : list A) : List.concat (map (fun u => [u]) l) = l.
Proof. induction l as [|a r IH]; [reflexivity|]. cbn. rewrite IH. reflexivity. Qed.

Lemma perm_concat {A} (l1 l2 : list (list A)) : Permutation l1 l2 -> Permutation (List.concat l1) (List.concat l2).
Proof.
  intros H. rewrite <- (map_id l1), <- (map_id l2), <- !flat_map_concat_map. apply Permutation_flat_map. exact H.
Qed.

(* C20: expanding the `_ambig` nodes yields every unshaped derivation exactly once (as many
   times as it occurs in [root_derivs], which is duplicate-free under packed-dedup) *)
Theorem tft_unshaped_perm s t :
  wfb s = true -> tft s = Some t -> Permutation (expand t) (map unshape (root_derivs s)).
Proof.
  intros Hwf Ht. unfold tft in Ht.
  destruct (talts s) as [|[|t0 [|? ?]] [|? ?]] eqn:E; try discriminate. injection Ht as <-.
  pose proof (proj1 tft_perm_aux s Hwf) as H. rewrite E in H.
  cbn [xalts flat_map map lprod] in H. rewrite app_nil_r in H.
  rewrite (flat_map_single (fun u : utree => [u])) in H. apply perm_concat in H. rewrite concat_singletons in H.
  unfold root_derivs. rewrite concat_map. exact H.
Qed.
