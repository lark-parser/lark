(* Facts about the model of TerminalTreeToPattern (Re/TermPattern.v):
   * show_compile: the string lark builds (to_regexp) is the concrete syntax `show` of the AST built
     next to it, and that AST is bracketed where regexp precedence needs it;
   * the language of the compiled pattern is the documented meaning of the terminal definition:
     juxtaposition = concatenation, | = union (the sort of the alternatives only reorders them),
     ? * + ~n ~n..m = exactly the stated numbers of consecutive occurrences of the operand. *)
From Coq Require Import List Bool Arith String Ascii ZArith NArith Lia Permutation.
From LV Require Import Re.Syntax Re.Lang Re.Lang_proofs Re.Width Re.TermPattern Gen.RegexHoles.
Import ListNotations.

Section TtreeInd.
  Variable P : ttree -> Prop.
  Hypothesis hStr : forall s, P (TStr s).
  Hypothesis hRange : forall a b, P (TRange a b).
  Hypothesis hCls : forall neg rs, P (TCls neg rs).
  Hypothesis hDot : P TDot.
  Hypothesis hSeq : forall l, Forall P l -> P (TSeq l).
  Hypothesis hAlt : forall l, Forall P l -> P (TAlt l).
  Hypothesis hOp : forall t op, P t -> P (TOp t op).

  Fixpoint ttree_rect' (t : ttree) : P t :=
    let all := fix all (l : list ttree) : Forall P l :=
                 match l with [] => Forall_nil P | x :: l' => Forall_cons x (ttree_rect' x) (all l') end in
    match t with
    | TStr s => hStr s
    | TRange a b => hRange a b
    | TCls neg rs => hCls neg rs
    | TDot => hDot
    | TSeq l => hSeq l (all l)
    | TAlt l => hAlt l (all l)
    | TOp t' op => hOp t' op (ttree_rect' t')
    end.
End TtreeInd.

Lemma sapp_nil_r s : append s "" = s.
Proof. induction s as [|a s IH]; cbn; [reflexivity|now rewrite IH]. Qed.

Lemma sapp_assoc a b c : append (append a b) c = append a (append b c).
Proof. induction a as [|x a IH]; cbn; [reflexivity|now rewrite IH]. Qed.

Lemma chr_string_ascii a : chr_string (nat_of_ascii a) = a_string a.
Proof. unfold chr_string, a_string. now rewrite ascii_nat_embedding. Qed.

Lemma insert_stable_perm x l : Permutation (insert_stable x l) (x :: l).
Proof.
  induction l as [|y l IH]; cbn [insert_stable]; [reflexivity|].
  destruct (zlist_ltb (pat_key y) (pat_key x)); [|reflexivity].
  rewrite IH. apply perm_swap.
Qed.

Lemma sort_alts_perm l : Permutation (sort_alts l) l.
Proof.
  induction l as [|x l IH]; cbn [sort_alts fold_right]; [reflexivity|].
  fold (sort_alts l). rewrite insert_stable_perm. now apply perm_skip.
Qed.

Lemma sort_alts_in l x : In x (sort_alts l) <-> In x l.
Proof. split; apply Permutation_in; [|symmetry]; apply sort_alts_perm. Qed.

Lemma sort_alts_length l : List.length (sort_alts l) = List.length l.
Proof. apply Permutation_length, sort_alts_perm. Qed.

Lemma sort_alts_nonempty l : l <> [] -> sort_alts l <> [].
Proof.
  intros H E. apply H. apply length_zero_iff_nil. rewrite <- sort_alts_length, E. reflexivity.
Qed.

Lemma sort_alts_Forall (P : pat -> Prop) l : Forall P l -> Forall P (sort_alts l).
Proof. apply Permutation_Forall. symmetry. apply sort_alts_perm. Qed.

Lemma t_expansions_cases l :
  (exists p, l = [p] /\ t_expansions l = p) \/
  t_expansions l = mkPat false (fmt alt_fmt [join alt_sep (map to_regexp (sort_alts l))])
                         (Grp (alt_re (map p_re (sort_alts l)))).
Proof. destruct l as [|p [|q l]]; eauto. Qed.

Lemma show_lit_re s : show (lit_re s) = re_escape s.
Proof.
  induction s as [|a s IH]; [reflexivity|].
  change (lit_re (String a s)) with (Cat (Chr (nat_of_ascii a)) (lit_re s)).
  cbn [show re_escape]. now rewrite IH.
Qed.

Lemma show_seq_re rs : show (seq_re rs) = join "" (map show rs).
Proof.
  induction rs as [|r rs IH]; cbn; [reflexivity|]. unfold seq_re in IH. rewrite IH.
  destruct rs as [|r' rs]; cbn; [apply sapp_nil_r|reflexivity].
Qed.

Lemma show_alt_re rs : show (alt_re rs) = join "|" (map show rs).
Proof.
  induction rs as [|r rs IH]; [reflexivity|]. destruct rs as [|r' rs]; [reflexivity|].
  change (alt_re (r :: r' :: rs)) with (Alt r (alt_re (r' :: rs))). cbn [show]. rewrite IH. reflexivity.
Qed.

Lemma op_string_quant op : op_string op = show_quant (op_quant op).
Proof.
  destruct op; cbn; try reflexivity.
Qed.

Definition shown (p : pat) : Prop := show (p_re p) = to_regexp p.

Lemma map_shown l : Forall shown l -> map show (map p_re l) = map to_regexp l.
Proof. induction 1 as [|p l Hp _ IH]; cbn; [reflexivity|]. now rewrite Hp, IH. Qed.

Lemma shown_expansion l : Forall shown l -> shown (t_expansion l).
Proof.
  intros H. destruct l as [|p [|q l]].
  - reflexivity.
  - now inversion H.
  - unfold shown, t_expansion, to_regexp. cbn [p_str p_value p_re].
    rewrite show_seq_re, map_shown by exact H. reflexivity.
Qed.

Lemma shown_expansions l : Forall shown l -> shown (t_expansions l).
Proof.
  intros H. destruct (t_expansions_cases l) as [(p & -> & ->)| ->]; [now inversion H|].
  unfold shown, to_regexp. cbn [p_str p_value p_re show].
  rewrite show_alt_re, map_shown by now apply sort_alts_Forall. reflexivity.
Qed.

Lemma shown_expr p op : shown p -> shown (t_expr p op).
Proof.
  intros H. unfold shown, t_expr, to_regexp. cbn [p_str p_value p_re show]. rewrite H, op_string_quant.
  cbn. rewrite sapp_nil_r, !sapp_assoc. reflexivity.
Qed.

Theorem show_compile t : show (p_re (compile t)) = to_regexp (compile t).
Proof.
  change (shown (compile t)). induction t as [s|a b|neg rs| |l IH|l IH|t op IH] using ttree_rect'; cbn [compile].
  - apply show_lit_re.
  - unfold shown, to_regexp. cbn [p_str p_value p_re show]. unfold show_cls, show_range, arange.
    cbn [map fst snd String.concat]. rewrite !chr_string_ascii. reflexivity.
  - reflexivity.
  - reflexivity.
  - apply shown_expansion. apply Forall_map. exact IH.
  - apply shown_expansions. apply Forall_map. exact IH.
  - apply shown_expr. exact IH.
Qed.

Lemma bracketed_lit_re s : bracketed (lit_re s) = true /\ no_bare_alt (lit_re s) = true.
Proof.
  unfold lit_re. induction (codes s) as [|c l [IH1 IH2]]; cbn; [auto|].
  fold (seq_re (map Chr l)). rewrite IH1, IH2. auto.
Qed.

Definition brk (p : pat) : Prop := bracketed (p_re p) = true /\ no_bare_alt (p_re p) = true.

Lemma brk_seq l : Forall brk l -> bracketed (seq_re (map p_re l)) = true /\ no_bare_alt (seq_re (map p_re l)) = true.
Proof.
  induction 1 as [|p l [H1 H2] _ [IH1 IH2]]; cbn; [auto|]. fold (seq_re (map p_re l)).
  rewrite H1, H2, IH1, IH2. auto.
Qed.

Lemma brk_alt l : Forall brk l -> bracketed (alt_re (map p_re l)) = true.
Proof.
  induction 1 as [|p l [H1 H2] Hl IH]; [reflexivity|]. destruct l as [|q l]; [exact H1|].
  change (bracketed (Alt (p_re p) (alt_re (map p_re (q :: l)))) = true). cbn [bracketed]. now rewrite H1, IH.
Qed.

Theorem bracketed_compile t : bracketed (p_re (compile t)) = true.
Proof.
  enough (brk (compile t)) by (now destruct H).
  induction t as [s|a b|neg rs| |l IH|l IH|t op IH] using ttree_rect'; cbn [compile].
  - apply bracketed_lit_re.
  - split; reflexivity.
  - split; reflexivity.
  - split; reflexivity.
  - assert (H : Forall brk (map compile l)) by (apply Forall_map; exact IH).
    unfold t_expansion. destruct (map compile l) as [|p [|q l']] eqn:E.
    + split; reflexivity.
    + now inversion H.
    + cbn [p_re]. apply (brk_seq _ H).
  - assert (H : Forall brk (map compile l)) by (apply Forall_map; exact IH).
    destruct (t_expansions_cases (map compile l)) as [(p & E & ->)| ->];
      [rewrite E in H; now inversion H|].
    split; [|reflexivity]. cbn [p_re bracketed]. now apply brk_alt, sort_alts_Forall.
  - destruct IH as [H1 H2]. split; [|reflexivity]. unfold t_expr. cbn. exact H1.
Qed.

Definition planguage (t : ttree) : list nat -> Prop := lang (p_re (compile t)).

Lemma lang_seq_map ps w : lang (seq_re (map p_re ps)) w <-> lcat (map (fun p => lang (p_re p)) ps) w.
Proof.
  revert w. induction ps as [|p ps IH]; intros w; cbn; [tauto|].
  exact (cat_iff _ _ _ _ (fun _ => iff_refl _) IH w).
Qed.

Lemma lcat_single (L : list nat -> Prop) w : lcat [L] w <-> L w.
Proof.
  cbn. split.
  - intros (u & v & -> & Hu & ->). now rewrite app_nil_r.
  - intros H. exists w, []. now rewrite app_nil_r.
Qed.

Theorem lang_expansion ps w : lang (p_re (t_expansion ps)) w <-> lcat (map (fun p => lang (p_re p)) ps) w.
Proof.
  destruct ps as [|p [|q ps]].
  - reflexivity.
  - symmetry. apply lcat_single.
  - unfold t_expansion. cbn [p_re]. apply lang_seq_map.
Qed.

Theorem lang_expansions ps w : ps <> [] -> (lang (p_re (t_expansions ps)) w <-> exists p, In p ps /\ lang (p_re p) w).
Proof.
  intros Hne. destruct (t_expansions_cases ps) as [(p & -> & ->)| ->].
  { split; [intros H; exists p; cbn; auto|intros (x & [<-|[]] & H); exact H]. }
  cbn [p_re lang]. rewrite lang_alt_re.
  - rewrite <- Exists_exists, Exists_map, Exists_exists. setoid_rewrite sort_alts_in. reflexivity.
  - intros E. apply map_eq_nil in E. revert E. now apply sort_alts_nonempty.
Qed.

Lemma quant_ok_top op k : op_ok op = true -> (quant_ok (op_quant op) k <-> top_ok op k).
Proof.
  unfold quant_ok. destruct op as [| | |n|n m]; cbn; intros H; try lia.
  apply Nat.leb_le in H. lia.
Qed.

Theorem lang_expr p op w : op_ok op = true ->
  (lang (p_re (t_expr p op)) w <-> exists k, top_ok op k /\ rpow (lang (p_re p)) k w).
Proof.
  intros Hok. unfold t_expr. cbn [p_re lang].
  setoid_rewrite (fun k => quant_ok_top op k Hok). reflexivity.
Qed.

Lemma lcat_ext Ls Ls' : Forall2 (fun L L' => forall w, L w <-> L' w) Ls Ls' -> forall w, lcat Ls w <-> lcat Ls' w.
Proof.
  induction 1 as [|L L' Ls Ls' H _ IH]; intros w; cbn; [tauto|]. exact (cat_iff _ _ _ _ H IH w).
Qed.

Lemma cls_mem_single a b c : cls_mem false [(a, b)] c = true <-> a <= c <= b.
Proof.
  unfold cls_mem, in_range. cbn [existsb fst snd].
  destruct (Nat.leb_spec a c), (Nat.leb_spec c b); cbn; split; intros; try lia; try discriminate; reflexivity.
Qed.

Lemma tden_alt l w : tden (TAlt l) w <-> exists x, In x l /\ tden x w.
Proof.
  rewrite <- Exists_exists. cbn [tden].
  induction l as [|x l IH]; [now rewrite Exists_nil|now rewrite Exists_cons, <- IH].
Qed.

Theorem compile_lang t : tt_ok t = true -> forall w, lang (p_re (compile t)) w <-> tden t w.
Proof.
  induction t as [s|a b|neg rs| |l IH|l IH|t op IH] using ttree_rect'; intros Hok w; cbn [compile].
  - cbn [p_re]. apply lang_lit_re.
  - cbn [p_re lang tden arange fst snd].
    split; intros (c & -> & H); exists c; (split; [reflexivity|]); apply cls_mem_single; exact H.
  - reflexivity.
  - reflexivity.
  - cbn [tden]. rewrite lang_expansion, map_map. apply lcat_ext. cbn [tt_ok] in Hok. rewrite forallb_forall in Hok.
    clear w. induction IH as [|x l Hx _ IHl]; cbn; constructor.
    + apply Hx, Hok. now left.
    + apply IHl. intros y Hy. apply Hok. now right.
  - cbn [tt_ok] in Hok. apply andb_true_iff in Hok. destruct Hok as [Hne Hok].
    rewrite forallb_forall in Hok. rewrite Forall_forall in IH.
    rewrite lang_expansions by (destruct l; discriminate).
    rewrite tden_alt, <- Exists_exists, Exists_map, Exists_exists.
    split; intros (x & Hx & H); exists x; (split; [assumption|]); apply (IH x Hx (Hok x Hx)); exact H.
  - cbn [tt_ok] in Hok. apply andb_true_iff in Hok. destruct Hok as [Hop Hok].
    cbn [tden]. rewrite lang_expr by exact Hop.
    setoid_rewrite (rpow_ext _ _ (IH Hok)). reflexivity.
Qed.

Corollary compile_fullmatch t w : tt_ok t = true -> (bt_fullmatch (p_re (compile t)) w = true <-> tden t w).
Proof. intros H. rewrite bt_fullmatch_iff. now apply compile_lang. Qed.

Corollary compile_match_sound t s n : tt_ok t = true ->
  bt_match (p_re (compile t)) s = Some n -> tden t (firstn n s).
Proof. intros H E. apply compile_lang; [exact H|]. now apply bt_match_sound. Qed.

Corollary compile_match_none t s : tt_ok t = true ->
  bt_match (p_re (compile t)) s = None -> forall n, ~ tden t (firstn n s).
Proof. intros H E n Hn. apply (bt_match_none _ _ E n). now apply compile_lang. Qed.

Theorem compile_op_fullmatch x op w : op_ok op = true ->
  (bt_fullmatch (p_re (compile (TOp x op))) w = true <->
   exists k, top_ok op k /\ rpow (fun u => bt_fullmatch (p_re (compile x)) u = true) k w).
Proof.
  intros Hok. rewrite bt_fullmatch_iff. cbn [compile]. rewrite lang_expr by exact Hok.
  setoid_rewrite (rpow_ext _ _ (bt_fullmatch_iff (p_re (compile x)))). reflexivity.
Qed.
