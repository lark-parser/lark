(* TextSlice index normalisation (C15): the regenerated __post_init__ / cast_from / is_complete_text / __len__. *)
From Coq Require Import ZArith Bool Lia.
From LV Require Import Gen.TextSlice.
Local Open Scope Z_scope.

(* Python's reading of an in-range index i of a sequence of length n *)
Definition py_index (n i : Z) : Z := if i <? 0 then i + n else i.

Lemma py_index_range n i : - n <= i <= n -> 0 <= py_index n i <= n.
Proof. unfold py_index. destruct (Z.ltb_spec i 0); lia. Qed.

Lemma ts_start_in_range n s : - n <= s -> ts_start n s = Some (py_index n s).
Proof.
  intros H. unfold ts_start, py_index. destruct (s <? 0); [|reflexivity].
  destruct (Z.geb_spec (s + n) 0); [reflexivity|lia].
Qed.

(* __post_init__ accepts every end: the only test, on a negative one, is end + n <= n *)
Lemma ts_end_some n z : ts_end n (Some z) = Some (py_index n z).
Proof.
  unfold ts_end, py_index. destruct (Z.ltb_spec z 0); [|reflexivity].
  destruct (Z.leb_spec (z + n) n); [reflexivity|lia].
Qed.

Lemma ts_complete_iff n s e : ts_complete n s e = true <-> s = 0 /\ e = n.
Proof. unfold ts_complete. rewrite andb_true_iff, !Z.eqb_eq. reflexivity. Qed.

(* in-range start / end (negative ones counted from the end, None = the end): the window is Python's
   text[start:end], inside the buffer; the length and the completeness test are what they should be *)
Theorem slice_normalisation n s e :
  0 <= n -> - n <= s <= n -> (forall z, e = Some z -> - n <= z <= n) ->
  let s' := py_index n s in
  let e' := match e with None => n | Some z => py_index n z end in
  ts_start n s = Some s' /\ ts_end n e = Some e' /\ 0 <= s' <= n /\ 0 <= e' <= n /\
  ts_len s' e' = e' - s' /\ (ts_complete n s' e' = true <-> s' = 0 /\ e' = n).
Proof.
  intros Hn Hs He s' e'.
  split; [apply ts_start_in_range, Hs|].
  split; [destruct e; [apply ts_end_some|reflexivity]|].
  split; [apply py_index_range, Hs|].
  split; [destruct e as [z|]; [apply py_index_range, He; reflexivity|lia]|].
  split; [reflexivity|apply ts_complete_iff].
Qed.

Lemma cast_from_complete n : 0 <= n ->
  ts_start n (ts_cast_start n) = Some 0 /\ ts_end n (Some (ts_cast_end n)) = Some n /\ ts_complete n 0 n = true.
Proof.
  intros Hn. unfold ts_start, ts_end, ts_cast_start, ts_cast_end, ts_complete.
  destruct (n <? 0) eqn:E; [apply Z.ltb_lt in E; lia|]. cbn. rewrite Z.eqb_refl. repeat split; reflexivity.
Qed.

(* what __post_init__ does NOT reject (the docstring promises AssertionError for out-of-bounds indices): an end or a
   start beyond the buffer, and a negative end below -len *)
Lemma out_of_range_accepted :
  ts_end 3 (Some 10) = Some 10 /\ ts_start 3 5 = Some 5 /\ ts_end 3 (Some (-5)) = Some (-2) /\ ts_start 3 (-4) = None.
Proof. repeat split; reflexivity. Qed.
