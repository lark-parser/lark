(* ForestSumVisitor on graph forests: on an acyclic forest (decidable side conditions) the recursive reading [gsv]
   satisfies the equations assumed by GraphPrio_proofs.graph_resolve_optimal, so the optimum theorem holds with the
   visitor's annotation.  That the coded single-visit walk [svw] computes this annotation is GraphSumWalk_proofs.v. *)
From Coq Require Import ZArith List Arith Bool Lia.
From LV Require Import Cfg.Grammar Forest.ExplicitBuild Forest.GraphResolve Forest.GraphResolve_proofs
  Gen.ForestSortKey Forest.Sppf Forest.Prio Forest.Prio_proofs Forest.GraphPrio_proofs Forest.GraphSum.
Import ListNotations.
Local Open Scope Z_scope.

(* Forest/GraphSum.v states its own copies of the node tests of GraphResolve_proofs.v and GraphPrio_proofs.v *)
Lemma is_tok_eq tok (l : nlabel tok) : is_tokb tok l = is_tok tok l.
Proof. reflexivity. Qed.
Lemma is_sym_eq tok (l : nlabel tok) : is_symb tok l = is_sym tok l.
Proof. reflexivity. Qed.
Lemma fam_empty_eq tok (fm : family tok) : fam_is_empty tok fm = fam_empty tok fm.
Proof. reflexivity. Qed.
Lemma rule_part_eq tok (rprio : rule -> Z) (lbl : nlabel tok) r :
  rule_part tok rprio lbl r = if is_sym tok lbl then rprio r else 0.
Proof. unfold rule_part. rewrite is_sym_eq. reflexivity. Qed.

Section SumProofs.
  Variable tok : Type.
  Variable teqb : tok -> tok -> bool.
  Hypothesis teqb_spec : forall a b, teqb a b = true <-> a = b.
  Variable fams : list (nlabel tok * family tok).
  Variable rprio rorder : rule -> Z.
  Variable tprio : nat -> tok -> Z.

  Notation label := (nlabel tok).
  Notation leqb := (nlabel_eqb tok teqb).
  Notation F := (in_forest tok fams).
  Notation fams_of := (fams_of tok teqb fams).
  Notation gsv := (gsv tok teqb fams rprio tprio).
  Notation gsvf := (gsvf_with tok rprio).

  (* decidable side conditions: [rk] is a rank table (acyclicity witness), M a bound on it *)
  Variable rk : label -> nat.
  Variable M : nat.
  Definition orankb (o : option label) (n : nat) : bool :=
    match o with None => true | Some c => Nat.ltb (rk c) n end.
  Definition rankedb : bool :=
    forallb (fun lf : label * family tok =>
               let '(lbl, (r, l, rt)) := lf in orankb l (rk lbl) && orankb rt (rk lbl) && Nat.leb (rk lbl) M) fams.
  Definition has_fam (c : label) : bool := existsb (fun lf => leqb (fst lf) c) fams.
  Definition oclosedb (o : option label) : bool :=
    match o with Some c => is_tokb tok c || has_fam c | None => true end.
  Definition closedb : bool :=
    forallb (fun lf : label * family tok => let '(_, (_, l, rt)) := lf in oclosedb l && oclosedb rt) fams.
  Definition uniformb' : bool :=
    forallb (fun lf1 : label * family tok =>
               forallb (fun lf2 : label * family tok =>
                          negb (leqb (fst lf1) (fst lf2))
                          || Bool.eqb (fam_empty tok (snd lf1)) (fam_empty tok (snd lf2))) fams) fams.
  Definition notokb : bool := forallb (fun lf : label * family tok => negb (is_tokb tok (fst lf))) fams.

  Hypothesis Hranked : rankedb = true.
  Hypothesis Hclosed : closedb = true.
  Hypothesis Huniform : uniformb' = true.
  Hypothesis Hnotok : notokb = true.

  Lemma orankb_spec o n : orankb o n = true -> orank tok rk o n.
  Proof. destruct o as [c|]; [apply Nat.ltb_lt|exact (fun _ => I)]. Qed.

  Lemma ranked_prop lbl r l rt : F lbl (r, l, rt) ->
    orank tok rk l (rk lbl) /\ orank tok rk rt (rk lbl) /\ (rk lbl <= M)%nat.
  Proof.
    intros H. pose proof (proj1 (forallb_forall _ _) Hranked _ H) as Hr. cbn beta iota in Hr.
    apply andb_true_iff in Hr. destruct Hr as [Hr H3]. apply andb_true_iff in Hr. destruct Hr as [H1 H2].
    split; [|split]; [apply orankb_spec; exact H1|apply orankb_spec; exact H2|apply Nat.leb_le; exact H3].
  Qed.

  Lemma has_fam_spec c : has_fam c = true -> fams_of c <> [].
  Proof.
    unfold has_fam. intros H. apply existsb_exists in H. destruct H as [[l0 f0] [Hin E]]. cbn [fst] in E.
    apply (nlabel_eqb_spec tok teqb teqb_spec) in E. subst l0.
    apply (fams_of_in tok teqb teqb_spec) in Hin. intros Hnil. rewrite Hnil in Hin. destruct Hin.
  Qed.

  Lemma oclosedb_spec o : oclosedb o = true -> oclosed tok teqb fams o.
  Proof.
    destruct o as [c|]; [|exact (fun _ => I)]. cbn [oclosedb oclosed]. intros H Et.
    apply orb_true_iff in H. destruct H as [H|H]; [|apply has_fam_spec; exact H].
    rewrite is_tok_eq in H. congruence.
  Qed.

  Lemma closed_prop lbl r l rt : F lbl (r, l, rt) -> oclosed tok teqb fams l /\ oclosed tok teqb fams rt.
  Proof.
    intros H. pose proof (proj1 (forallb_forall _ _) Hclosed _ H) as Hc. cbn beta iota in Hc.
    apply andb_true_iff in Hc. destruct Hc as [H1 H2]. split; apply oclosedb_spec; assumption.
  Qed.

  Lemma uniform_prop lbl f1 f2 : F lbl f1 -> F lbl f2 -> fam_empty tok f1 = fam_empty tok f2.
  Proof.
    intros H1 H2. pose proof (proj1 (forallb_forall _ _) (proj1 (forallb_forall _ _) Huniform _ H1) _ H2) as Hu.
    cbn [fst snd] in Hu. rewrite (proj2 (nlabel_eqb_spec tok teqb teqb_spec lbl lbl) eq_refl) in Hu.
    apply eqb_prop. exact Hu.
  Qed.

  Lemma notok_prop t x i j f : ~ F (NTok tok t x i j) f.
  Proof. intros H. pose proof (proj1 (forallb_forall _ _) Hnotok _ H). discriminate. Qed.

  Lemma gsv_S f lbl : is_tok tok lbl = false ->
    gsv (S f) lbl = zmax_list (map (gsvf (gsv f) lbl) (fams_of lbl)).
  Proof. destruct lbl; [reflexivity|reflexivity|discriminate]. Qed.

  Lemma gsvf_pro g lbl r l rt :
    gsvf g lbl (r, l, rt) = (if is_sym tok lbl then rprio r else 0) + pro tok g rt + pro tok g l.
  Proof. cbn [gsvf_with]. rewrite rule_part_eq. reflexivity. Qed.

  Lemma pro_agree g1 g2 o n : (forall c, (rk c < n)%nat -> g1 c = g2 c) -> orank tok rk o n -> pro tok g1 o = pro tok g2 o.
  Proof. intros H. destruct o as [c|]; [apply H|reflexivity]. Qed.

  Lemma gsv_fuel : forall f1 f2 lbl, (rk lbl < f1)%nat -> (rk lbl < f2)%nat -> gsv f1 lbl = gsv f2 lbl.
  Proof.
    induction f1 as [|a IH]; intros f2 lbl H1 H2; [inversion H1|]. destruct f2 as [|b]; [inversion H2|].
    destruct (is_tok tok lbl) eqn:Et; [destruct lbl; try discriminate; reflexivity|].
    rewrite !gsv_S by exact Et. f_equal. apply map_ext_in. intros [[r l] rt] Hin.
    apply (fams_of_in tok teqb teqb_spec) in Hin. destruct (ranked_prop _ _ _ _ Hin) as [Hl [Hr _]].
    assert (Hc : forall c, (rk c < rk lbl)%nat -> gsv a c = gsv b c).
    { intros c Hc. apply IH; apply (Nat.lt_le_trans _ _ _ Hc), Nat.lt_succ_r; assumption. }
    rewrite !gsvf_pro, (pro_agree _ _ l _ Hc Hl), (pro_agree _ _ rt _ Hc Hr). reflexivity.
  Qed.

  Definition pr_sv (lbl : label) : Z := gsv (S M) lbl.
  Definition prf_sv (lbl : label) (fm : family tok) : Z := gsvf (gsv M) lbl fm.

  Lemma pr_sv_tok t x i j : pr_sv (NTok tok t x i j) = tprio t x.
  Proof. reflexivity. Qed.

  Lemma prf_sv_eq lbl r l rt : F lbl (r, l, rt) ->
    prf_sv lbl (r, l, rt) = (if is_sym tok lbl then rprio r else 0) + pro tok pr_sv rt + pro tok pr_sv l.
  Proof.
    intros H. destruct (ranked_prop _ _ _ _ H) as [Hl [Hr Hm]]. unfold prf_sv. rewrite gsvf_pro.
    assert (Hc : forall c, (rk c < rk lbl)%nat -> gsv M c = pr_sv c).
    { intros c Hc. apply gsv_fuel; [|apply Nat.lt_lt_succ_r]; exact (Nat.lt_le_trans _ _ _ Hc Hm). }
    rewrite (pro_agree _ _ l _ Hc Hl), (pro_agree _ _ rt _ Hc Hr). reflexivity.
  Qed.

  Lemma pr_sv_max lbl : is_tok tok lbl = false -> fams_of lbl <> [] ->
    is_max (pr_sv lbl) (map (prf_sv lbl) (fams_of lbl)).
  Proof.
    intros Et Hne. unfold pr_sv. rewrite (gsv_S _ _ Et). apply zmax_list_is_max.
    destruct (fams_of lbl); [congruence|discriminate].
  Qed.

  (* C05 on acyclic graph forests with the visitor's own annotation [pr_sv], [prf_sv] *)
  Theorem graph_resolve_optimal_sv a i j :
    fams_of (NSym tok a i j) <> [] ->
    exists d, graph_resolve tok teqb fams (order_key tok rorder prf_sv) (NSym tok a i j) = Some d /\
              den tok F (NSym tok a i j) [d] /\
              gprio tok rprio tprio d = pr_sv (NSym tok a i j) /\
              forall d', den tok F (NSym tok a i j) [d'] -> gprio tok rprio tprio d' <= gprio tok rprio tprio d.
  Proof.
    apply (graph_resolve_optimal tok teqb teqb_spec fams rprio rorder tprio pr_sv prf_sv
             pr_sv_tok prf_sv_eq pr_sv_max notok_prop rk).
    - intros lbl r l rt H. destruct (ranked_prop _ _ _ _ H) as [H1 [H2 _]]. split; assumption.
    - exact closed_prop.
    - exact uniform_prop.
  Qed.
End SumProofs.
