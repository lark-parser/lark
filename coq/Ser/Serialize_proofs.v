(* C11 - proofs about the save / load model of Ser/Serialize.v.  The regenerated lists of Gen/SerializeFields.v are
   used through computation: removing an attribute from a __serialize_fields__ tuple, changing a tag or dropping a
   re-supply line changes the normal form of the model and the corresponding lemma below stops type-checking. *)
From Coq Require Import ZArith List Bool String Ascii Lia.
From LV Require Import Ser.Value Gen.SerializeFields Ser.Serialize.
From LV Require Ser.Standalone_proofs.
Import ListNotations.
Local Open Scope string_scope.
Local Open Scope list_scope.

Lemma as_oint_of_oint p : as_oint (of_oint p) = Some p.
Proof. destruct p; reflexivity. Qed.
Lemma as_ostr_of_ostr p : as_ostr (of_ostr p) = Some p.
Proof. destruct p; reflexivity. Qed.

Lemma omap_map {A B} (f : B -> option A) (g : A -> B) l : (forall x, f (g x) = Some x) -> omap f (map g l) = Some l.
Proof. intros H. induction l; cbn; [reflexivity|]. now rewrite H, IHl. Qed.

Lemma omap_app {A B} (f : A -> option B) l1 l2 r1 r2 :
  omap f l1 = Some r1 -> omap f l2 = Some r2 -> omap f (l1 ++ l2) = Some (r1 ++ r2).
Proof.
  revert r1. induction l1; cbn; intros r1 H1 H2.
  - inversion H1; subst. exact H2.
  - destruct (f a); [|discriminate]. destruct (omap f l1) eqn:E; [|discriminate].
    inversion H1; subst. rewrite (IHl1 l eq_refl H2). reflexivity.
Qed.

Lemma nodup_snoc {A} (e : list A) x : NoDup e -> ~ In x e -> NoDup (e ++ [x]).
Proof.
  intros Hn Hx. rewrite <- (rev_involutive (e ++ [x])), rev_unit. apply NoDup_rev.
  constructor; [rewrite <- in_rev; exact Hx | apply NoDup_rev, Hn].
Qed.

Section EnumFacts.
  Context {A : Type} (eqb : A -> A -> bool).

  Lemma find_index_Some x e n :
    find_index eqb x e = Some n -> exists y, nth_error e n = Some y /\ eqb x y = true.
  Proof.
    revert n. induction e as [|y r IH]; cbn; intros n H; [discriminate|].
    destruct (eqb x y) eqn:E.
    - inversion H; subst. exists y. cbn. auto.
    - destruct (find_index eqb x r) eqn:F; [|discriminate]. inversion H; subst. exact (IH n0 eq_refl).
  Qed.

  Lemma find_index_None x e : find_index eqb x e = None -> forall y, In y e -> eqb x y = false.
  Proof.
    induction e as [|z r IH]; cbn; intros H y Hy; [contradiction|].
    destruct (eqb x z) eqn:E; [discriminate|].
    destruct (find_index eqb x r) eqn:F; [discriminate|].
    destruct Hy as [->|Hy]; auto.
  Qed.

  (* get() returns a number under which an item with the same key is (and stays) registered; the table only
     grows at the end *)
  Lemma enum_get_spec x e n e' :
    eqb x x = true -> enum_get eqb e x = (n, e') ->
    (e' = e \/ e' = e ++ [x]) /\
    exists y, nth_error e' n = Some y /\ eqb x y = true /\ (In y e \/ y = x).
  Proof.
    intros Hr. unfold enum_get. destruct (find_index eqb x e) eqn:F; intros H; inversion H; subst; clear H.
    - split; [auto|]. destruct (find_index_Some _ _ _ F) as (y & Hn & He). exists y. eauto using nth_error_In.
    - split; [auto|]. exists x. split; [|auto].
      rewrite nth_error_app2 by lia. rewrite Nat.sub_diag. reflexivity.
  Qed.

  Lemma enum_get_fresh x e n e' :
    enum_get eqb e x = (n, e') -> e' = e ++ [x] -> e' <> e -> forall y, In y e -> eqb x y = false.
  Proof.
    unfold enum_get. destruct (find_index eqb x e) eqn:F; intros H; inversion H; subst; clear H.
    - intros _ Hne. contradiction.
    - intros _ _. apply find_index_None. exact F.
  Qed.
End EnumFacts.

Definition ext {A} (m m' : list A) : Prop := exists s, m' = m ++ s.
Lemma ext_refl {A} (m : list A) : ext m m.
Proof. exists []. rewrite app_nil_r. reflexivity. Qed.
Lemma ext_trans {A} (a b c : list A) : ext a b -> ext b c -> ext a c.
Proof. intros [s ->] [t ->]. exists (s ++ t). rewrite app_assoc. reflexivity. Qed.
Lemma ext_nth {A} (m m' : list A) n y : ext m m' -> nth_error m n = Some y -> nth_error m' n = Some y.
Proof.
  intros [s ->] H. rewrite nth_error_app1; [exact H|]. apply nth_error_Some. rewrite H. discriminate.
Qed.

(* reversed(): looking a number up in the reversed dict gives the registered item *)
Lemma dgeti_reversed_from {A} (f : A -> value) e : forall k i x,
  nth_error e i = Some x -> dgeti (Z.of_nat (k + i)) (reversed_from f k e) = Some (f x).
Proof.
  induction e as [|y r IH]; intros k i x H; [destruct i; discriminate|].
  destruct i as [|i]; cbn in *.
  - inversion H; subst. rewrite Nat.add_0_r, Z.eqb_refl. reflexivity.
  - destruct (Z.eqb_spec (Z.of_nat (k + S i)) (Z.of_nat k)) as [E|_]; [lia|].
    replace (k + S i)%nat with (S k + i)%nat by lia. apply IH. exact H.
Qed.
Lemma dgeti_reversed {A} (f : A -> value) e i x :
  nth_error e i = Some x -> dgeti (Z.of_nat i) (enum_reversed f e) = Some (f x).
Proof. intros H. apply (dgeti_reversed_from f e 0 i x H). Qed.

(* the table SerializeMemoizer.deserialize builds from a memo: number -> object *)
Fixpoint tbl_from (k : nat) (m : memo) : memo_tbl :=
  match m with [] => [] | e :: r => (Z.of_nat k, e) :: tbl_from (S k) r end.
Definition tbl_of (m : memo) : memo_tbl := tbl_from 0 m.
Lemma tbl_get_from m : forall k i, tbl_get (Z.of_nat (k + i)) (tbl_from k m) = nth_error m i.
Proof.
  induction m as [|e r IH]; intros k i; [destruct i; reflexivity|].
  destruct i as [|i]; cbn.
  - rewrite Nat.add_0_r, Z.eqb_refl. reflexivity.
  - destruct (Z.eqb_spec (Z.of_nat (k + S i)) (Z.of_nat k)) as [E|_]; [lia|].
    replace (k + S i)%nat with (S k + i)%nat by lia. apply IH.
Qed.
Lemma tbl_get_of m i : tbl_get (Z.of_nat i) (tbl_of m) = nth_error m i.
Proof. apply (tbl_get_from m 0 i). Qed.

(* a freshly built parser holds its pattern flags in a frozenset *)
Definition flags_ok (f : flagsv) : Prop := match f with FSet _ => True | FList _ => False end.
Definition pattern_flags (p : pattern) : flagsv := match p with PatStr _ f _ | PatRE _ f _ _ => f end.
Definition pattern_ok (p : pattern) : Prop := flags_ok (pattern_flags p).
Definition termdef_ok (t : termdef) : Prop := pattern_ok (td_pattern t).
Definition mentry_ok (e : mentry) : Prop := match e with MTerm t => termdef_ok t | MRule _ => True end.

Lemma flags_roundtrip f : flags_ok f -> deser_flags (ser_flags f) = Some f.
Proof.
  destruct f as [l|l]; cbn; [intros _|contradiction].
  unfold deser_flags. rewrite (omap_map as_str VStr) by reflexivity. reflexivity.
Qed.
Lemma width_roundtrip w : deser_width (ser_width w) = Some w.
Proof. destruct w; reflexivity. Qed.
Arguments deser_flags : simpl never.
Arguments ser_flags : simpl never.
Arguments deser_width : simpl never.
Arguments ser_width : simpl never.

Lemma pattern_roundtrip p : pattern_ok p -> exists v, ser_pattern p = Some v /\ deser_pattern v = Some p.
Proof.
  destruct p as [pv fl raw|pv fl raw w]; unfold pattern_ok; cbn [pattern_flags]; intros Hf;
    (eexists; split; [reflexivity|]); cbn; rewrite (flags_roundtrip _ Hf), as_ostr_of_ostr; cbn; [reflexivity|].
  rewrite width_roundtrip. reflexivity.
Qed.
Arguments ser_pattern : simpl never.
Arguments deser_pattern : simpl never.

Lemma termdef_roundtrip t :
  termdef_ok t ->
  exists d, ser_termdef_full t = Some (VDict d) /\ type_of d = Some "TerminalDef" /\ deser_termdef_full d = Some t.
Proof.
  destruct t as [n p pr]. unfold termdef_ok. cbn [td_pattern]. intros Hp.
  destruct (pattern_roundtrip p Hp) as (pv & E & D). unfold ser_termdef_full, ser_obj. cbn. rewrite E. cbn.
  eexists. split; [reflexivity|]. split; [reflexivity|]. cbn. rewrite D. reflexivity.
Qed.

Lemma sym_roundtrip s : exists v, ser_sym s = Some v /\ deser_sym v = Some s.
Proof. destruct s; eexists; split; reflexivity. Qed.
Arguments ser_sym : simpl never.
Arguments deser_sym : simpl never.
Lemma syms_roundtrip l : exists vs, omap ser_sym l = Some vs /\ omap deser_sym vs = Some l.
Proof.
  induction l as [|s r (vs & E & D)]; [now exists []|].
  destruct (sym_roundtrip s) as (v & Es & Ds). exists (v :: vs). cbn. now rewrite Es, E, Ds, D.
Qed.

Lemma rule_options_roundtrip o : exists v, ser_rule_options o = Some v /\ deser_rule_options v = Some o.
Proof.
  destruct o as [k e p ts ei]. eexists. split; [reflexivity|]. cbn.
  rewrite as_oint_of_oint, as_ostr_of_ostr. cbn. rewrite (omap_map as_bool VBool) by reflexivity. reflexivity.
Qed.
Arguments ser_rule_options : simpl never.
Arguments deser_rule_options : simpl never.

Lemma rule_roundtrip r :
  exists d, ser_rule_full r = Some (VDict d) /\ type_of d = Some "Rule" /\ deser_rule_full d = Some r.
Proof.
  destruct r as [o ex ord al op].
  destruct (sym_roundtrip o) as (ov & E1 & D1), (syms_roundtrip ex) as (exv & E2 & D2),
           (rule_options_roundtrip op) as (opv & E3 & D3).
  unfold ser_rule_full, ser_obj. cbn. rewrite E1, E2. cbn. rewrite E3. cbn.
  eexists. split; [reflexivity|]. split; [reflexivity|].
  cbn. rewrite D1. cbn. rewrite D2. cbn. rewrite as_ostr_of_ostr. cbn. rewrite D3. reflexivity.
Qed.

(* SerializeMemoizer.deserialize restores every memoised object *)
Lemma mentry_roundtrip e : mentry_ok e -> exists v, ser_mentry_full e = Some v /\ deser_mentry v = Some e.
Proof.
  destruct e as [t|r]; cbn [mentry_ok ser_mentry_full]; intros Hok;
    [destruct (termdef_roundtrip t Hok) as (d & E & Ht & Hd) | destruct (rule_roundtrip r) as (d & E & Ht & Hd)];
    (exists (VDict d); split; [exact E|]); unfold deser_mentry, typed_dict; rewrite Ht; cbn; rewrite Hd; reflexivity.
Qed.

Lemma memo_from_roundtrip m : forall k,
  Forall mentry_ok m -> exists d, ser_memo_from k m = Some d /\ deser_memo d = Some (tbl_from k m).
Proof.
  induction m as [|e r IH]; cbn; intros k Hok; [now exists []|].
  inversion Hok as [|? ? Ho Hr]; subst.
  destruct (mentry_roundtrip e Ho) as (v & E & D), (IH (S k) Hr) as (d & F & G).
  rewrite E, F. eexists. split; [reflexivity|]. cbn. rewrite D, G. reflexivity.
Qed.

Theorem memo_roundtrip m mj :
  Forall mentry_ok m -> ser_memo m = Some mj ->
  exists d, mj = VDict d /\ deser_memo d = Some (tbl_of m) /\
            forall n, tbl_get (Z.of_nat n) (tbl_of m) = nth_error m n.
Proof.
  unfold ser_memo. intros Hok H. destruct (memo_from_roundtrip m 0 Hok) as (d & E & D). rewrite E in H.
  inversion H; subst. exists d. split; [reflexivity|]. split; [exact D|]. apply tbl_get_of.
Qed.

Lemma sym_keyeqb_refl s : sym_keyeqb s s = true.
Proof. destruct s; cbn; apply String.eqb_refl. Qed.
Lemma list_eqb_refl {A} (e : A -> A -> bool) l : (forall x, e x x = true) -> list_eqb e l l = true.
Proof. intros H. induction l; cbn; [reflexivity|]. rewrite H, IHl. reflexivity. Qed.
Lemma mentry_keyeqb_refl e : mentry_keyeqb e e = true.
Proof.
  destruct e as [t|r]; cbn; [apply String.eqb_refl|].
  rewrite sym_keyeqb_refl, (list_eqb_refl _ _ sym_keyeqb_refl). reflexivity.
Qed.

(* Serialisation with the memo threaded through.  Every lemma of this section has one shape: from a memo m
   inside U the serialiser succeeds with a memo m' that is still inside U and extends m, and under every further
   extension mf of m' (the memo grows until the whole instance is done) the value deserialises back. *)
Section Refs.
  (* U: the memoised objects of the instance being saved.  Python keys the memo by Rule.__eq__ / object identity;
     inside one instance two objects with the same key are the same object. *)
  Variable U : list mentry.
  Hypothesis U_unique : forall a b, In a U -> In b U -> mentry_keyeqb a b = true -> a = b.

  Lemma ser_mentry_ok e m :
    In e U -> incl m U ->
    exists n m', ser_mentry e m = Some (VRef n, m') /\ incl m' U /\ ext m m' /\
      forall mf, ext m' mf -> nth_error mf n = Some e.
  Proof.
    intros He Hm. unfold ser_mentry.
    replace (mem_str (mentry_cls e) memo_types) with true by (destruct e; reflexivity).
    unfold ser_memoized. destruct (enum_get mentry_keyeqb m e) as [n m'] eqn:G.
    destruct (enum_get_spec mentry_keyeqb e m n m' (mentry_keyeqb_refl e) G) as (Hext & y & Hn & Hk & Hy).
    assert (y = e) as -> by (destruct Hy as [Hy | ->]; [symmetry; apply U_unique; auto | reflexivity]).
    exists n, m'. split; [reflexivity|]. repeat split.
    - destruct Hext as [-> | ->]; [exact Hm|]. apply incl_app; [exact Hm|]. intros z [<-|[]]. exact He.
    - destruct Hext as [-> | ->]; [apply ext_refl | now exists [e]].
    - intros mf Hmf. apply (ext_nth _ _ _ _ Hmf Hn).
  Qed.

  (* Rule.deserialize / _deserialize on a reference *)
  Lemma deser_rule_ref r mf n : nth_error mf n = Some (MRule r) -> deser_rule (tbl_of mf) (VRef n) = Some r.
  Proof. intros H. unfold deser_rule, deser_ref, VRef. cbn [dhas dget REF_KEY String.eqb Ascii.eqb Bool.eqb]. rewrite tbl_get_of, H. reflexivity. Qed.
  Lemma deser_termdef_ref t mf n : nth_error mf n = Some (MTerm t) -> deser_termdef (tbl_of mf) (VRef n) = Some t.
  Proof. intros H. unfold deser_termdef, deser_ref, VRef. cbn [dhas dget REF_KEY TYPE_KEY String.eqb Ascii.eqb Bool.eqb]. rewrite tbl_get_of, H. reflexivity. Qed.

  Lemma ser_mlist_ok {A} (inj : A -> mentry) (D : memo_tbl -> value -> option A) :
    (forall x mf n, nth_error mf n = Some (inj x) -> D (tbl_of mf) (VRef n) = Some x) ->
    forall l m, Forall (fun x => In (inj x) U) l -> incl m U ->
    exists vs m', ser_mlist inj l m = Some (VList vs, m') /\ incl m' U /\ ext m m' /\ (l <> [] -> m' <> []) /\
      forall mf, ext m' mf -> omap (D (tbl_of mf)) vs = Some l.
  Proof.
    intros HD. unfold ser_mlist. induction l as [|x l IH]; intros m Hl Hm; cbn [ser_list_m].
    - exists [], m. repeat split; auto using ext_refl.
    - inversion Hl as [|? ? Hx Hr]; subst.
      destruct (ser_mentry_ok (inj x) m Hx Hm) as (n & m1 & -> & Hi1 & He1 & Hn).
      destruct (IH m1 Hr Hi1) as (vs & m2 & E & Hi2 & He2 & _ & Hd).
      destruct (ser_list_m _ l m1) as [[vs' m2']|]; [|discriminate]. injection E as -> ->.
      exists (VRef n :: vs), m2. split; [reflexivity|]. split; [exact Hi2|].
      split; [exact (ext_trans _ _ _ He1 He2)|]. split.
      + intros _ K. specialize (Hn m2 He2). rewrite K in Hn. destruct n; discriminate.
      + intros mf Hmf. cbn [omap]. rewrite (HD _ _ _ (Hn mf (ext_trans _ _ _ He2 Hmf))), (Hd mf Hmf). reflexivity.
  Qed.

  Definition act_in (a : action) : Prop := match a with Reduce r => In (MRule r) U | Shift _ => True end.
  Definition acts_in (acts : list (string * action)) : Prop := Forall (fun ta => act_in (snd ta)) acts.

  (* Shift / Reduce tags are preserved *)
  Lemma ser_action_ok a m :
    act_in a -> incl m U ->
    exists v m', ser_action a m = Some (v, m') /\ incl m' U /\ ext m m' /\
      forall mf, ext m' mf -> deser_action (tbl_of mf) v = Some a.
  Proof.
    destruct a as [s|r]; cbn [act_in ser_action]; intros Ha Hm.
    - eexists _, m. split; [reflexivity|]. repeat split; auto using ext_refl.
    - destruct (ser_mentry_ok _ m Ha Hm) as (n & m' & -> & Hi & He & Hn).
      eexists _, m'. split; [reflexivity|]. split; [exact Hi|]. split; [exact He|]. intros mf Hmf.
      unfold deser_action. change (Z.eqb reduce_tag_ser reduce_tag_deser) with true. cbv iota.
      rewrite (deser_rule_ref _ _ _ (Hn mf Hmf)). reflexivity.
  Qed.

  Lemma enum_get_str tk tok i tk1 :
    enum_get String.eqb tk tok = (i, tk1) -> ext tk tk1 /\ nth_error tk1 i = Some tok.
  Proof.
    intros G. destruct (enum_get_spec String.eqb tok tk i tk1 (String.eqb_refl tok) G) as (Hext & y & Hn & Hk & _).
    apply String.eqb_eq in Hk. subst y. split; [|exact Hn].
    destruct Hext as [-> | ->]; [apply ext_refl | now exists [tok]].
  Qed.

  (* the token Enumerator tk grows along with the memo; tkf is its final state *)
  Lemma ser_actions_ok acts : forall tk m,
    acts_in acts -> incl m U ->
    exists d tk' m', ser_actions acts tk m = Some ((d, tk'), m') /\ incl m' U /\ ext m m' /\ ext tk tk' /\
      forall mf tkf, ext m' mf -> ext tk' tkf ->
        deser_actions (tbl_of mf) (enum_reversed VStr tkf) d = Some acts.
  Proof.
    induction acts as [|[tok a] r IH]; cbn [ser_actions]; intros tk m Ha Hm.
    - exists [], tk, m. repeat split; auto using ext_refl.
    - inversion Ha as [|? ? Ha1 Ha2]; subst. cbn in Ha1.
      destruct (enum_get String.eqb tk tok) as [i tk1] eqn:G. destruct (enum_get_str _ _ _ _ G) as (Ht1 & Hn).
      destruct (ser_action_ok a m Ha1 Hm) as (v & m1 & -> & Hi1 & He1 & Hd1).
      destruct (IH tk1 m1 Ha2 Hi1) as (d & tk2 & m2 & -> & Hi2 & He2 & Ht2 & Hd2).
      eexists _, tk2, m2. split; [reflexivity|]. split; [exact Hi2|].
      split; [exact (ext_trans _ _ _ He1 He2)|]. split; [exact (ext_trans _ _ _ Ht1 Ht2)|].
      intros mf tkf Hmf Htkf. cbn [deser_actions].
      rewrite (dgeti_reversed VStr tkf i tok (ext_nth _ _ _ _ (ext_trans _ _ _ Ht2 Htkf) Hn)). cbn [obind as_str].
      rewrite (Hd1 mf (ext_trans _ _ _ He2 Hmf)), (Hd2 mf tkf Hmf Htkf). reflexivity.
  Qed.

  Definition table_in (t : table) : Prop := Forall (fun sa => acts_in (snd sa)) (t_states t).

  Lemma ser_states_ok sts : forall tk m,
    Forall (fun sa => acts_in (snd sa)) sts -> incl m U ->
    exists d tk' m', ser_states sts tk m = Some ((d, tk'), m') /\ incl m' U /\ ext m m' /\ ext tk tk' /\
      forall mf tkf, ext m' mf -> ext tk' tkf ->
        deser_states (tbl_of mf) (enum_reversed VStr tkf) d = Some sts.
  Proof.
    induction sts as [|[s acts] r IH]; cbn [ser_states]; intros tk m Ha Hm.
    - exists [], tk, m. repeat split; auto using ext_refl.
    - inversion Ha as [|? ? Ha1 Ha2]; subst. cbn in Ha1.
      destruct (ser_actions_ok acts tk m Ha1 Hm) as (d1 & tk1 & m1 & -> & Hi1 & He1 & Ht1 & Hd1).
      destruct (IH tk1 m1 Ha2 Hi1) as (d2 & tk2 & m2 & -> & Hi2 & He2 & Ht2 & Hd2).
      eexists _, tk2, m2. split; [reflexivity|]. split; [exact Hi2|].
      split; [exact (ext_trans _ _ _ He1 He2)|]. split; [exact (ext_trans _ _ _ Ht1 Ht2)|].
      intros mf tkf Hmf Htkf. cbn [deser_states].
      rewrite (Hd1 mf tkf (ext_trans _ _ _ He2 Hmf) (ext_trans _ _ _ Ht2 Htkf)), (Hd2 mf tkf Hmf Htkf). reflexivity.
  Qed.

  Lemma name_map_roundtrip l : deser_name_map (map (fun kv => (VStr (fst kv), VInt (snd kv))) l) = Some l.
  Proof. induction l as [|[k s] r IH]; cbn; [reflexivity|]. rewrite IH. reflexivity. Qed.

  Lemma ser_table_ok t m :
    table_in t -> incl m U ->
    exists v m', ser_table t m = Some (v, m') /\ incl m' U /\ ext m m' /\
      forall mf, ext m' mf -> deser_table (tbl_of mf) v = Some t.
  Proof.
    destruct t as [sts st en]. unfold table_in, ser_table. cbn [t_states t_start t_end]. intros Ht Hm.
    destruct (ser_states_ok sts [] m Ht Hm) as (d & tk & m' & -> & Hi & He & _ & Hd).
    eexists _, m'. split; [reflexivity|]. split; [exact Hi|]. split; [exact He|]. intros mf Hmf.
    unfold deser_table, ser_name_map. cbn.
    rewrite (Hd mf tk Hmf (ext_refl _)). cbn. rewrite !name_map_roundtrip. reflexivity.
  Qed.

  Lemma option_map_plain (x : option value) : option_map (apply_kind RPlain) x = x.
  Proof. destruct x; reflexivity. Qed.

  (* every option-derived attribute of the LexerConf is re-supplied on load exactly as the constructor call in
     Lark.__init__ computes it (fields_restored, LexerConf part, used through computation) *)
  Lemma ser_lexer_conf_ok c m :
    Forall (fun t => In (MTerm t) U) (lc_terminals c) -> incl m U ->
    exists v m', ser_lexer_conf c m = Some (v, m') /\ incl m' U /\ ext m m' /\
      forall mf, ext m' mf -> forall o,
        deser_lexer_conf (tbl_of mf) o v =
        mk_lexer_conf (lc_terminals c) (lc_ignore c) (lc_lexer_type c) (fun x => lc_attr_at_build x o).
  Proof.
    destruct c as [terms ign gf ub lt cb rm pl]. cbn [lc_terminals lc_ignore lc_lexer_type]. intros Ht Hm.
    destruct (ser_mlist_ok MTerm deser_termdef deser_termdef_ref terms m Ht Hm) as (vs & m' & E & Hi & He & _ & Hd).
    unfold ser_lexer_conf, ser_obj_m. cbn. rewrite E.
    eexists _, m'. split; [reflexivity|]. split; [exact Hi|]. split; [exact He|]. intros mf Hmf o.
    unfold deser_lexer_conf. cbn. rewrite (Hd mf Hmf). cbn. rewrite (omap_map as_str VStr) by reflexivity. cbn.
    unfold mk_lexer_conf. cbn. rewrite !option_map_plain. reflexivity.
  Qed.

  Lemma ser_parser_conf_ok c m :
    Forall (fun r => In (MRule r) U) (pc_rules c) -> incl m U ->
    exists v m', ser_parser_conf c m = Some (v, m') /\ incl m' U /\ ext m m' /\
      forall mf, ext m' mf -> deser_parser_conf (tbl_of mf) v = Some c.
  Proof.
    destruct c as [rules st pt]. cbn [pc_rules]. intros Hr Hm.
    destruct (ser_mlist_ok MRule deser_rule deser_rule_ref rules m Hr Hm) as (vs & m' & E & Hi & He & _ & Hd).
    unfold ser_parser_conf, ser_obj_m. cbn. rewrite E.
    eexists _, m'. split; [reflexivity|]. split; [exact Hi|]. split; [exact He|]. intros mf Hmf.
    unfold deser_parser_conf. cbn. rewrite (Hd mf Hmf). cbn. rewrite (omap_map as_str VStr) by reflexivity. reflexivity.
  Qed.

  Definition fe_in (fe : frontend) : Prop :=
    Forall (fun t => In (MTerm t) U) (lc_terminals (fe_lexer_conf fe)) /\
    Forall (fun r => In (MRule r) U) (pc_rules (fe_parser_conf fe)) /\
    table_in (fe_parser fe).
  Definition inst_in (i : lark_inst) : Prop :=
    fe_in (li_parser i) /\ Forall (fun r => In (MRule r) U) (li_rules i).

  Definition fe_restored (mf : memo) (fe : frontend) (lcv pcv tv : value) : Prop :=
    (forall o, deser_lexer_conf (tbl_of mf) o lcv =
               mk_lexer_conf (lc_terminals (fe_lexer_conf fe)) (lc_ignore (fe_lexer_conf fe))
                             (lc_lexer_type (fe_lexer_conf fe)) (fun x => lc_attr_at_build x o)) /\
    deser_parser_conf (tbl_of mf) pcv = Some (fe_parser_conf fe) /\
    deser_table (tbl_of mf) tv = Some (fe_parser fe).

  Lemma ser_frontend_ok fe m :
    fe_in fe -> incl m U ->
    exists lcv pcv tv m',
      ser_frontend fe m =
        Some (VObj "ParsingFrontend" [("lexer_conf", lcv); ("parser_conf", pcv); ("parser", tv)], m') /\
      incl m' U /\ ext m m' /\ forall mf, ext m' mf -> fe_restored mf fe lcv pcv tv.
  Proof.
    destruct fe as [lc pc tb]. unfold fe_in, fe_restored. cbn [fe_lexer_conf fe_parser_conf fe_parser].
    intros (Ht & Hr & Htb) Hm.
    destruct (ser_lexer_conf_ok lc m Ht Hm) as (lcv & m1 & E1 & Hi1 & He1 & Hd1).
    destruct (ser_parser_conf_ok pc m1 Hr Hi1) as (pcv & m2 & E2 & Hi2 & He2 & Hd2).
    destruct (ser_table_ok tb m2 Htb Hi2) as (tv & m3 & E3 & Hi3 & He3 & Hd3).
    unfold ser_frontend, ser_obj_m. cbn. rewrite E1, E2, E3.
    exists lcv, pcv, tv, m3. split; [reflexivity|]. split; [exact Hi3|].
    split; [exact (ext_trans _ _ _ He1 (ext_trans _ _ _ He2 He3))|]. intros mf Hmf.
    pose proof (ext_trans _ _ _ He3 Hmf) as Hmf2. split; [|split].
    - apply Hd1. exact (ext_trans _ _ _ He2 Hmf2).
    - apply Hd2. exact Hmf2.
    - apply Hd3. exact Hmf.
  Qed.

  Lemma ser_lark_ok i m :
    inst_in i -> incl m U ->
    exists lcv pcv tv rvs m',
      ser_lark i m =
        Some (VObj "Lark" [("parser", VObj "ParsingFrontend" [("lexer_conf", lcv); ("parser_conf", pcv); ("parser", tv)]);
                           ("rules", VList rvs); ("options", ser_options (li_options i))], m') /\
      incl m' U /\ (li_rules i <> [] -> m' <> []) /\
      forall mf, ext m' mf ->
        fe_restored mf (li_parser i) lcv pcv tv /\ omap (deser_rule (tbl_of mf)) rvs = Some (li_rules i).
  Proof.
    destruct i as [fe rules o]. unfold inst_in. cbn [li_parser li_rules li_options]. intros (Hfe & Hrs) Hm.
    destruct (ser_frontend_ok fe m Hfe Hm) as (lcv & pcv & tv & m1 & E1 & Hi1 & _ & Hd1).
    destruct (ser_mlist_ok MRule deser_rule deser_rule_ref rules m1 Hrs Hi1) as (rvs & m2 & E2 & Hi2 & He2 & Hne & Hd2).
    unfold ser_lark, ser_obj_m. cbn. rewrite E1, E2.
    exists lcv, pcv, tv, rvs, m2. split; [reflexivity|]. split; [exact Hi2|]. split; [exact Hne|].
    intros mf Hmf. split; [apply Hd1; exact (ext_trans _ _ _ He2 Hmf) | apply Hd2; exact Hmf].
  Qed.
End Refs.

Definition wf_inst (i : lark_inst) : Prop :=
  (* memo keys identify objects (Rule.__eq__ on (origin, expansion); TerminalDef names are unique) *)
  (forall a b, In a (entries i) -> In b (entries i) -> mentry_keyeqb a b = true -> a = b) /\
  (* freshly built patterns keep their flags in a frozenset *)
  Forall termdef_ok (lc_terminals (fe_lexer_conf (li_parser i))) /\
  li_rules i <> [].

Lemma actions_rules_in acts : forall U, (forall r, In r (actions_rules acts) -> In (MRule r) U) -> acts_in U acts.
Proof.
  induction acts as [|[tok a] r IH]; intros U H; [constructor|].
  constructor.
  - destruct a as [s|rl]; cbn; [exact I|]. apply H. cbn. auto.
  - apply IH. intros x Hx. apply H. destruct a; cbn; auto.
Qed.
Lemma table_in_rules U t : (forall r, In r (table_rules t) -> In (MRule r) U) -> table_in U t.
Proof.
  intros H. apply Forall_forall. intros [s acts] Hs. apply actions_rules_in. intros r Hr.
  apply H. apply in_flat_map. exists (s, acts). auto.
Qed.
Lemma inst_in_entries i : inst_in (entries i) i.
Proof.
  unfold inst_in, fe_in, entries.
  repeat split; [apply Forall_forall | apply Forall_forall | apply table_in_rules | apply Forall_forall];
    intros x Hx; rewrite !in_app_iff; auto 6 using in_map.
Qed.
Lemma entries_ok i : wf_inst i -> forall e, In e (entries i) -> mentry_ok e.
Proof.
  intros (_ & Ht & _) [t|r] He; cbn; [|exact I].
  unfold entries in He. apply in_app_or in He. destruct He as [He|He].
  - apply in_map_iff in He. destruct He as (t' & Heq & Hin). inversion Heq; subst.
    rewrite Forall_forall in Ht. apply Ht. exact Hin.
  - repeat (apply in_app_or in He; destruct He as [He|He]);
      apply in_map_iff in He; destruct He as (x & Heq & _); discriminate.
Qed.

Lemma memo_serialize_ok i :
  wf_inst i ->
  exists lcv pcv tv rvs d mf,
    memo_serialize i =
      Some (VObj "Lark" [("parser", VObj "ParsingFrontend" [("lexer_conf", lcv); ("parser_conf", pcv); ("parser", tv)]);
                         ("rules", VList rvs); ("options", ser_options (li_options i))], VDict d) /\
    d <> [] /\ deser_memo d = Some (tbl_of mf) /\
    fe_restored mf (li_parser i) lcv pcv tv /\ omap (deser_rule (tbl_of mf)) rvs = Some (li_rules i).
Proof.
  intros Hwf. pose proof Hwf as (Huniq & Hterms & Hne). unfold memo_serialize.
  destruct (ser_lark_ok (entries i) Huniq i [] (inst_in_entries i) (incl_nil_l _))
    as (lcv & pcv & tv & rvs & m & -> & Hi & Hnm & Hd).
  assert (Hok : Forall mentry_ok m).
  { apply Forall_forall. intros e He. apply (entries_ok i Hwf). apply Hi. exact He. }
  unfold ser_memo. destruct (memo_from_roundtrip m 0 Hok) as (d & Ed & Dd). rewrite Ed. cbn.
  exists lcv, pcv, tv, rvs, d, m. split; [reflexivity|]. destruct (Hd m (ext_refl m)) as (Hfe & Hr).
  split; [|auto]. intros ->. apply (Hnm Hne). destruct m; [reflexivity | discriminate Dd].
Qed.

Lemma to_options_ser o : to_options (map (fun kv => (VStr (fst kv), snd kv)) o) = Some o.
Proof. induction o as [|[k v] r IH]; cbn; [reflexivity|]. rewrite IH. reflexivity. Qed.
Lemma drop_options_nil o : drop_options [] o = o.
Proof. unfold drop_options. induction o as [|kv r IH]; cbn; [reflexivity|]. f_equal. exact IH. Qed.

Lemma mk_lexer_conf_fields t ig lt f lc :
  mk_lexer_conf t ig lt f = Some lc -> lc_terminals lc = t /\ lc_ignore lc = ig /\ lc_lexer_type lc = lt.
Proof.
  unfold mk_lexer_conf. intros H.
  destruct (obind (f "g_regex_flags") as_int); [|discriminate]. cbn in H.
  destruct (obind (f "use_bytes") as_bool); [|discriminate]. cbn in H.
  destruct (f "callbacks"); [|discriminate]. cbn in H.
  destruct (obind (f "re_module") as_bool); [|discriminate]. cbn in H.
  destruct (f "postlex"); [|discriminate]. cbn in H. inversion H; subst. auto.
Qed.

Theorem load_save g O i excl kw :
  build g O = Some i -> wf_inst i ->
  exists dm, save i excl = Some dm /\
    load dm kw = if kw_rejected kw then None
                 else obind (lark_options_init (aupdate (drop_options excl O) kw)) (build g).
Proof.
  intros Hb Hwf.
  destruct (memo_serialize_ok i Hwf) as (lcv & pcv & tv & rvs & d & mf & Hms & Hdne & Hmemo & Hfe & Hrules).
  unfold build in Hb.
  destruct (mk_lexer_conf (g_terminals g) (g_ignore g) (g_lexer_type g) (fun x => lc_attr_at_build x O)) as [lc|] eqn:Elc;
    [|discriminate]. cbn in Hb. inversion Hb; subst i; clear Hb.
  destruct (mk_lexer_conf_fields _ _ _ _ _ Elc) as (L1 & L2 & L3).
  cbn [li_options li_rules li_parser] in *.
  destruct Hfe as (Hlc & Hpc & Htb). cbn [fe_lexer_conf fe_parser_conf fe_parser] in *.
  rewrite L1, L2, L3 in Hlc.
  unfold save. rewrite Hms. unfold VObj at 1. cbn [map fst snd app].
  (* what Lark._load computes once the options dict o0 has been read back *)
  assert (Fin : forall o0,
    (if negb (truthy (VDict d)) then None else
     obind (deser_memo d) (fun t =>
     obind (Some o0) (fun o0 =>
     if kw_rejected kw then None else
     obind (lark_options_init (aupdate o0 kw)) (fun o =>
     obind (omap (deser_rule t) rvs) (fun rules =>
     obind (deser_lexer_conf t o lcv) (fun lc0 =>
     obind (deser_parser_conf t pcv) (fun pc =>
     obind (deser_table t tv) (fun tb => Some (mkLark (mkFE lc0 pc tb) rules o)))))))))
    = if kw_rejected kw then None else obind (lark_options_init (aupdate o0 kw)) (build g)).
  { intros o0. destruct d as [|kv d']; [congruence|]. cbn [truthy negb]. cbv iota.
    rewrite Hmemo. cbn [obind]. destruct (kw_rejected kw); [reflexivity|].
    destruct (lark_options_init (aupdate o0 kw)) as [o|]; [|reflexivity]. cbn [obind].
    rewrite Hrules, Hlc, Hpc, Htb. cbn [obind]. unfold build.
    destruct (mk_lexer_conf (g_terminals g) (g_ignore g) (g_lexer_type g) (fun x => lc_attr_at_build x o)); reflexivity. }
  destruct excl as [|x excl]; (eexists; split; [reflexivity|]);
    unfold load; cbn; unfold ser_options; rewrite to_options_ser, ?drop_options_nil; apply Fin.
Qed.

Lemma aget_aset k k' v o : aget k (aset k' v o) = if String.eqb k k' then Some v else aget k o.
Proof.
  induction o as [|[k2 v2] r IH]; cbn.
  - destruct (String.eqb k k'); reflexivity.
  - destruct (String.eqb_spec k' k2) as [->|N]; cbn.
    + destruct (String.eqb k k2); reflexivity.
    + destruct (String.eqb_spec k k2) as [->|N2].
      * destruct (String.eqb_spec k2 k') as [E|_]; [congruence|reflexivity].
      * exact IH.
Qed.
Lemma aget_Some_in {A} k (o : list (string * A)) v : aget k o = Some v -> In k (map fst o).
Proof.
  induction o as [|[k2 v2] r IH]; cbn; [discriminate|]. destruct (String.eqb_spec k k2); auto.
Qed.
Lemma aget_None_notin {A} k (o : list (string * A)) : ~ In k (map fst o) -> aget k o = None.
Proof. intros H. destruct (aget k o) eqn:E; [apply aget_Some_in in E; contradiction | reflexivity]. Qed.
Lemma aget_aupdate kw : forall o k, NoDup (map fst kw) ->
  aget k (aupdate o kw) = match aget k kw with Some v => Some v | None => aget k o end.
Proof.
  unfold aupdate. induction kw as [|[k' v] r IH]; cbn; intros o k Hnd; [reflexivity|].
  inversion Hnd as [|? ? Hni Hnd']; subst. rewrite (IH _ _ Hnd'), aget_aset.
  destruct (String.eqb_spec k k') as [->|N]; [|reflexivity]. now rewrite (aget_None_notin _ _ Hni).
Qed.
Lemma aget_drop excl o k : aget k (drop_options excl o) = if mem_str k excl then None else aget k o.
Proof.
  unfold drop_options. induction o as [|[k2 v2] r IH]; cbn; [destruct (mem_str k excl); reflexivity|].
  destruct (mem_str k2 excl) eqn:M; cbn.
  - rewrite IH. destruct (String.eqb_spec k k2) as [->|N]; [rewrite M|]; reflexivity.
  - destruct (String.eqb_spec k k2) as [->|N]; [rewrite M; reflexivity|exact IH].
Qed.
(* Value.mem_str and StandaloneModel.mem are the same function *)
Lemma mem_str_In x l : mem_str x l = true <-> In x l.
Proof. exact (Standalone_proofs.mem_In x l). Qed.
Lemma aset_keys k v o x : In x (map fst (aset k v o)) -> x = k \/ In x (map fst o).
Proof.
  induction o as [|[k2 v2] r IH]; cbn; [intros [<-|[]]; auto|].
  destruct (String.eqb_spec k k2) as [->|N]; cbn; [intros [<-|H]; auto|].
  intros [<-|H]; [auto|]. destruct (IH H); auto.
Qed.
Lemma aupdate_keys kw : forall o x, In x (map fst (aupdate o kw)) -> In x (map fst o) \/ In x (map fst kw).
Proof.
  unfold aupdate. induction kw as [|[k v] r IH]; cbn; intros o x H; [auto|].
  destruct (IH _ _ H) as [H1|H1]; [|auto]. destruct (aset_keys _ _ _ _ H1) as [->|H2]; auto.
Qed.
Lemma norm_option_fst o nd : fst (norm_option o nd) = fst nd.
Proof. destruct nd. reflexivity. Qed.
Lemma norm_option_ext o1 o2 nd : aget (fst nd) o1 = aget (fst nd) o2 -> norm_option o1 nd = norm_option o2 nd.
Proof. destruct nd as [n d]. cbn [fst]. unfold norm_option. intros ->. reflexivity. Qed.

Definition normalized (o : options) : Prop := lark_options_init o = Some o.
Definition allowed_only (kw : options) : Prop := forall k, In k (map fst kw) -> In k load_allowed_options.

Lemma normalized_inv O :
  normalized O ->
  forallb (fun kv => mem_str (fst kv) (map fst option_defaults)) O = true /\ map (norm_option O) option_defaults = O.
Proof.
  unfold normalized, lark_options_init. destruct (forallb _ O); [|discriminate]. intros H. split; [reflexivity|congruence].
Qed.

From LV Require Import Ser.Relevant.

(* the two finite checks over the regenerated option lists, evaluated once *)
Lemma partition_b :
  (forall k, In k (map fst option_defaults) -> xorb (mem_str k load_allowed_options) (mem_str k construction_options) = true) /\
  (forall k, In k (load_allowed_options ++ construction_options) -> In k (map fst option_defaults)).
Proof.
  assert (H : options_partition_b = true) by (vm_compute; reflexivity).
  apply andb_true_iff in H as [H1 H2]. rewrite forallb_forall in H1, H2.
  split; [exact H1 | intros k Hk; apply mem_str_In, H2, Hk].
Qed.

Lemma allowed_not_rejected kw : allowed_only kw -> kw_rejected kw = false.
Proof.
  intros H. unfold kw_rejected. apply not_true_is_false. intros E. apply existsb_exists in E.
  destruct E as ([k v] & Hin & Hb). cbn [fst] in Hb. apply andb_true_iff in Hb. destruct Hb as (Hb & _).
  assert (A : In k load_allowed_options) by (apply H; apply in_map_iff; exists (k, v); auto).
  apply mem_str_In in A. rewrite A in Hb. discriminate.
Qed.

(* what LarkOptions.__init__ makes of the merged dict, key by key *)
Lemma lark_options_init_merge O excl kw :
  normalized O -> NoDup (map fst kw) -> allowed_only kw ->
  lark_options_init (aupdate (drop_options excl O) kw) =
  Some (map (fun nd => norm_option (match aget (fst nd) kw with
                                    | Some v => [(fst nd, v)]
                                    | None => if mem_str (fst nd) excl then [] else O
                                    end) nd) option_defaults).
Proof.
  intros HO Hnd Hkw. destruct (normalized_inv O HO) as (F & _). unfold lark_options_init.
  assert (G : forallb (fun kv => mem_str (fst kv) (map fst option_defaults)) (aupdate (drop_options excl O) kw) = true).
  { apply forallb_forall. intros [k v] Hin. cbn [fst]. apply mem_str_In.
    assert (Hk : In k (map fst (aupdate (drop_options excl O) kw))) by (apply in_map_iff; exists (k, v); auto).
    destruct (aupdate_keys _ _ _ Hk) as [H1|H1].
    - rewrite forallb_forall in F. apply in_map_iff in H1. destruct H1 as ([k2 v2] & <- & Hin2).
      unfold drop_options in Hin2. apply filter_In in Hin2. destruct Hin2 as (Hin2 & _).
      apply mem_str_In. apply (F (k2, v2) Hin2).
    - apply (proj2 partition_b), in_or_app. left. apply Hkw. exact H1. }
  rewrite G. f_equal. apply map_ext. intros nd. apply norm_option_ext.
  rewrite (aget_aupdate _ _ _ Hnd), aget_drop.
  destruct (aget (fst nd) kw) eqn:E; cbn; [rewrite String.eqb_refl; reflexivity|].
  destruct (mem_str (fst nd) excl); reflexivity.
Qed.

(* fields_restored: every attribute the behaviour reads is in the serialised fields of its class, recomputed by a
   _deserialize hook, or assigned by the code that runs on load (a finite check over the regenerated lists) *)
Theorem fields_restored cls f fs :
  In (cls, fs) Relevant -> In f fs -> restored_by cls f = true.
Proof.
  assert (H : fields_restored_b = true) by (vm_compute; reflexivity).
  unfold fields_restored_b in H. rewrite forallb_forall in H.
  intros Hc Hf. specialize (H _ Hc). cbn [fst snd] in H. rewrite forallb_forall in H. apply H. exact Hf.
Qed.

Theorem options_partition k :
  In k (map fst option_defaults) ->
  (In k load_allowed_options /\ ~ In k construction_options) \/ (~ In k load_allowed_options /\ In k construction_options).
Proof.
  intros Hk. pose proof (proj1 partition_b k Hk) as H. rewrite <- !mem_str_In.
  destruct (mem_str k load_allowed_options), (mem_str k construction_options); try discriminate H; intuition congruence.
Qed.

(* deserialize (serialize tbl) = tbl for every parse table whose reduce rules have pairwise different memo keys
   (two rules with one key would be written once and come back as one object) *)
Theorem table_roundtrip t :
  (forall a b, In a (map MRule (table_rules t)) -> In b (map MRule (table_rules t)) -> mentry_keyeqb a b = true -> a = b) ->
  exists v m, ser_table t [] = Some (v, m) /\ deser_table (tbl_of m) v = Some t.
Proof.
  intros Hu.
  destruct (ser_table_ok _ Hu t [] (table_in_rules _ t (in_map MRule _)) (incl_nil_l _)) as (v & m & E & _ & _ & Hd).
  exists v, m. split; [exact E | apply Hd, ext_refl].
Qed.

Lemma enum_get_nodup e x n e' : NoDup e -> enum_get String.eqb e x = (n, e') -> NoDup e'.
Proof.
  intros Hn. unfold enum_get. destruct (find_index String.eqb x e) eqn:F; intros H; inversion H; subst; [exact Hn|].
  apply nodup_snoc; [exact Hn|]. intros K. pose proof (find_index_None _ _ _ F _ K) as E.
  rewrite String.eqb_refl in E. discriminate.
Qed.
Lemma ser_actions_tokens_nodup acts : forall tk m d tk' m',
  NoDup tk -> ser_actions acts tk m = Some ((d, tk'), m') -> NoDup tk'.
Proof.
  induction acts as [|[tok a] r IH]; cbn [ser_actions]; intros tk m d tk' m' Hn H.
  - inversion H; subst. exact Hn.
  - destruct (enum_get String.eqb tk tok) as [i tk1] eqn:G.
    destruct (ser_action a m) as [[v m1]|]; [|discriminate].
    destruct (ser_actions r tk1 m1) as [[[d1 tk2] m2]|] eqn:F; [|discriminate]. inversion H; subst.
    apply (IH _ _ _ _ _ (enum_get_nodup _ _ _ _ Hn G) F).
Qed.
Lemma ser_states_tokens_nodup sts : forall tk m d tk' m',
  NoDup tk -> ser_states sts tk m = Some ((d, tk'), m') -> NoDup tk'.
Proof.
  induction sts as [|[s acts] r IH]; cbn [ser_states]; intros tk m d tk' m' Hn H.
  - inversion H; subst. exact Hn.
  - destruct (ser_actions acts tk m) as [[[d1 tk1] m1]|] eqn:E; [|discriminate].
    destruct (ser_states r tk1 m1) as [[[d2 tk2] m2]|] eqn:F; [|discriminate]. inversion H; subst.
    apply (IH _ _ _ _ _ (ser_actions_tokens_nodup _ _ _ _ _ _ Hn E) F).
Qed.
(* the 'tokens' dict of a serialised table never maps two numbers to the same token *)
Theorem token_numbering_injective t m d tk m' i j x :
  ser_states (t_states t) [] m = Some ((d, tk), m') ->
  nth_error tk i = Some x -> nth_error tk j = Some x -> i = j.
Proof.
  intros H Hi Hj. pose proof (ser_states_tokens_nodup _ _ _ _ _ _ (NoDup_nil _) H) as Hn.
  rewrite NoDup_nth_error in Hn. apply Hn; [apply nth_error_Some; rewrite Hi; discriminate|congruence].
Qed.

(* property C11_saveload: Lark.load (Lark.save i) gives i back *)
Theorem saveload_roundtrip g O i :
  build g O = Some i -> wf_inst i -> normalized O ->
  exists dm, save i [] = Some dm /\ load dm [] = Some i.
Proof.
  intros Hb Hwf HO. destruct (load_save g O i [] [] Hb Hwf) as (dm & Hs & Hl).
  exists dm. split; [exact Hs|]. rewrite Hl. cbn [kw_rejected existsb aupdate fold_left]. rewrite drop_options_nil.
  rewrite HO. exact Hb.
Qed.

(* the cache path: saved without the load-allowed options, which are re-supplied as keyword arguments *)
Theorem cache_roundtrip g O i kw :
  build g O = Some i -> wf_inst i -> normalized O -> NoDup (map fst kw) -> allowed_only kw ->
  (* each load-allowed option of the running instance is what LarkOptions makes of the keyword arguments *)
  (forall k d, In (k, d) option_defaults -> In k load_allowed_options ->
               norm_option (match aget k kw with Some v => [(k, v)] | None => [] end) (k, d) = norm_option O (k, d)) ->
  exists dm, save i load_allowed_options = Some dm /\ load dm kw = Some i.
Proof.
  intros Hb Hwf HO Hnd Hkw Hag.
  destruct (load_save g O i load_allowed_options kw Hb Hwf) as (dm & Hs & Hl).
  exists dm. split; [exact Hs|]. rewrite Hl, (allowed_not_rejected _ Hkw).
  rewrite (lark_options_init_merge O load_allowed_options kw HO Hnd Hkw).
  cbn [obind]. replace (map _ option_defaults) with O; [exact Hb|].
  destruct (normalized_inv O HO) as (_ & HO2). rewrite <- HO2 at 1. apply map_ext_in. intros [k d] Hin. cbn [fst].
  destruct (mem_str k load_allowed_options) eqn:A.
  - apply mem_str_In in A. rewrite <- (Hag k d Hin A). destruct (aget k kw); reflexivity.
  - destruct (aget k kw) eqn:E; [|reflexivity]. exfalso.
    apply aget_Some_in, Hkw, mem_str_In in E. congruence.
Qed.

(* load-time options: a saved parser loaded with load-allowed keyword arguments is the parser a direct construction
   with those options produces; any other known option is refused *)
Theorem load_override g O i kw :
  build g O = Some i -> wf_inst i -> allowed_only kw ->
  exists dm, save i [] = Some dm /\ load dm kw = obind (lark_options_init (aupdate O kw)) (build g).
Proof.
  intros Hb Hwf Hkw. destruct (load_save g O i [] kw Hb Hwf) as (dm & Hs & Hl).
  exists dm. split; [exact Hs|]. rewrite Hl, (allowed_not_rejected _ Hkw), drop_options_nil. reflexivity.
Qed.
Theorem load_rejects g O i k v kw :
  build g O = Some i -> wf_inst i -> In k construction_options ->
  exists dm, save i [] = Some dm /\ load dm ((k, v) :: kw) = None.
Proof.
  intros Hb Hwf Hk. destruct (load_save g O i [] ((k, v) :: kw) Hb Hwf) as (dm & Hs & Hl).
  exists dm. split; [exact Hs|]. rewrite Hl.
  assert (D : In k (map fst option_defaults)) by (apply (proj2 partition_b), in_or_app; auto).
  destruct (options_partition k D) as [[_ N] | [N _]]; [contradiction|].
  unfold kw_rejected. cbn [existsb fst]. apply mem_str_In in D. rewrite D.
  destruct (mem_str k load_allowed_options) eqn:A; [apply mem_str_In in A; contradiction | reflexivity].
Qed.

(* the stand-alone module: DATA / MEMO are printed (or pickled, compressed and base64-encoded) into the module text
   and read back by the Python parser (or pickle); that codec is a Section variable.  What is proved: the literals
   carry exactly memo_serialize's output, Lark_StandAlone (keyword arguments kw) = Lark._load_from_dict (DATA, MEMO, kw) rebuilds
   the instance, and the integers the module rebinds Shift / Reduce to are distinct.  NOT modelled: that the
   extracted sections are the same program as the library. *)
Section Standalone.
  Variable encode : value -> string.
  Variable decode : string -> option value.
  Hypothesis codec : forall v, decode (encode v) = Some v.
  Definition standalone_load (sd sm : string) (kw : options) : option lark_inst :=
    obind (decode sd) (fun d => obind (decode sm) (fun m => load (d, m) kw)).
  Theorem standalone_roundtrip g O i kw :
    build g O = Some i -> wf_inst i -> allowed_only kw ->
    exists data mj, memo_serialize i = Some (data, mj) /\
      standalone_load (encode data) (encode mj) kw = obind (lark_options_init (aupdate O kw)) (build g) /\
      standalone_shift <> standalone_reduce.
  Proof.
    intros Hb Hwf Hkw. destruct (load_override g O i kw Hb Hwf Hkw) as ([data mj] & Hs & Hl).
    unfold save in Hs. destruct (memo_serialize i) as [[dd mm]|] eqn:E; [|discriminate].
    destruct dd; try discriminate. inversion Hs; subst.
    eexists; eexists. split; [reflexivity|]. split; [|discriminate].
    unfold standalone_load. rewrite !codec. cbn [obind]. exact Hl.
  Qed.
End Standalone.

(* regression (found by this development, repaired in lark: Pattern._deserialize): without re-freezing, the
   flags come back as lists and the embedding test of _create_unless changes its answer *)
Lemma flags_list_changes_unless_test :
  exists a b, flags_le (FSet a) (FSet b) = Some false /\
              flags_le (flags_as_list (FSet a)) (flags_as_list (FSet b)) = Some true.
Proof. exists ["i"], ["s"]. split; reflexivity. Qed.
(* with the hook the test is unchanged, whatever the flags *)
Lemma flags_le_preserved a b fa fb :
  flags_ok a -> flags_ok b -> deser_flags (ser_flags a) = Some fa -> deser_flags (ser_flags b) = Some fb ->
  flags_le fa fb = flags_le a b.
Proof.
  intros Ha Hb. rewrite (flags_roundtrip _ Ha), (flags_roundtrip _ Hb). intros H1 H2. inversion H1; inversion H2; subst.
  reflexivity.
Qed.
