(* Proofs about Inst/Writes.v: the finite checks over the regenerated facts hold for the source lark has; what
   they mean for an abstract aheap (frame condition); and the lifting to Inst/Instance.v: a consumer / parser
   that reads whatever the instance holds outside the writable cells behaves after any history as on the fresh
   instance. *)
From Coq Require Import String List Bool Arith Lia.
From LV Require Import Base.Prelude Sys.IndenterBase Inst.WritesBase Gen.InstWrites Inst.Writes
     Inst.IndSteps Inst.Instance Inst.Instance_proofs.
Import ListNotations.
Local Open Scope string_scope.

(* These four are the obligations a change of lark's source can break: a new store into an object the instance may
   hold or through a parameter / call result nobody reviewed (stores_ok), a container of a held class escaping by
   reference (escapes_ok), a new mutable default argument (defaults_ok), a new lazily initialised cell (lazy_ok). *)
Lemma stores_ok_holds : stores_ok = true.
Proof. vm_compute. reflexivity. Qed.

Lemma escapes_ok_holds : escapes_ok = true.
Proof. vm_compute. reflexivity. Qed.

Lemma defaults_ok_holds : defaults_ok = true.
Proof. vm_compute. reflexivity. Qed.

Lemma lazy_ok_holds : lazy_ok = true.
Proof. vm_compute. reflexivity. Qed.

(* exactly these cells of possibly held objects are written on some parse path *)
Lemma writable_held_cells_exact :
  writable_held_cells =
  [ ("Indenter", "indent_level"); ("Indenter", "paren_level"); ("BasicLexer", "callback"); ("BasicLexer", "_scanner");
    ("BasicLexer", "_search_scanner"); ("PatternRE", "_width"); ("Tree", "children"); ("Tree", "_meta") ].
Proof. vm_compute. reflexivity. Qed.

Lemma mem_string_In x l : mem_string x l = true <-> In x l.
Proof.
  induction l as [|y r IH]; cbn; [split; [discriminate|tauto]|].
  destruct (String.eqb_spec x y) as [->|N]; [tauto|].
  rewrite IH. split; [tauto|]. intros [H|H]; [congruence|auto].
Qed.

Lemma mem_pair_In x l : mem_pair x l = true <-> In x l.
Proof.
  unfold mem_pair. rewrite existsb_exists. split.
  - intros (y & Hy & E). unfold pair_eqb in E. apply andb_true_iff in E. destruct E as [E1 E2].
    apply String.eqb_eq in E1, E2. destruct x, y; cbn in *; subst. exact Hy.
  - intros H. exists x. split; auto. unfold pair_eqb. now rewrite !String.eqb_refl.
Qed.

Lemma loc_eqb_eq a b : loc_eqb a b = true <-> a = b.
Proof.
  unfold loc_eqb. destruct a as [o x], b as [o' y]; cbn. rewrite andb_true_iff, Nat.eqb_eq, String.eqb_eq.
  split; [intros [-> ->]; auto|intros H; inversion H; auto].
Qed.

(* [stores_ok] is unfolded by an equation: left to conversion, the checker evaluates forallb over the whole table *)
Lemma stores_ok_forall s : In s stores -> store_ok s = true.
Proof.
  assert (E : stores_ok = forallb store_ok stores) by reflexivity.
  pose proof stores_ok_holds as H. rewrite E in H. exact (proj1 (forallb_forall _ _) H s).
Qed.

Lemma store_ok_self s :
  store_ok s = true -> self_plain s = true -> family_held (s_family s) = true ->
  In (s_cls s, s_attr s) (modelled_cells ++ value_cells).
Proof.
  intros H Hp Hf. unfold store_ok in H. unfold self_plain in Hp. destruct (s_root s); try discriminate Hp.
  apply andb_true_iff in Hp. destruct Hp as [Hc Hd]. apply negb_true_iff in Hc. rewrite Hc, Hf in H.
  apply andb_true_iff in H. destruct H as [_ H]. apply orb_true_iff in H. apply in_or_app.
  destruct H as [H|H]; apply mem_pair_In in H; auto.
Qed.

Lemma writable_iff c a :
  writable c a = true <->
  exists s, In s stores /\ self_plain s = true /\ In c (s_family s) /\ a = s_attr s.
Proof.
  unfold writable. rewrite existsb_exists. split; intros (s & Hin & H); exists s; (split; [exact Hin|]).
  - apply andb_true_iff in H. destruct H as [H Ea]. apply andb_true_iff in H. destruct H as [Hp Hm].
    apply String.eqb_eq in Ea. apply mem_string_In in Hm. exact (conj Hp (conj Hm Ea)).
  - destruct H as (Hp & Hm & ->). apply mem_string_In in Hm. rewrite Hp, Hm. apply String.eqb_refl.
Qed.

Section Frame.
Variable objs : nat -> obj.

Lemma licensed_frame e h o a :
  licensed objs e -> o_held (objs o) = true -> writable (o_cls (objs o)) a = false ->
  exec1 h e (o, a) = h (o, a).
Proof.
  intros (s & Hin & Hfn & Hl) Hh Hw. unfold exec1.
  destruct (loc_eqb (o, a) (w_obj e, w_attr e)) eqn:E; [|reflexivity].
  apply loc_eqb_eq in E. injection E as -> ->. exfalso.
  destruct (self_plain s) eqn:Hp; [|congruence].
  destruct Hl as [Hc Ha]. apply not_true_iff_false in Hw. apply Hw, writable_iff.
  exists s. exact (conj Hin (conj Hp (conj Hc Ha))).
Qed.

Lemma frame_eq_refl h : frame_eq objs h h.
Proof. intros o a _ _. reflexivity. Qed.

Lemma frame_eq_trans h1 h2 h3 : frame_eq objs h1 h2 -> frame_eq objs h2 h3 -> frame_eq objs h1 h3.
Proof. intros A B o a H W. rewrite (A o a H W). apply B; auto. Qed.

Theorem frame tr : forall h, Forall (licensed objs) tr -> frame_eq objs h (exec tr h).
Proof.
  induction tr as [|e r IH]; intros h H; [apply frame_eq_refl|].
  cbn. eapply frame_eq_trans; [|apply IH, (Forall_inv_tail H)].
  intros o a Hh Hw. symmetry. exact (licensed_frame e h o a (Forall_inv H) Hh Hw).
Qed.

(* the cells that can be written are the modelled ones: a held location that a call changes is a cell of the
   instance model or of a value object, of the class that defines the writing method or of a subclass *)
Theorem changed_is_modelled tr h o a :
  typed objs -> Forall (licensed objs) tr -> o_held (objs o) = true ->
  exec tr h (o, a) <> h (o, a) ->
  exists c, In (c, a) (modelled_cells ++ value_cells) /\
            exists s, In s stores /\ s_cls s = c /\ In (o_cls (objs o)) (s_family s).
Proof.
  intros Ht Hl Hh Hne.
  destruct (writable (o_cls (objs o)) a) eqn:W.
  2:{ elim Hne. symmetry. apply (frame tr h Hl o a Hh W). }
  apply writable_iff in W. destruct W as (s & Hin & Hp & Hm & ->).
  exists (s_cls s). split; [|exists s; exact (conj Hin (conj eq_refl Hm))].
  apply store_ok_self; [exact (stores_ok_forall s Hin)|exact Hp|].
  apply existsb_exists. exists (o_cls (objs o)). split; [exact Hm|]. apply mem_string_In, Ht, Hh.
Qed.
End Frame.

(* In Inst/Instance.v a parser is an arbitrary consumer [want : list tok -> bool] inside the operation - a function that
   cannot see the instance.  Here the operation a caller performs (hence the consumer's demand, i.e. the parser's tables,
   callbacks and configuration) is read from the aheap when the call starts, and every call executes an arbitrary
   trace of licensed stores.  Because of the frame condition the probe's reading after any history is its reading of the
   initial aheap, so C10_history_pure applies. *)
Section Lift.
Variables Conf Sc CB LexSt Err Text : Type.
Variable mk_scanner : Conf -> Sc.
Variable mk_callback : Conf -> CB.
Variable mk_search : Conf -> Sc.
Variable at_end : LexSt -> bool.
Variable ntfuel : LexSt -> nat.
Variable init_ls : Text -> nat -> LexSt.
Variable iter : Conf -> Sc -> CB -> LexSt -> iter_res LexSt Err.
Variable search : Sc -> Text -> nat -> option nat.
Variable sc_want : Text -> nat -> list tok -> bool.
Variable sc_end : Text -> nat -> list tok -> pend Err -> option nat.
Variable objs : nat -> obj.

Notation run_op := (run_op mk_scanner mk_callback mk_search at_end ntfuel init_ls iter search sc_want sc_end).
Notation run_hist := (run_hist mk_scanner mk_callback mk_search at_end ntfuel init_ls iter search sc_want sc_end).
Notation op_pure := (op_pure mk_scanner mk_callback mk_search at_end ntfuel init_ls iter search sc_want sc_end).

Record hcall := mkHcall { hc_op : aheap -> op Text; hc_trace : list stev }.

Definition frame_only (f : aheap -> op Text) : Prop := forall h h', frame_eq objs h h' -> f h = f h'.

Fixpoint hrun (fuel : nat) (cf : iconf Conf) (s : inst Sc CB) (h : aheap) (cs : list hcall) : inst Sc CB * aheap :=
  match cs with
  | [] => (s, h)
  | c :: r => hrun fuel cf (fst (run_op fuel cf s (hc_op c h))) (exec (hc_trace c) h) r
  end.

Lemma hrun_is_hist fuel cf cs : forall s h, exists ops, fst (hrun fuel cf s h cs) = run_hist fuel cf s ops.
Proof.
  induction cs as [|c r IH]; intros s h; cbn.
  - exists []. reflexivity.
  - destruct (IH (fst (run_op fuel cf s (hc_op c h))) (exec (hc_trace c) h)) as (ops & E).
    exists (hc_op c h :: ops). rewrite E. reflexivity.
Qed.

Lemma hrun_frame fuel cf cs : forall s h,
  Forall (fun c => Forall (licensed objs) (hc_trace c)) cs -> frame_eq objs h (snd (hrun fuel cf s h cs)).
Proof.
  induction cs as [|c r IH]; intros s h H; cbn; [apply frame_eq_refl|].
  eapply frame_eq_trans; [apply frame, (Forall_inv H)|apply IH, (Forall_inv_tail H)].
Qed.

Theorem history_pure_heap fuel cf cs h0 probe :
  Forall (fun c => Forall (licensed objs) (hc_trace c)) cs -> frame_only probe ->
  snd (run_op fuel cf (fst (hrun fuel cf (fresh Sc CB) h0 cs)) (probe (snd (hrun fuel cf (fresh Sc CB) h0 cs))))
  = op_pure fuel cf (probe h0).
Proof.
  intros Hl Hp.
  rewrite <- (Hp h0 _ (hrun_frame fuel cf cs (fresh Sc CB) h0 Hl)).
  destruct (hrun_is_hist fuel cf cs (fresh Sc CB) h0) as (ops & E). rewrite E.
  apply history_pure.
Qed.
End Lift.

Lemma licensedb_sound objs e : licensedb objs e = true -> licensed objs e.
Proof.
  unfold licensedb. rewrite existsb_exists. intros (s & Hin & H). exists s. split; [exact Hin|].
  unfold licensesb in H. apply andb_true_iff in H. destruct H as [Hf H]. apply String.eqb_eq in Hf.
  split; [exact Hf|]. destruct (self_plain s).
  - apply andb_true_iff in H. destruct H as [Hm Ha]. apply mem_string_In in Hm. apply String.eqb_eq in Ha. exact (conj Hm Ha).
  - apply negb_true_iff, H.
Qed.

(* the property-level statement: the four finite checks over the regenerated facts hold, and they mean that whatever a
   call changes in an object the instance holds is a modelled cell *)
Theorem parse_paths_write_only_per_call_objects :
  stores_ok = true /\ escapes_ok = true /\ defaults_ok = true /\ lazy_ok = true /\
  forall (objs : nat -> obj) (tr : list stev) (h : aheap) (o : nat) (a : string),
    typed objs -> Forall (licensed objs) tr -> o_held (objs o) = true ->
    exec tr h (o, a) <> h (o, a) ->
    exists c, In (c, a) (modelled_cells ++ value_cells) /\
              exists s, In s stores /\ s_cls s = c /\ In (o_cls (objs o)) (s_family s).
Proof.
  split; [exact stores_ok_holds|]. split; [exact escapes_ok_holds|]. split; [exact defaults_ok_holds|].
  split; [exact lazy_ok_holds|]. intros objs tr h o a. apply changed_is_modelled.
Qed.
