(* C04 layer A for the dynamic lexers - completeness of the scanner's bookkeeping in the instrumented model:
   every entry that a scan step puts into delayed_matches and whose position the run reaches is realised there:
   a token entry adds its token family; a carried entry copies the packed children of the node it carries - exactly
   the first family per (left, right), PackedNode equality - so the copy is complete modulo that equality. *)
From Coq Require Import List Arith Bool Lia.
From LV Require Import Cfg.Grammar Cfg.Analysis Cfg.Analysis_proofs Earley.Spec Earley.Alg Earley.Alg_proofs
  Earley.Dyn Earley.Dyn_proofs
  Forest.ExplicitBuild Forest.ExplicitBuild_proofs Forest.ExplicitAlgBuild Forest.ExplicitAlgBuild_proofs
  Forest.ExplicitDynBuild Forest.ExplicitDynSound Forest.ExplicitDynBuild_proofs Forest.ExplicitDynFamilies_proofs.
Import ListNotations.

Lemma same_children_refl (f : dfam) : same_children f f = true.
Proof.
  destruct f as [l [[r a] b]]. simpl. destruct a, b; simpl; rewrite ?label_eqb_refl; auto.
Qed.

Lemma same_children_sym (f g : dfam) : same_children f g = true -> same_children g f = true.
Proof.
  destruct f as [l1 [[r1 a1] b1]], g as [l2 [[r2 a2] b2]]. simpl. rewrite !andb_true_iff.
  assert (L : forall x y : option (nlabel nat), olabel_eqb x y = true -> olabel_eqb y x = true).
  { intros [x|] [y|]; simpl; auto. intros H. apply label_eqb_eq in H. subst. apply label_eqb_refl. }
  intros (H1 & H2). split; auto.
Qed.

Lemma same_children_trans (f g h : dfam) :
  same_children f g = true -> same_children g h = true -> same_children f h = true.
Proof.
  destruct f as [l1 [[r1 a1] b1]], g as [l2 [[r2 a2] b2]], h as [l3 [[r3 a3] b3]]. simpl. rewrite !andb_true_iff.
  assert (L : forall x y z : option (nlabel nat), olabel_eqb x y = true -> olabel_eqb y z = true -> olabel_eqb x z = true).
  { intros [x|] [y|] [z|]; simpl; auto; try discriminate. intros H1 H2. apply label_eqb_eq in H1. subst. auto. }
  intros (H1 & H2) (H3 & H4). split; eauto.
Qed.

Lemma dedup_children_repr l : forall seen f, In f l ->
  (exists g, In g seen /\ same_children f g = true) \/ (exists g, In g (dedup_children l seen) /\ same_children f g = true).
Proof.
  induction l as [|h l IH]; intros seen f Hf; [destruct Hf|]. destruct Hf as [<- |Hf]; simpl.
  - destruct (existsb (same_children h) seen) eqn:E.
    + left. apply existsb_exists in E. destruct E as (g & Hg & Hs). eauto.
    + right. exists h. split; [left; auto|apply same_children_refl].
  - destruct (existsb (same_children h) seen) eqn:E.
    + apply IH; auto.
    + destruct (IH (h :: seen) f Hf) as [(g & [<- |Hg] & Hs)|(g & Hg & Hs)].
      * right. exists h. split; [left; auto|auto].
      * left; eauto.
      * right. exists g. split; [right; auto|auto].
Qed.

Lemma node_children_repr acc lbl f : In f acc -> fst f = lbl ->
  exists g, In g (node_children acc lbl) /\ same_children f g = true.
Proof.
  intros Hf Hl. unfold node_children.
  assert (Hin : In f (filter (fun f0 => label_eqb (fst f0) lbl) acc)).
  { apply filter_In. split; auto. rewrite Hl. apply label_eqb_refl. }
  destruct (dedup_children_repr _ [] f Hin) as [(g & [] & _)|H]; auto.
Qed.

Section DynScanComplete.
  Variable G : grammar.
  Variable predictions : nat -> list rule.
  Variable start : nat.
  Variable n : nat.
  Variable rmatch : nat -> nat -> option nat.
  Variable rtrunc : nat -> nat -> nat -> option nat.
  Variable complete_lex : bool.
  Variable ignore : list nat.

  Notation ends := (ends_of rmatch rtrunc complete_lex).
  Notation idloop := (idloop G predictions start rmatch rtrunc complete_lex ignore).
  Notation iemits := (iemits start rmatch rtrunc complete_lex ignore).

  Definition has_node (x : item) : Prop := ~ (dot x = 0 /\ expect x <> None).

  Definition tok_fam (x : item) (i0 t j : nat) : dfam :=
    (ilabel nat (irule x) (S (dot x)) (orig x) j,
     (irule x, inode nat (irule x) (dot x) (orig x) i0, Some (NTok nat t t i0 j))).

  Definition entry_done (pre log : list dfam) (j : nat) (e : ientry) : Prop :=
    let '(x, i0, tk) := e in
    match tk with
    | Some t => In (tok_fam x i0 t j) log
    | None => has_node x -> forall f, In f pre -> fst f = node_label x i0 ->
              exists f0, fst f0 = node_label x i0 /\ same_children f f0 = true /\ In (node_label x j, snd f0) log
    end.

  Lemma entry_fams_done i a e : entry_done a (a ++ entry_fams i a e) (S i) e.
  Proof.
    destruct e as [[x i0] [t|]]; unfold entry_done, entry_fams.
    - apply in_or_app. right. left. reflexivity.
    - intros Hn f Hf Hl.
      destruct (node_children_repr a (node_label x i0) f Hf Hl) as (g & Hg & Hs).
      pose proof (node_children_in _ _ _ Hg) as (_ & Hgl).
      exists g. repeat split; auto. apply in_or_app. right.
      unfold has_node in Hn.
      destruct (dot x) eqn:Ed; [destruct (expect x) eqn:Ee|]; try (apply in_map_iff; exists g; auto; fail).
      exfalso. apply Hn. split; auto. discriminate.
  Qed.

  Lemma entry_done_mono pre pre' log log' j e :
    incl pre' pre -> incl log log' -> entry_done pre log j e -> entry_done pre' log' j e.
  Proof.
    destruct e as [[x i0] [t|]]; unfold entry_done; intros Hp Hl H; auto.
    intros Hn f Hf Hlab. destruct (H Hn f (Hp f Hf) Hlab) as (f0 & A & B & C). exists f0. auto.
  Qed.

  Lemma fold_entries_done i es : forall acc e, In e es ->
    entry_done acc (fold_left (fun a e0 => a ++ entry_fams i a e0) es acc) (S i) e.
  Proof.
    induction es as [|e0 es IH]; intros acc e He; [destruct He|]. destruct He as [<- |He]; simpl.
    - eapply entry_done_mono; [apply incl_refl| |apply entry_fams_done].
      apply fold_entry_incl.
    - eapply entry_done_mono; [|apply incl_refl|apply IH; auto]. intros z Hz. apply in_or_app; auto.
  Qed.

  Lemma step_fams_lend i cols x st f : In f (step_fams nat i cols x st) -> lend (fst f) = i.
  Proof.
    unfold ExplicitAlgBuild.step_fams. intros Hf. destruct (expect x) as [[t|a]|].
    - destruct Hf.
    - destruct (nat_mem a (pc_held st)); [|destruct Hf]. destruct Hf as [<- |[]]. apply lend_ilabel.
    - apply in_app_or in Hf. destruct Hf as [Hf|Hf].
      + destruct (dot x); [|destruct Hf]. destruct Hf as [<- |[]]. reflexivity.
      + apply in_map_iff in Hf. destruct Hf as (o & <- & _). apply lend_ilabel.
  Qed.

  Lemma ipc_loop_decomp fuel i cols st (acc : list dfam) st' acc' :
    ipc_loop predictions nat fuel i cols st acc = Some (st', acc') ->
    exists rest, acc' = acc ++ rest /\ forall f, In f rest -> lend (fst f) = i.
  Proof.
    intros H.
    apply (ipc_loop_inv predictions nat
             (fun _ a => exists rest, a = acc ++ rest /\ forall f, In f rest -> lend (fst f) = i) i cols) in H; [tauto| |].
    - intros col x work scan held a (rest & -> & Hr). exists (rest ++ step_fams nat i cols x (mkPC col work scan held)).
      rewrite app_assoc. split; auto. intros f Hf. apply in_app_or in Hf. destruct Hf; auto. eapply step_fams_lend; eauto.
    - exists []. rewrite app_nil_r. split; auto. intros f [].
  Qed.

  Lemma entry_fams_lend i acc e f : In f (entry_fams i acc e) -> lend (fst f) = S i.
  Proof.
    destruct e as [[x i0] [t|]]; unfold entry_fams; intros Hf.
    - destruct Hf as [<- |[]]. apply lend_ilabel.
    - assert (Hm : In f (map (fun f1 : dfam => (node_label x (S i), snd f1)) (node_children acc (node_label x i0)))).
      { destruct (dot x); [destruct (expect x)|]; auto. destruct Hf. }
      apply in_map_iff in Hm. destruct Hm as (g & <- & _). apply lend_ilabel.
  Qed.

  Lemma fold_entries_decomp i es (acc : list dfam) :
    exists rest, fold_left (fun a e => a ++ entry_fams i a e) es acc = acc ++ rest /\
                 forall f, In f rest -> lend (fst f) = S i.
  Proof.
    apply fold_left_inv with (P := fun a => exists rest, a = acc ++ rest /\ forall f, In f rest -> lend (fst f) = S i).
    - intros a e _ (rest & -> & Hr). exists (rest ++ entry_fams i (acc ++ rest) e). rewrite app_assoc. split; auto.
      intros f Hf. apply in_app_or in Hf. destruct Hf; auto. eapply entry_fams_lend; eauto.
    - exists []. rewrite app_nil_r. split; auto. intros f [].
  Qed.

  (* entry e of delayed_matches[j] is realised in the log, by calls made before any for a later end position than j *)
  Definition realised (log : list dfam) (j : nat) (e : ientry) : Prop :=
    exists pre rest, log = pre ++ rest /\ (forall f, In f rest -> j <= lend (fst f)) /\ entry_done pre log j e.

  Lemma realised_app log more j e :
    (forall f, In f more -> j <= lend (fst f)) -> realised log j e -> realised (log ++ more) j e.
  Proof.
    intros Hm (pre & rest & -> & Hr & Hd). exists pre, (rest ++ more). rewrite app_assoc. split; auto. split.
    - intros f Hf. apply in_app_or in Hf. destruct Hf; auto.
    - eapply entry_done_mono; [apply incl_refl | | exact Hd]. apply incl_appl, incl_refl.
  Qed.

  (* when column i is started: what the scans of the earlier columns emitted for later positions is pending in
     delayed_matches, what they emitted for positions up to i is realised *)
  Definition entries_inv (i : nat) (cols scans : list (list item)) (col scanq : list item) (dm : idmap)
             (acc : list dfam) : Prop :=
    length cols = i /\ length scans = i /\
    (forall k j e, k < i -> i < j -> iemits (colf scans k) (colf cols k) k j e -> In e (idm_get j dm)) /\
    (forall k j e, k < j -> j <= i -> iemits (colf scans k) (colf cols k) k j e -> realised acc j e).

  Lemma idloop_entries rem i cols scans keys col scanq dm acc :
    entries_inv i cols scans col scanq dm acc ->
    let r := idloop rem i cols scans keys col scanq dm acc in
    forall k j e, k < j -> j < length (d_cols (fst r)) ->
      iemits (colf (d_scans (fst r)) k) (colf (d_cols (fst r)) k) k j e -> realised (snd r) j e.
  Proof.
    apply (idloop_inv G predictions start rmatch rtrunc complete_lex ignore entries_inv
             (fun r => forall k j e, k < j -> j < length (d_cols (fst r)) ->
                iemits (colf (d_scans (fst r)) k) (colf (d_cols (fst r)) k) k j e -> realised (snd r) j e)).
    - intros j0 cs ss ks c q d a o (Hlc & _ & _ & Hdone) k j e Hkj Hj He. cbn [fst snd d_cols d_scans] in *.
      apply (Hdone k j e); auto. lia.
    - intros j0 cs ss ks c q d a st a1 o (Hlc & Hls & _ & Hdone) E k j e Hkj Hj He. cbn [fst snd d_cols d_scans] in *.
      unfold ipredict_and_complete in E. destruct (ipc_loop_decomp _ _ _ _ _ _ _ E) as (r1 & -> & Hr1).
      rewrite app_length in Hj. simpl in Hj. rewrite !colf_app_lt in He by lia.
      apply realised_app; [intros f Hf; rewrite (Hr1 f Hf); lia|]. apply (Hdone k j e); auto. lia.
    - intros j0 cs ss c q d a st a1 (Hlc & Hls & Hpend & Hdone) E.
      unfold ipredict_and_complete in E. destruct (ipc_loop_decomp _ _ _ _ _ _ _ E) as (r1 & -> & Hr1).
      unfold idscan. cbn zeta. cbn [fst snd].
      set (dm2 := fold_left (iscan_ignore start rmatch j0 (pc_scan st) (pc_col st)) ignore
                            (fold_left (iscan_item rmatch rtrunc complete_lex j0) (pc_scan st) d)).
      destruct (fold_entries_decomp j0 (idm_get (S j0) dm2) (a ++ r1)) as (r2 & Eacc2 & Hr2).
      (* the emissions of the columns built so far: of an old column, or of the new one *)
      assert (Hem : forall k j e, k <= j0 ->
                iemits (colf (ss ++ [pc_scan st]) k) (colf (cs ++ [pc_col st]) k) k j e ->
                (k < j0 /\ iemits (colf ss k) (colf cs k) k j e) \/ (k = j0 /\ iemits (pc_scan st) (pc_col st) j0 j e)).
      { intros k j e Hk He. destruct (Nat.eq_dec k j0) as [-> |Hne].
        - right. rewrite !colf_app_eq in He by auto. auto.
        - left. rewrite !colf_app_lt in He by lia. split; auto. lia. }
      assert (Hdm2 : forall k j e, k <= j0 -> j0 < j ->
                iemits (colf (ss ++ [pc_scan st]) k) (colf (cs ++ [pc_col st]) k) k j e -> In e (idm_get j dm2)).
      { intros k j e Hk Hj He. apply idscan_dm_spec.
        destruct (Hem k j e Hk He) as [(Hlt & He')|(_ & He')]; [left; apply (Hpend k j e); auto | right; auto]. }
      split; [rewrite app_length; simpl; lia|]. split; [rewrite app_length; simpl; lia|]. split.
      + (* everything emitted for a position after i+1 is still pending *)
        intros k j e Hk Hj He. rewrite idm_get_remove. destruct (Nat.eqb_spec j (S j0)); [lia|]. apply (Hdm2 k); auto; lia.
      + intros k j e Hkj Hj He. rewrite Eacc2. destruct (Nat.eq_dec j (S j0)) as [-> |Hne].
        * (* everything emitted for position i+1 is processed now *)
          exists (a ++ r1), r2. split; auto. split; [intros f Hf; rewrite (Hr2 f Hf); lia|].
          rewrite <- Eacc2. apply fold_entries_done. apply (Hdm2 k); auto; lia.
        * destruct (Hem k j e ltac:(lia) He) as [(Hlt & He')|(-> & _)]; [|lia].
          apply realised_app; [intros f Hf; rewrite (Hr2 f Hf); lia|].
          apply realised_app; [intros f Hf; rewrite (Hr1 f Hf); lia|]. apply (Hdone k j e); auto. lia.
  Qed.
End DynScanComplete.

Section DynScanTop.
  Variable G : grammar.
  Variable predictions : nat -> list rule.
  Variable start : nat.
  Variable n : nat.
  Variable rmatch : nat -> nat -> option nat.
  Variable rtrunc : nat -> nat -> nat -> option nat.
  Variable complete_lex : bool.
  Variable ignore : list nat.
  Hypothesis pred_sound : forall a r, In r (predictions a) -> In r G /\ lc_reach G a (lhs r).
  Hypothesis pred_direct : forall a r, In r G -> lhs r = a -> In r (predictions a).
  Hypothesis H_fwd : fwd rmatch rtrunc.

  Notation ends := (ends_of rmatch rtrunc complete_lex).
  Notation gchart := (gchart G start rmatch rtrunc complete_lex ignore).
  Notation ires := (idparse G predictions start n rmatch rtrunc complete_lex ignore).

  Lemma ires_entries k j e : k < j -> j < length (d_cols (fst ires)) ->
    iemits start rmatch rtrunc complete_lex ignore (colf (d_scans (fst ires)) k) (colf (d_cols (fst ires)) k) k j e ->
    realised (snd ires) j e.
  Proof.
    unfold idparse. cbn zeta. apply idloop_entries. repeat split; auto; intros; lia.
  Qed.

  Theorem dyn_token_families k x t j :
    gchart k x -> expect x = Some (T t) -> In j (ends t k) -> j < length (d_cols (fst ires)) ->
    In (tok_fam x k t j) (snd ires).
  Proof.
    intros Hx He Hj Hlt.
    assert (Hkj : k < j) by (eapply ends_fwd; eauto).
    assert (Hq : In x (colf (d_scans (fst ires)) k)).
    { apply (ires_in_Q G predictions start n rmatch rtrunc complete_lex ignore pred_sound pred_direct H_fwd); auto; [lia|].
      apply (term_item_T _ _ He). }
    destruct (ires_entries k j (x, k, Some t)) as (pre & rest & _ & _ & Hd); auto.
    left. exists x, t. auto.
  Qed.

  (* the carry-over copies the packed children of the carried node: every family of node (s, start, k) - up to
     PackedNode equality, which is what node.children keeps - has its copy under (s, start, j) *)
  Theorem dyn_carry_copies k x j f :
    gchart k x -> is_term_item x = true \/ is_solution start x = true -> ign_edge rmatch ignore k j ->
    j < length (d_cols (fst ires)) -> has_node x ->
    In f (snd ires) -> fst f = node_label x k ->
    exists f0, fst f0 = node_label x k /\ same_children f f0 = true /\ In (node_label x j, snd f0) (snd ires).
  Proof.
    intros Hx Hkind Hedge Hlt Hn Hf Hl.
    assert (Hkj : k < j) by (eapply ign_edge_fwd; eauto).
    destruct Hedge as (ig & Hig & Hm).
    assert (Hem : iemits start rmatch rtrunc complete_lex ignore
                         (colf (d_scans (fst ires)) k) (colf (d_cols (fst ires)) k) k j (x, k, None)).
    { right. exists ig. repeat split; auto. destruct Hkind as [Ht|Hs].
      - left. exists x. split; auto.
        apply (ires_in_Q G predictions start n rmatch rtrunc complete_lex ignore pred_sound pred_direct H_fwd); auto. lia.
      - right. exists x. repeat split; auto.
        apply (ires_in_C G predictions start n rmatch rtrunc complete_lex ignore pred_sound pred_direct H_fwd); auto; [lia|].
        apply solution_spec in Hs. apply term_item_None, Hs. }
    destruct (ires_entries k j (x, k, None) Hkj Hlt Hem) as (pre & rest & Elog & Hrest & Hd).
    unfold entry_done in Hd. apply Hd; auto.
    rewrite Elog in Hf. apply in_app_or in Hf. destruct Hf as [Hf|Hf]; auto.
    exfalso. specialize (Hrest f Hf). rewrite Hl in Hrest. unfold node_label in Hrest. rewrite lend_ilabel in Hrest. lia.
  Qed.
End DynScanTop.

Section DynScanModel.
  Variable G : grammar.
  Variable start n : nat.
  Variable rmatch : nat -> nat -> option nat.
  Variable rtrunc : nat -> nat -> nat -> option nat.
  Variable complete_lex : bool.
  Variable ignore : list nat.
  Hypothesis H_fwd : fwd rmatch rtrunc.


  Notation gchart := (gchart G start rmatch rtrunc complete_lex ignore).
  Notation ires := (idyn_parse G start n rmatch rtrunc complete_lex ignore).

  Theorem idyn_token_families k x t j :
    gchart k x -> expect x = Some (T t) -> In j (ends_of rmatch rtrunc complete_lex t k) ->
    j < length (d_cols (fst ires)) -> In (tok_fam x k t j) (snd ires).
  Proof. apply (dyn_token_families G (pred_lookup G (pred_table G)) start n rmatch rtrunc complete_lex ignore (pred_lookup_sound G) (pred_lookup_direct G) H_fwd). Qed.

  Theorem idyn_carry_copies k x j f :
    gchart k x -> is_term_item x = true \/ is_solution start x = true -> ign_edge rmatch ignore k j ->
    j < length (d_cols (fst ires)) -> has_node x ->
    In f (snd ires) -> fst f = node_label x k ->
    exists f0, fst f0 = node_label x k /\ same_children f f0 = true /\ In (node_label x j, snd f0) (snd ires).
  Proof. apply (dyn_carry_copies G (pred_lookup G (pred_table G)) start n rmatch rtrunc complete_lex ignore (pred_lookup_sound G) (pred_lookup_direct G) H_fwd). Qed.
End DynScanModel.
