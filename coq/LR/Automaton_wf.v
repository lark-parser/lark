(* The table built by the model (LR/Automaton.v) satisfies the LR(0)-item
   certificate of Driver_proofs.v for EVERY grammar, hence (driver_sound) the model driver on
   the model table accepts only sentences, whatever conflicts were resolved on the way. *)
From Coq Require Import List Arith Bool ZArith Lia.
From LV Require Import Cfg.Grammar LR.Driver LR.Driver_proofs LR.Automaton LR.Automaton_proofs.
Import ListNotations.

Lemma derives_incl (tok : Type) (tmatch : nat -> tok -> bool) (G G' : grammar) ss w :
  incl G G' -> derives G tok tmatch ss w -> derives G' tok tmatch ss w.
Proof.
  intros Hi. induction 1.
  - constructor.
  - constructor; auto.
  - apply d_nt with (r := r); auto.
Qed.

Lemma aitem_eqb_eq (a b : item) : Automaton.item_eqb a b = true <-> a = b.
Proof.
  unfold Automaton.item_eqb. rewrite andb_true_iff, !Nat.eqb_eq. destruct a, b; simpl.
  split; [intros (-> & ->); auto | intros H; inversion H; auto].
Qed.

Lemma pair_eqb_eq x y : pair_eqb x y = true <-> x = y.
Proof. apply aitem_eqb_eq. Qed.

Lemma dedup_pair_In x l : In x (dedup_pair l) <-> In x l.
Proof. apply dedup_In. apply aitem_eqb_eq. Qed.

Lemma sort_items_In x l : In x (sort_items l) <-> In x l.
Proof.
  apply (insertion_sort_In Automaton.item_eqb item_ltb insert_item); auto. intros a b. apply aitem_eqb_eq.
Qed.

Lemma list_eqb_eq {A} (eqb : A -> A -> bool) :
  (forall x y, eqb x y = true <-> x = y) -> forall l1 l2, list_eqb eqb l1 l2 = true <-> l1 = l2.
Proof.
  intros H. induction l1 as [|x l1 IH]; destruct l2 as [|y l2]; simpl; split; intros E; try discriminate; auto.
  - apply andb_true_iff in E. destruct E as (E1 & E2). apply H in E1. apply IH in E2. congruence.
  - inversion E; subst. apply andb_true_iff. split. now apply H. now apply IH.
Qed.

Lemma kernel_eqb_eq k1 k2 : kernel_eqb k1 k2 = true <-> k1 = k2.
Proof. apply list_eqb_eq. apply aitem_eqb_eq. Qed.

Lemma find_index_spec {A} (p : A -> bool) l i :
  find_index p l = Some i -> exists y, nth_error l i = Some y /\ p y = true.
Proof.
  revert i; induction l as [|z l IH]; simpl; intros i H; try discriminate.
  destruct (p z) eqn:E.
  - inversion H; subst. exists z; auto.
  - destruct (find_index p l) as [j|]; try discriminate. inversion H; subst.
    destruct (IH j eq_refl) as (y & Hy & Ey). exists y; auto.
Qed.

Lemma index_of_find {A} (eqb : A -> A -> bool) x l : index_of eqb x l = find_index (eqb x) l.
Proof. induction l as [|z l IH]; simpl; auto. now rewrite IH. Qed.

Lemma index_of_nth {A} (eqb : A -> A -> bool) (Heq : forall x y, eqb x y = true <-> x = y) x l i :
  index_of eqb x l = Some i -> nth_error l i = Some x /\ i < length l.
Proof.
  rewrite index_of_find. intros H. destruct (find_index_spec _ _ _ H) as (y & Hy & E).
  apply Heq in E. subst y. split; auto. apply nth_error_Some. congruence.
Qed.

Lemma index_of_In {A} (eqb : A -> A -> bool) (Heq : forall x y, eqb x y = true <-> x = y) x l :
  In x l -> exists i, index_of eqb x l = Some i.
Proof.
  induction l as [|y l IH]; intros H; [contradiction|]. simpl.
  destruct (eqb x y) eqn:E; eauto.
  destruct H as [->|H].
  - assert (eqb x x = true) by now apply Heq. congruence.
  - destruct (IH H) as (i & ->). simpl. eauto.
Qed.

Lemma NoDup_one {A} (x : A) : NoDup [x].
Proof. repeat constructor. intros []. Qed.

Section Wf.
  Variable rules : list rule.
  Variable roots : list nat.

  Notation rule_at := (rule_at rules).
  Notation next_sym := (next_sym rules).
  Notation closure := (closure rules).
  Notation goto_kernel := (goto_kernel rules).
  Notation next_syms := (next_syms rules).

  Lemma next_sym_valid it X : next_sym it = Some X -> fst it < length rules /\ In X (rhs (rule_at (fst it))).
  Proof.
    unfold Automaton.next_sym, Automaton.rule_at. intros H. split.
    - destruct (lt_dec (fst it) (length rules)); auto.
      rewrite nth_overflow in H by lia. simpl in H. destruct (snd it); discriminate.
    - eapply nth_error_In; eauto.
  Qed.

  Lemma root_next_sym r rootnt start : rule_at r = mkRule rootnt [NT start] -> next_sym (r, 0) = Some (NT start).
  Proof. intros H. unfold Automaton.next_sym. simpl. now rewrite H. Qed.

  (* an index beyond the rule list reads as a rule with an empty body *)
  Lemma root_index_valid r0 rootnt start : rule_at r0 = mkRule rootnt [NT start] -> r0 < length rules.
  Proof.
    intros H. destruct (lt_dec r0 (length rules)); auto.
    unfold Automaton.rule_at in H. rewrite nth_overflow in H by lia. discriminate.
  Qed.

  Lemma rule_at_In i : i < length rules -> In (rule_at i) rules.
  Proof. intros. unfold Automaton.rule_at. now apply nth_In. Qed.

  Lemma rule_index r : In r rules -> exists i, i < length rules /\ rule_at i = r.
  Proof. intros H. destruct (In_nth _ _ (mkRule 0 []) H) as (i & Hi & E). exists i. auto. Qed.

  Lemma first_nts_In S0 b :
    In b (first_nts_of rules S0) <-> exists r rest, In r rules /\ In (lhs r) S0 /\ rhs r = NT b :: rest.
  Proof.
    unfold first_nts_of. rewrite in_flat_map. split.
    - intros (r & Hr & H). destruct (mem_nat (lhs r) S0) eqn:Em; [|contradiction].
      destruct (rhs r) as [|[t|c] rest] eqn:E; try contradiction.
      destruct H as [->|[]]. exists r, rest. split; auto. split; auto. now apply mem_nat_In.
    - intros (r & rest & Hr & Hl & E). exists r. split; auto.
      apply mem_nat_In in Hl. rewrite Hl, E. now left.
  Qed.

  Lemma reach_ind a (Q : nat -> Prop) :
    Q a -> (forall r b rest, In r rules -> Q (lhs r) -> rhs r = NT b :: rest -> Q b) ->
    forall b, In b (reach rules a) -> Q b.
  Proof.
    intros Ha Hstep. unfold reach.
    assert (G : forall n S0, (forall b, In b S0 -> Q b) ->
                forall b, In b (iter n (reach_step rules) S0) -> Q b).
    { induction n; simpl; auto. intros S0 H. apply IHn.
      intros b Hb. unfold reach_step in Hb. apply (proj1 (dedup_nat_In _ _)), in_app_iff in Hb.
      destruct Hb as [Hb|Hb]; auto. apply first_nts_In in Hb.
      destruct Hb as (r & rest & Hr & Hl & E). eauto. }
    apply G. now intros b [<-|[]].
  Qed.

  Lemma expand_rule_In a it :
    In it (expand_rule rules a) <->
    snd it = 0 /\ fst it < length rules /\ In (lhs (rule_at (fst it))) (reach rules a).
  Proof.
    unfold expand_rule, rule_ids. rewrite in_flat_map. split.
    - intros (i & Hi & H). apply in_seq in Hi.
      destruct (mem_nat (lhs (rule_at i)) (reach rules a)) eqn:E; [|contradiction].
      destruct H as [<-|[]]. simpl. repeat split; try lia. now apply mem_nat_In.
    - intros (H0 & Hi & Hr). exists (fst it). split; [apply in_seq; lia|].
      apply mem_nat_In in Hr. rewrite Hr. left. destruct it; simpl in *. now subst.
  Qed.

  Lemma closure_In K it :
    In it (closure K) <->
    In it K \/ (snd it = 0 /\ fst it < length rules /\
                exists kit a, In kit K /\ next_sym kit = Some (NT a) /\ In (lhs (rule_at (fst it))) (reach rules a)).
  Proof.
    unfold Automaton.closure. rewrite sort_items_In, in_app_iff, in_flat_map. split.
    - intros [H|(kit & Hk & H)]; auto. right.
      destruct (next_sym kit) as [[t|a]|] eqn:E; try contradiction.
      apply expand_rule_In in H. destruct H as (H0 & H1 & H2). repeat split; auto. exists kit, a. auto.
    - intros [H|(H0 & H1 & kit & a & Hk & Hn & Hr)]; auto. right. exists kit. split; auto.
      rewrite Hn. now apply expand_rule_In.
  Qed.

  Lemma closure_ind K (Q : item -> Prop) :
    (forall it, In it K -> Q it) ->
    (forall it b i, Q it -> next_sym it = Some (NT b) -> i < length rules -> lhs (rule_at i) = b -> Q (i, 0)) ->
    forall it, In it (closure K) -> Q it.
  Proof.
    intros HK Hstep (i, d) Hit. apply closure_In in Hit.
    destruct Hit as [Hit|(H0 & Hv & kit & a & Hkit & Hn & Hreach)]; auto. simpl in *. subst d.
    apply (reach_ind a (fun b => forall j, j < length rules -> lhs (rule_at j) = b -> Q (j, 0)))
      with (b := lhs (rule_at i)); auto.
    - intros j Hj Hl. eapply Hstep; eauto.
    - intros r b rest Hr IH Er j Hj Hl. destruct (rule_index r Hr) as (j' & Hj' & Ej').
      apply (Hstep (j', 0) b j); auto.
      + apply IH; auto. now rewrite Ej'.
      + unfold Automaton.next_sym. simpl. now rewrite Ej', Er.
  Qed.

  Lemma closure_kernel K it : In it K -> In it (closure K).
  Proof. intros. apply closure_In. now left. Qed.

  Lemma goto_kernel_In C X it :
    In it (goto_kernel C X) <-> exists d', snd it = S d' /\ In (fst it, d') C /\ next_sym (fst it, d') = Some X.
  Proof.
    unfold Automaton.goto_kernel. rewrite sort_items_In, in_flat_map. split.
    - intros ((r, d) & Hc & H). destruct (next_sym (r, d)) as [Y|] eqn:E; [|contradiction].
      destruct (symbol_eqb_spec X Y); [|contradiction]. subst Y. destruct H as [<-|[]]. simpl. eauto.
    - intros (d' & Hd & Hc & Hn). exists (fst it, d'). split; auto. rewrite Hn.
      destruct (symbol_eqb_spec X X); [|congruence]. left. destruct it; simpl in *. congruence.
  Qed.

  Lemma next_syms_In C X : In X (next_syms C) <-> exists it, In it C /\ next_sym it = Some X.
  Proof.
    unfold Automaton.next_syms, dedup_sym. rewrite dedup_In, in_flat_map.
    - split; intros (it & Hc & H); exists it; split; auto.
      + destruct (next_sym it); [|contradiction]. destruct H as [->|[]]; auto.
      + rewrite H. now left.
    - intros x y. destruct (symbol_eqb_spec x y); split; auto; discriminate.
  Qed.

  (* the predicate lookback and end_state test item sets with *)
  Lemma satisfied_In (C : list item) i :
    existsb (fun it : item => Nat.eqb (fst it) i && is_satisfied rules it) C = true <->
    In (i, length (rhs (rule_at i))) C.
  Proof.
    rewrite existsb_exists. unfold is_satisfied. split.
    - intros ((j, d) & Hin & H). simpl in H. apply andb_true_iff in H. destruct H as (H1 & H2).
      apply Nat.eqb_eq in H1. apply Nat.eqb_eq in H2. now subst.
    - intros H. exists (i, length (rhs (rule_at i))). split; auto. simpl. now rewrite !Nat.eqb_refl.
  Qed.

  Definition gotoish (K : list item) : Prop := exists C X, K = goto_kernel C X /\ In X (next_syms C).

  Inductive rk (S0 : list (list item)) : list item -> Prop :=
  | rk_root r : In r roots -> rk S0 [(r, 0)]
  | rk_step K0 X : rk S0 K0 -> In K0 S0 -> In X (next_syms (closure K0)) ->
                   rk S0 (goto_kernel (closure K0) X).

  Lemma rk_mono S0 S1 K : incl S0 S1 -> rk S0 K -> rk S1 K.
  Proof. intros HI. induction 1; [now constructor|]. apply rk_step; auto. Qed.

  Lemma rk_cases S0 K : rk S0 K ->
    (exists r, In r roots /\ K = [(r, 0)]) \/
    (gotoish K /\ exists K0 X, In K0 S0 /\ K = goto_kernel (closure K0) X).
  Proof. destruct 1; [left|right]; eauto. split; eauto. exists (closure K0), X. auto. Qed.

  Lemma add_new_spec ks : forall seen,
    (forall K, In K (add_new ks seen) -> In K ks /\ ~ In K seen) /\
    (NoDup seen -> NoDup (seen ++ add_new ks seen)).
  Proof.
    induction ks as [|K ks IH]; intros seen; simpl.
    - split; [tauto|]. now rewrite app_nil_r.
    - destruct (existsb (kernel_eqb K) seen) eqn:E.
      + destruct (IH seen) as (H1 & H2). split; auto.
        intros K' H. destruct (H1 _ H). auto.
      + assert (Hn : ~ In K seen).
        { intros Hin. apply (existsb_eqb_In _ _ kernel_eqb_eq) in Hin. congruence. }
        destruct (IH (seen ++ [K])) as (H1 & H2). split.
        * intros K' [<-|H]; auto. destruct (H1 _ H) as (Ha & Hb). split; auto.
          intros Hc. apply Hb. apply in_app_iff. now left.
        * intros ND. assert (ND' : NoDup (seen ++ [K])).
          { apply NoDup_app_snoc; auto. }
          specialize (H2 ND'). now rewrite <- app_assoc in H2.
  Qed.

  Lemma bfs_spec fuel : forall work seen ks,
    bfs rules fuel work seen = Some ks -> incl work seen ->
    (forall K, In K seen -> rk seen K) -> NoDup seen ->
    (exists tl, ks = seen ++ tl) /\ (forall K, In K ks -> rk ks K) /\ NoDup ks.
  Proof.
    induction fuel; intros work seen ks H HI Hok ND; simpl in H.
    - destruct work; [|discriminate]. inversion H; subst. split; [exists []; now rewrite app_nil_r|auto].
    - destruct work as [|K work'].
      + inversion H; subst. split; [exists []; now rewrite app_nil_r|auto].
      + set (C := closure K) in *.
        set (new := add_new (map (goto_kernel C) (next_syms C)) seen) in *.
        destruct (add_new_spec (map (goto_kernel C) (next_syms C)) seen) as (Hn1 & Hn2).
        assert (Hinc : incl seen (seen ++ new)) by (intros x Hx; apply in_app_iff; now left).
        assert (HK : In K seen) by (apply HI; now left).
        destruct (IHfuel _ _ _ H) as ((tl & Htl) & Hk & Hnd).
        * intros x Hx. apply in_app_iff in Hx. apply in_app_iff. destruct Hx as [Hx|Hx]; auto.
          left. apply HI. now right.
        * intros K' HK'. apply in_app_iff in HK'. destruct HK' as [HK'|HK'].
          -- apply (rk_mono seen); auto.
          -- destruct (Hn1 _ HK') as (Hm & _). apply in_map_iff in Hm.
             destruct Hm as (X & <- & HX). apply rk_step; auto. apply (rk_mono seen); auto.
        * now apply Hn2.
        * split; [|auto]. exists (new ++ tl). now rewrite app_assoc.
  Qed.

  Lemma root_kernels_NoDup : NoDup roots -> NoDup (root_kernels roots).
  Proof.
    unfold root_kernels. induction 1 as [|r l Hr ND IH]; simpl; constructor; auto.
    rewrite in_map_iff. intros (r' & E & Hin). inversion E; subst. contradiction.
  Qed.

  Lemma gotoish_dots K it : gotoish K -> In it K -> exists d', snd it = S d'.
  Proof.
    intros (C & X & -> & _) H. apply goto_kernel_In in H. destruct H as (d' & H & _). eauto.
  Qed.

  Lemma gotoish_nonempty K : gotoish K -> K <> [].
  Proof.
    intros (C & X & -> & HX) E. apply next_syms_In in HX. destruct HX as (it & Hc & Hn).
    assert (H : In (fst it, S (snd it)) (goto_kernel C X)).
    { apply goto_kernel_In. exists (snd it). simpl. destruct it; auto. }
    rewrite E in H. contradiction.
  Qed.

  Lemma assoc_trans_row ks C X :
    assoc_trans X (trans_row rules ks C) =
    if mem_sym X (next_syms C) then index_of kernel_eqb (goto_kernel C X) ks else None.
  Proof.
    unfold trans_row. induction (next_syms C) as [|Y l IH]; simpl; auto.
    destruct (symbol_eqb_spec X Y) as [<-|Hne]; simpl.
    - destruct (index_of kernel_eqb (goto_kernel C X) ks) as [q|] eqn:E; simpl.
      + destruct (symbol_eqb_spec X X); congruence.
      + rewrite IH. now destruct (mem_sym X l).
    - destruct (index_of kernel_eqb (goto_kernel C Y) ks); simpl; auto.
      destruct (symbol_eqb_spec X Y); congruence.
  Qed.

  Section Built.
    Variable fuel : nat.
    Variable A : lr0.
    Hypothesis HA : build_lr0 rules roots fuel = Some A.
    Hypothesis ND_roots : NoDup roots.

    Lemma built_shape :
      closures A = map closure (kernels A) /\
      transs A = map (trans_row rules (kernels A)) (closures A) /\
      (exists tl, kernels A = root_kernels roots ++ tl) /\
      (forall K, In K (kernels A) -> rk (kernels A) K) /\ NoDup (kernels A).
    Proof.
      unfold build_lr0 in HA. destruct (bfs rules fuel (root_kernels roots) (root_kernels roots)) as [ks|] eqn:E; [|discriminate].
      inversion HA; subst; simpl.
      destruct (bfs_spec _ _ _ _ E) as (H1 & H2 & H3); auto using incl_refl, root_kernels_NoDup.
      intros K HK. apply in_map_iff in HK. destruct HK as (r & <- & Hr). now constructor.
    Qed.

    Lemma closure_of_nth q : closure_of A q = closure (nth q (kernels A) []).
    Proof.
      destruct built_shape as (Hc & _). unfold closure_of. rewrite Hc.
      change [] with (closure []) at 1. apply map_nth.
    Qed.

    Lemma closure_of_kernel q K : nth_error (kernels A) q = Some K -> closure_of A q = closure K.
    Proof. intros H. now rewrite closure_of_nth, (nth_error_nth _ _ _ H). Qed.

    Lemma closure_of_nil q : nstates A <= q -> closure_of A q = [].
    Proof. intros H. rewrite closure_of_nth, nth_overflow; auto. Qed.

    Lemma item_state_lt q it : In it (closure_of A q) -> q < nstates A.
    Proof.
      intros H. destruct (lt_dec q (nstates A)); auto. rewrite closure_of_nil in H by lia. contradiction.
    Qed.

    Lemma kernel_inj q q' K :
      nth_error (kernels A) q = Some K -> nth_error (kernels A) q' = Some K -> q = q'.
    Proof.
      destruct built_shape as (_ & _ & _ & _ & ND). intros H H'.
      apply (proj1 (NoDup_nth_error (kernels A)) ND); [|congruence]. apply nth_error_Some. congruence.
    Qed.

    Lemma root_kernel_at i r : nth_error roots i = Some r -> nth_error (kernels A) i = Some [(r, 0)].
    Proof.
      intros Hi. destruct built_shape as (_ & _ & (tl & Hp) & _).
      rewrite Hp, nth_error_app1; unfold root_kernels.
      - now rewrite nth_error_map, Hi.
      - rewrite map_length. apply nth_error_Some. congruence.
    Qed.

    Lemma kernel_dot0 K r : In K (kernels A) -> In (r, 0) K -> In r roots /\ K = [(r, 0)].
    Proof.
      intros HK Hin. destruct built_shape as (_ & _ & _ & Hrk & _).
      destruct (rk_cases _ _ (Hrk K HK)) as [(r' & Hr' & ->)|(Hg & _)].
      - destruct Hin as [E|[]]. inversion E. now subst.
      - destruct (gotoish_dots _ _ Hg Hin). discriminate.
    Qed.

    Lemma closure_of_dot0_valid q i :
      (forall r, In r roots -> r < length rules) -> In (i, 0) (closure_of A q) -> i < length rules.
    Proof.
      intros Hv H. pose proof (item_state_lt _ _ H) as Hq. rewrite closure_of_nth in H.
      apply closure_In in H. destruct H as [H|(_ & H & _)]; auto.
      apply Hv. exact (proj1 (kernel_dot0 _ _ (nth_In _ _ Hq) H)).
    Qed.

    Lemma trans_eq q X :
      trans A q X = if mem_sym X (next_syms (closure_of A q))
                    then index_of kernel_eqb (goto_kernel (closure_of A q) X) (kernels A) else None.
    Proof.
      destruct built_shape as (_ & Ht & _). unfold trans, trans_of. rewrite Ht.
      change (@nil (symbol * nat)) with (trans_row rules (kernels A) []). rewrite map_nth.
      apply assoc_trans_row.
    Qed.

    Lemma trans_spec q X q' :
      trans A q X = Some q' ->
      q < nstates A /\ In X (next_syms (closure_of A q)) /\
      nth_error (kernels A) q' = Some (goto_kernel (closure_of A q) X).
    Proof.
      rewrite trans_eq. destruct (mem_sym X (next_syms (closure_of A q))) eqn:E; [|discriminate].
      apply mem_sym_In in E. intros HI. apply (index_of_nth _ kernel_eqb_eq) in HI.
      split; [|tauto]. apply next_syms_In in E. destruct E as (it & Hit & _).
      eapply item_state_lt; eauto.
    Qed.

    Lemma item_advance q i d X q' :
      In (i, d) (closure_of A q) -> next_sym (i, d) = Some X -> trans A q X = Some q' ->
      In (i, S d) (closure_of A q').
    Proof.
      intros Hit Hn Ht. destruct (trans_spec _ _ _ Ht) as (_ & _ & Hk).
      rewrite (closure_of_kernel _ _ Hk). apply closure_kernel, goto_kernel_In. exists d. auto.
    Qed.

    Lemma trans_not_root q X i r : nth_error roots i = Some r -> trans A q X <> Some i.
    Proof.
      intros Hi H. destruct (trans_spec _ _ _ H) as (_ & _ & Hk).
      rewrite (root_kernel_at _ _ Hi) in Hk. inversion Hk as [E].
      assert (Hin : In (r, 0) (goto_kernel (closure_of A q) X)) by (rewrite <- E; now left).
      apply goto_kernel_In in Hin. destruct Hin as (d' & Hd & _). discriminate.
    Qed.

    Lemma root_item_kernel r rootnt start K :
      rule_at r = mkRule rootnt [NT start] -> (forall r', In r' rules -> ~ In (NT rootnt) (rhs r')) ->
      In K (kernels A) -> In (r, 0) (closure K) -> K = [(r, 0)].
    Proof.
      intros Hr fresh HK Hc.
      refine (closure_ind K (fun it => it = (r, 0) -> K = [(r, 0)]) _ _ (r, 0) Hc eq_refl).
      - intros it Hit ->. exact (proj2 (kernel_dot0 K r HK Hit)).
      - (* a prediction of rule r would come from an item with NT rootnt after the dot *)
        intros it b i _ Hn Hi Hl E. inversion E; subst i. rewrite Hr in Hl. simpl in Hl. subst b.
        destruct (next_sym_valid it _ Hn) as (Hv & Hin). destruct (fresh _ (rule_at_In _ Hv) Hin).
    Qed.

    Lemma end_state_kernel i r qe :
      nth_error roots i = Some r -> rhs (rule_at r) <> [] -> end_state rules roots A i = Some qe ->
      exists K, nth_error (kernels A) qe = Some K /\ In (r, length (rhs (rule_at r))) K.
    Proof.
      intros Hi Hne Hqe. unfold end_state in Hqe. rewrite (nth_error_nth _ _ _ Hi) in Hqe.
      apply find_index_spec in Hqe. destruct Hqe as (C & HC & Hex). apply satisfied_In in Hex.
      destruct built_shape as (Hc & _). rewrite Hc, nth_error_map in HC.
      destruct (nth_error (kernels A) qe) as [K|]; [|discriminate]. inversion HC; subst C.
      exists K. split; auto. apply closure_In in Hex. destruct Hex as [Hex|(H0 & _)]; auto.
      simpl in H0. destruct (rhs (rule_at r)); [congruence|discriminate].
    Qed.

    Lemma start_items_In x i :
      In i (start_items rules A x) <-> In (i, 0) (closure_of A (fst x)) /\ lhs (rule_at i) = snd x.
    Proof.
      unfold start_items. rewrite in_flat_map. split.
      - intros ((j, d) & Hit & H). simpl in H.
        destruct (Nat.eqb_spec (lhs (rule_at j)) (snd x)), (Nat.eqb_spec d 0); simpl in H; try contradiction.
        destruct H as [<-|[]]. now subst.
      - intros (Hit & Hl). exists (i, 0). split; auto. simpl. rewrite Hl, !Nat.eqb_refl. now left.
    Qed.

    Lemma lookback_In x q2 i :
      In (q2, i) (lookback rules A x) <->
      In i (start_items rules A x) /\ snd (walk A (fst x) (rhs (rule_at i))) = Some q2 /\
      In (i, length (rhs (rule_at i))) (closure_of A q2).
    Proof.
      unfold lookback. rewrite dedup_pair_In, in_flat_map. split.
      - intros (r & Hr & H). destruct (snd (walk A (fst x) (rhs (rule_at r)))) as [q3|] eqn:Ew; [|contradiction].
        destruct (existsb _ (closure_of A q3)) eqn:Ex; [|contradiction].
        destruct H as [E|[]]. inversion E; subst. apply satisfied_In in Ex. auto.
      - intros (Hr & Hw & Hc). exists i. split; auto. rewrite Hw.
        apply satisfied_In in Hc. rewrite Hc. now left.
    Qed.
  End Built.
End Wf.

Arguments built_shape {rules roots fuel A} HA ND_roots.
Arguments closure_of_nth {rules roots fuel A} HA ND_roots.
Arguments closure_of_kernel {rules roots fuel A} HA ND_roots.
Arguments closure_of_nil {rules roots fuel A} HA ND_roots.
Arguments item_state_lt {rules roots fuel A} HA ND_roots.
Arguments kernel_inj {rules roots fuel A} HA ND_roots.
Arguments root_kernel_at {rules roots fuel A} HA ND_roots.
Arguments kernel_dot0 {rules roots fuel A} HA ND_roots.
Arguments closure_of_dot0_valid {rules roots fuel A} HA ND_roots.
Arguments trans_eq {rules roots fuel A} HA ND_roots.
Arguments trans_spec {rules roots fuel A} HA ND_roots.
Arguments item_advance {rules roots fuel A} HA ND_roots.
Arguments trans_not_root {rules roots fuel A} HA ND_roots.
Arguments root_item_kernel {rules roots fuel A} HA ND_roots.
Arguments end_state_kernel {rules roots fuel A} HA ND_roots.

Lemma la_triples_lookback rules roots tEND A q s r :
  In (q, s, r) (la_triples (compute_relations rules roots tEND A)) ->
  exists x, In x (nt_transitions rules A) /\ In (q, r) (lookback rules A x).
Proof.
  unfold la_triples. rewrite la_triples_of_In. intros (lb & f & Hc & Hlb & _).
  apply in_combine_l in Hc. simpl in Hc. apply in_map_iff in Hc. destruct Hc as (x & <- & Hx). eauto.
Qed.

Section Main.
  Variable rules : list rule.
  Variable prio : list Z.
  Variable roots : list nat.
  Variable tEND fuel : nat.
  Variable A : lr0.
  Variable rel : relations.
  Variable LA : list (nat * nat * nat).
  Variable R : rows.
  Hypothesis HT : compute_lalr rules prio roots tEND fuel = ATable A rel LA R.
  Hypothesis ND_roots : NoDup roots.
  Hypothesis roots_valid : forall r, In r roots -> r < length rules.
  Variable i r0 rootnt start qe : nat.
  Hypothesis Hi : nth_error roots i = Some r0.
  Hypothesis Hr0 : rule_at rules r0 = mkRule rootnt [NT start].
  Hypothesis fresh : forall r, In r rules -> ~ In (NT rootnt) (rhs r).
  Hypothesis Hqe : end_state rules roots A i = Some qe.

  Notation closure_of := (closure_of A).

  Lemma ATable_inv :
    build_lr0 rules roots fuel = Some A /\ rel = compute_relations rules roots tEND A /\
    LA = la_triples rel /\ R = table_rows rules prio A LA.
  Proof.
    unfold compute_lalr in HT. destruct (build_lr0 rules roots fuel) as [A'|]; [|discriminate].
    destruct (collisions prio A' (la_triples (compute_relations rules roots tEND A'))); inversion HT; subst; auto.
  Qed.

  Lemma ATable_built : build_lr0 rules roots fuel = Some A.
  Proof. exact (proj1 ATable_inv). Qed.

  Definition model_ptable : ptable := ptable_of_rows R i qe.
  Definition model_items (q : state) : list (rule * nat) := items_of (items_annot rules A) q.

  Lemma action_row q X :
    pt_action model_ptable q X = if q <? nstates A then assoc_sym X (row rules prio A LA q) else None.
  Proof.
    destruct ATable_inv as (_ & _ & _ & ER). simpl. rewrite ER. unfold rows_action, table_rows.
    rewrite row_of_seq. simpl. now destruct (q <? nstates A).
  Qed.

  Lemma action_shift q X q' : pt_action model_ptable q X = Some (Shift q') -> trans A q X = Some q'.
  Proof.
    rewrite action_row. destruct (q <? nstates A); [|discriminate]. intros H1.
    destruct (trans A q X) as [p|] eqn:Et.
    - rewrite (shift_preferred _ _ _ _ _ _ _ Et) in H1. now inversion H1.
    - unfold row, trans in *. rewrite assoc_sym_app, assoc_shift_entries, Et in H1. simpl in H1.
      exfalso. apply assoc_sym_In in H1. unfold reduce_entries in H1. apply in_flat_map in H1.
      destruct H1 as (s & _ & H1). destruct (decide prio (la_rules LA q s)); [|contradiction].
      destruct (mem_sym (T s) (map fst (trans_of A q))); [contradiction|]. destruct H1 as [H1|[]]. discriminate.
  Qed.

  Lemma items_In q r d :
    In (r, d) (model_items q) <-> exists it, In it (closure_of q) /\ r = rule_at rules (fst it) /\ d = snd it.
  Proof.
    unfold model_items, items_annot. rewrite items_of_seq. simpl.
    assert (E : (if q <? nstates A then item_rules rules A q else []) = item_rules rules A q).
    { destruct (Nat.ltb_spec q (nstates A)); auto. unfold item_rules.
      now rewrite (closure_of_nil ATable_built ND_roots). }
    rewrite E. unfold item_rules. rewrite in_map_iff. split.
    - intros (it & E' & H). inversion E'; subst. eauto.
    - intros (it & H & -> & ->). eauto.
  Qed.

  Theorem model_wf_items : wf_items rules model_ptable start model_items.
  Proof.
    destruct ATable_inv as (E0 & Erel & ELA & ER).
    pose proof (root_kernel_at ATable_built ND_roots i r0 Hi) as Hki.
    constructor.
    - (* reduce entries: the rule has a lookback entry, hence its completed item is in the state *)
      intros q a r H. rewrite action_row in H. destruct (q <? nstates A); [|discriminate].
      destruct (reduce_only_without_shift _ _ _ _ _ _ _ H) as (_ & s & i0 & _ & -> & Hs & Hd).
      apply (decide_use prio) in Hd; auto using la_rules_NoDup, la_rules_nonempty.
      destruct Hd as (Hin & _). apply la_rules_In in Hin. rewrite ELA, Erel in Hin.
      destruct (la_triples_lookback _ _ _ _ _ _ _ Hin) as (x & _ & Hlb).
      apply lookback_In in Hlb. destruct Hlb as (Hst & _ & Hit).
      apply start_items_In in Hst. destruct Hst as (Hst & _). split.
      + apply rule_at_In. eapply closure_of_dot0_valid; eauto.
      + apply items_In. exists (i0, length (rhs (rule_at rules i0))). auto.
    - intros q X q' r d H Hin. apply action_shift in H.
      destruct (trans_spec ATable_built ND_roots _ _ _ H) as (_ & _ & Hk).
      apply items_In in Hin. destruct Hin as (it & Hit & -> & ->).
      rewrite (closure_of_kernel ATable_built ND_roots _ _ Hk) in Hit. apply closure_In in Hit.
      destruct Hit as [Hit|(H0 & _)]; [|now left].
      apply goto_kernel_In in Hit. destruct Hit as (d' & Hd & Hc & Hn). right.
      exists d'. split; auto. split; [exact Hn|]. apply items_In. exists (fst it, d'). auto.
    - intros r d Hin. simpl in Hin. apply items_In in Hin. destruct Hin as (it & Hit & -> & ->).
      rewrite (closure_of_kernel ATable_built ND_roots _ _ Hki) in Hit. apply closure_In in Hit.
      destruct Hit as [[<-|[]]|(H0 & _)]; auto.
    - (* the end state is entered only from the start state on NT start: its kernel holds
         (r0, 1), which a goto can only have made from the root item *)
      intros q X H. simpl in H. apply action_shift in H.
      destruct (trans_spec ATable_built ND_roots _ _ _ H) as (Hq & _ & Hk).
      destruct (end_state_kernel ATable_built ND_roots i r0 qe Hi) as (K & HK & Hin); auto.
      { rewrite Hr0. discriminate. }
      rewrite Hk in HK. inversion HK; subst K. rewrite Hr0 in Hin. simpl in Hin.
      apply goto_kernel_In in Hin. destruct Hin as (d' & Hd & Hc & Hn). simpl in Hd, Hc, Hn.
      inversion Hd; subst d'.
      rewrite (root_next_sym rules _ _ _ Hr0) in Hn. inversion Hn; subst X.
      split; [|reflexivity].
      rewrite (closure_of_nth ATable_built ND_roots) in Hc.
      apply (root_item_kernel ATable_built ND_roots r0 rootnt start) in Hc; auto using nth_In.
      apply (kernel_inj ATable_built ND_roots q i [(r0, 0)]); auto.
      rewrite <- Hc. now apply nth_error_nth'.
    - intros q X H. simpl in H. apply action_shift in H.
      exact (trans_not_root ATable_built ND_roots _ _ _ _ Hi H).
  Qed.

  (* the model driver on the model table accepts only sentences of [rules] (user rules plus
     root rules; see derives_without_root for dropping the latter) *)
  Theorem model_table_sound fuel' w t :
    parse nat (fun k => k) model_ptable fuel' w tEND = Accepted t ->
    yield nat t = w /\ derives rules nat (tmatch nat (fun k => k)) [NT start] w.
  Proof.
    intros H.
    destruct (driver_sound nat (fun k => k) rules model_ptable start (wf_items_table rules model_ptable start model_items model_wf_items) fuel' w tEND t H)
      as (_ & _ & Hy & Hd). auto.
  Qed.
End Main.

Arguments ATable_inv {rules prio roots tEND fuel A rel LA R} HT.
Arguments ATable_built {rules prio roots tEND fuel A rel LA R} HT.
Arguments action_row {rules prio roots tEND fuel A rel LA R} HT.
Arguments action_shift {rules prio roots tEND fuel A rel LA R} HT.
Arguments items_In {rules prio roots tEND fuel A rel LA R} HT ND_roots.

(* lark's rule order for one start symbol: the user rules G, then  $root -> start *)
Section UserRules.
  Variable G : grammar.
  Variable rootnt start : nat.
  Notation rules := (G ++ [mkRule rootnt [NT start]]).

  Lemma user_incl : incl G rules.
  Proof. intros r Hr. apply in_app_iff. now left. Qed.

  Lemma user_root_lt : length G < length rules.
  Proof. rewrite app_length. simpl. lia. Qed.

  Lemma user_root_rule : rule_at rules (length G) = mkRule rootnt [NT start].
  Proof. unfold rule_at. apply nth_middle. Qed.

  Lemma user_roots_valid r : In r [length G] -> r < length rules.
  Proof. intros [<-|[]]. exact user_root_lt. Qed.

  Hypothesis fresh : forall r, In r G -> ~ In (NT rootnt) (rhs r).
  Hypothesis Hne : start <> rootnt.

  Lemma user_fresh r : In r rules -> ~ In (NT rootnt) (rhs r).
  Proof.
    intros Hr. apply in_app_iff in Hr. destruct Hr as [Hr|[<-|[]]]; auto.
    simpl. intros [E|[]]. inversion E. congruence.
  Qed.

  Lemma derives_user (tok : Type) (tm : nat -> tok -> bool) w :
    derives rules tok tm [NT start] w -> derives G tok tm [NT start] w.
  Proof.
    intros Hd. apply (derives_without_root tok tm G (mkRule rootnt [NT start])).
    - exact fresh.
    - eapply derives_incl; [|exact Hd]. intros r Hr. apply in_app_iff in Hr.
      destruct Hr as [Hr|[<-|[]]]; [now right|now left].
    - simpl. intros [E|[]]. inversion E. congruence.
  Qed.
End UserRules.

(* single start symbol, lark's rule order (user rules, then $root -> start): accepted inputs
   are sentences of the USER grammar *)
Theorem model_table_sound_user (G : grammar) (prio : list Z) (rootnt start tEND fuel : nat)
        (A : lr0) (rel : relations) (LA : list (nat * nat * nat)) (R : rows) (qe fuel' : nat)
        (w : list nat) (t : dtree nat) :
  compute_lalr (G ++ [mkRule rootnt [NT start]]) prio [length G] tEND fuel = ATable A rel LA R ->
  (forall r, In r G -> ~ In (NT rootnt) (rhs r)) -> start <> rootnt ->
  end_state (G ++ [mkRule rootnt [NT start]]) [length G] A 0 = Some qe ->
  parse nat (fun k => k) (ptable_of_rows R 0 qe) fuel' w tEND = Accepted t ->
  yield nat t = w /\ derives G nat (tmatch nat (fun k => k)) [NT start] w.
Proof.
  intros HT Hfresh Hne Hqe Hp.
  destruct (model_table_sound _ prio [length G] tEND fuel A rel LA R HT (NoDup_one _)
              (user_roots_valid G rootnt start) 0 (length G) rootnt start qe eq_refl
              (user_root_rule G rootnt start) (user_fresh G rootnt start Hfresh Hne) Hqe fuel' w t Hp)
    as (Hy & Hd).
  split; auto. now apply (derives_user G rootnt start Hfresh Hne).
Qed.
