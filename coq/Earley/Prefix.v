(* Valid-prefix property of the Earley chart and exactness of the expected-terminal set
   (C08, Earley half).  Everything is about the specification chart of Earley/Spec.v;
   the executable model of lark/parsers/earley.py is tied to that chart by C01. *)
From Coq Require Import List Arith Lia Bool.
From LV Require Import Cfg.Grammar Earley.Spec.
Import ListNotations.

Lemma app_eq_mid {A} (w1 w2 u1 : list A) x u2 : w1 ++ w2 = u1 ++ x :: u2 ->
  (exists m, u1 = w1 ++ m /\ w2 = m ++ x :: u2) \/ (exists m, w1 = u1 ++ x :: m).
Proof.
  intros E. apply app_eq_app in E as (l & [[-> E]|[-> E]]); [destruct l as [|y l]; simpl in E|].
  - left. exists []. rewrite !app_nil_r. subst; auto.
  - inversion E; subst. right. eauto.
  - left. eauto.
Qed.

Lemma skipn_nth {A} (l : list A) d x : nth_error l d = Some x -> skipn d l = x :: skipn (S d) l.
Proof.
  revert d. induction l as [|y l IH]; intros [|d] E; simpl in *; try discriminate.
  - inversion E; auto.
  - rewrite (IH d E). reflexivity.
Qed.

Lemma firstn_app_len {A} (a b : list A) : firstn (length a) (a ++ b) = a.
Proof. induction a; simpl; congruence. Qed.

Section Prefix.
  Variable G : grammar.
  Variable tok : Type.
  Variable tmatch : nat -> tok -> bool.
  Variable start : nat.

  Notation derives := (derives G tok tmatch).
  Notation chart := (chart G tok tmatch).

  (* p is a viable prefix: it can be extended to a sentence *)
  Definition viable (p : list tok) : Prop := exists v, derives [NT start] (p ++ v).

  (* every symbol used in a rule body is productive *)
  Definition productive_bodies : Prop :=
    forall r d, In r G -> exists u, derives (skipn d (rhs r)) u.

  (* what is left of an item's rule can still be completed to a sentence *)
  Definition item_viable (w : list tok) (k : nat) (it : item) : Prop :=
    forall u, derives (skipn (dot it) (rhs (irule it))) u -> viable (firstn k w ++ u).

  Lemma span_firstn w i k u : span tok w i k u -> firstn k w = firstn i w ++ u.
  Proof.
    intros (p & s & -> & <- & <-).
    rewrite (firstn_app_len p), <- app_length, app_assoc. apply firstn_app_len.
  Qed.

  (* Valid prefix property: the chart never holds an item after a non-viable prefix. *)
  Theorem chart_item_viable w k it :
    productive_bodies -> chart w start k it -> item_viable w k it.
  Proof.
    intros Hprod H.
    induction H as [r Hin Hl | k r d j a r' Hc IH Hn Hin Hl | k r d j t x Hc IH Hn Hw Hm
                   | k r d j a r' i Hc1 IH1 Hn Hc2 IH2 Hl]; unfold item_viable in *; cbn [dot irule] in *.
    - intros u Hu. exists []. simpl. rewrite app_nil_r, <- Hl. apply derives_rule; auto.
    - intros u Hu.
      destruct (Hprod r (S d) (chart_in_G _ _ _ _ _ _ _ Hc)) as (u2 & Hu2).
      assert (Hd : derives (skipn d (rhs r)) (u ++ u2)).
      { rewrite (skipn_nth _ _ _ Hn). eapply d_nt with (r := r'); eauto. }
      destruct (IH _ Hd) as (v & Hv). exists (u2 ++ v).
      rewrite !app_assoc in *. exact Hv.
    - intros u Hu.
      assert (Hd : derives (skipn d (rhs r)) (x :: u)).
      { rewrite (skipn_nth _ _ _ Hn). constructor; auto. }
      destruct (IH _ Hd) as (v & Hv). exists v.
      rewrite (firstn_S_nth _ _ _ Hw). rewrite <- !app_assoc. simpl. rewrite <- app_assoc in Hv. exact Hv.
    - intros u Hu.
      destruct (chart_sound _ _ _ _ _ _ _ Hc2) as (u1 & Hs & Hd1). cbn [orig dot irule] in *.
      rewrite firstn_all in Hd1.
      assert (Hd : derives (skipn d (rhs r)) (u1 ++ u)).
      { rewrite (skipn_nth _ _ _ Hn). eapply d_nt with (r := r'); eauto.
        apply (chart_in_G _ _ _ _ _ _ _ Hc2). }
      destruct (IH1 _ Hd) as (v & Hv). exists v.
      rewrite (span_firstn _ _ _ _ Hs). rewrite <- !app_assoc in *. exact Hv.
  Qed.

  Definition expects (w : list tok) (k : nat) (t : nat) : Prop :=
    exists r d j, chart w start k (mkItem r d j) /\ nth_error (rhs r) d = Some (T t).

  (* every expected terminal can legally come next *)
  Theorem expected_sound w k t x :
    productive_bodies -> expects w k t -> tmatch t x = true -> k <= length w ->
    viable (firstn k w ++ [x]).
  Proof.
    intros Hprod (r & d & j & Hc & Hn) Hm Hk.
    destruct (Hprod r (S d) (chart_in_G _ _ _ _ _ _ _ Hc)) as (u2 & Hu2).
    assert (Hd : derives (skipn d (rhs r)) (x :: u2)).
    { rewrite (skipn_nth _ _ _ Hn). constructor; auto. }
    destruct (chart_item_viable _ _ _ Hprod Hc _ Hd) as (v & Hv). cbn [dot irule] in *.
    exists (u2 ++ v). rewrite <- app_assoc. simpl. rewrite <- app_assoc in Hv. exact Hv.
  Qed.

  Lemma chart_prefix_gen b u : derives b u ->
    forall w r d j i c u1 x u2,
      chart w start i (mkItem r d j) -> skipn d (rhs r) = b ++ c ->
      u = u1 ++ x :: u2 -> span tok w i (i + length u1) u1 ->
      exists t, expects w (i + length u1) t /\ tmatch t x = true.
  Proof.
    induction 1 as [| t y ss w' Hm Hd IH | a0 r0 ss w1 w2 Hin Hl Hd1 IH1 Hd2 IH2];
      intros w r d j i c u1 x u2 Hc E Eu Hs.
    - destruct u1; discriminate.
    - simpl in E. apply skipn_cons_inv in E as (Hn & E).
      destruct u1 as [|y1 u1']; simpl in Eu; inversion Eu; subst.
      + exists t. split; auto. exists r, d, j. rewrite Nat.add_0_r. auto.
      + apply span_cons in Hs as (Hnth & Hs). cbn [length] in *. rewrite <- Nat.add_succ_comm in *.
        apply (IH w r (S d) j (S i) c u1' x u2); auto. eapply c_scan; eauto.
    - simpl in E. apply skipn_cons_inv in E as (Hn & E).
      assert (Hp : chart w start i (mkItem r0 0 i)) by (eapply c_pred; eauto).
      apply app_eq_mid in Eu as [(m & -> & Ew2)|(m & Ew1)].
      + (* w1 lies inside the consumed input: complete r0 and continue in ss *)
        rewrite app_length, Nat.add_assoc in *. apply span_split in Hs as (Hs1 & Hs2).
        assert (Hr : chart w start (i + length w1) (mkItem r0 (0 + length (rhs r0)) i)).
        { apply (chart_complete_gen G tok tmatch w start _ _ Hd1 r0 0 i i _ []); auto.
          symmetry; apply app_nil_r. }
        apply (IH2 w r (S d) j (i + length w1) c m x u2); auto. eapply c_comp; eauto.
      + (* the next token x is inside w1: descend into r0 *)
        apply (IH1 w r0 0 i i [] u1 x m); auto. symmetry; apply app_nil_r.
  Qed.

  (* completeness on prefixes: every terminal that can legally come next is expected *)
  Theorem expected_complete w k x :
    k <= length w -> viable (firstn k w ++ [x]) ->
    exists t, expects w k t /\ tmatch t x = true.
  Proof.
    intros Hk (v & Hv). rewrite <- app_assoc in Hv. apply derives_nt_inv in Hv as (r & Hin & Hl & Hd).
    assert (Hs : span tok w 0 (0 + length (firstn k w)) (firstn k w)).
    { exists [], (skipn k w). simpl. rewrite firstn_skipn. auto. }
    destruct (chart_prefix_gen _ _ Hd w r 0 0 0 [] (firstn k w) x v) as (t & He & Hm); auto.
    - constructor; auto.
    - symmetry; apply app_nil_r.
    - simpl in He. rewrite firstn_length, Nat.min_l in He by lia. eauto.
  Qed.

  (* The position at which scanning fails is exactly the first offending token: the scan of
     w[k] succeeds (some expected terminal matches it) iff w[0..k] is still a viable prefix. *)
  Theorem first_offending_token w k x :
    productive_bodies -> nth_error w k = Some x ->
    ((exists t, expects w k t /\ tmatch t x = true) <-> viable (firstn (S k) w)).
  Proof.
    intros Hprod Hx.
    assert (Hk : k <= length w).
    { assert (nth_error w k <> None) by congruence. apply nth_error_Some in H. lia. }
    rewrite (firstn_S_nth _ _ _ Hx). split.
    - intros (t & He & Hm). eapply expected_sound; eauto.
    - intros Hv. apply expected_complete; auto.
  Qed.
End Prefix.
