(* The table built by the model of lalr_analysis.py (LR/Automaton.v) carries
   a VALID item annotation (Viable.wf_items_v) for every grammar with one start symbol; hence
   the never-late theorems of Viable_proofs.v hold for the model driver on the model table,
   stated over the USER grammar with Earley/Prefix.v's [viable] and [productive_bodies]. *)
From Coq Require Import List Arith Bool ZArith Lia.
From LV Require Import Cfg.Grammar Earley.Spec Earley.Prefix LR.Driver LR.Driver_proofs
     LR.Automaton LR.Automaton_proofs LR.Automaton_wf LR.Viable LR.Viable_proofs.
Import ListNotations.

Section VM.
  Variable rules : list rule.
  Variable prio : list Z.
  Variable tEND fuel : nat.
  Variable A : lr0.
  Variable rel : relations.
  Variable LA : list (nat * nat * nat).
  Variable R : rows.
  Variable r0 rootnt start qe : nat.
  Hypothesis HT : compute_lalr rules prio [r0] tEND fuel = ATable A rel LA R.
  Hypothesis Hv : r0 < length rules.
  Hypothesis Hr0 : rule_at rules r0 = mkRule rootnt [NT start].
  Hypothesis fresh : forall r, In r rules -> ~ In (NT rootnt) (rhs r).
  Hypothesis Hqe : end_state rules [r0] A 0 = Some qe.

  Notation Pm := (model_ptable R 0 qe).
  Notation itemsm := (model_items rules A).
  Notation just := (justified rules Pm start itemsm).

  Let HB := ATable_built HT.
  Notation ND := (NoDup_one r0).

  Lemma item_in q it : In it (closure_of A q) -> In (rule_at rules (fst it), snd it) (itemsm q).
  Proof. intros H. apply (items_In HT ND). eauto. Qed.

  Lemma kernel_item_justified q it :
    In it (nth q (kernels A) []) -> just q (rule_at rules (fst it)) (snd it).
  Proof.
    intros Hk. destruct it as (i, [|d]); simpl.
    - assert (Hq : q < nstates A).
      { destruct (lt_dec q (nstates A)); auto. rewrite nth_overflow in Hk; [contradiction|unfold nstates in *; lia]. }
      destruct (kernel_dot0 HB ND _ _ (nth_In _ _ Hq) Hk) as ([<-|[]] & EK).
      assert (q = 0).
      { apply (kernel_inj HB ND q 0 [(r0, 0)]).
        - rewrite <- EK. now apply nth_error_nth'.
        - now apply (root_kernel_at HB ND 0 r0). }
      subst q. apply j_root; auto.
      + now apply rule_at_In.
      + now rewrite Hr0.
    - apply j_kernel. apply (item_in q (i, S d)).
      rewrite (closure_of_nth HB ND). now apply closure_kernel.
  Qed.

  Lemma model_justified q it : In it (closure_of A q) -> just q (rule_at rules (fst it)) (snd it).
  Proof.
    rewrite (closure_of_nth HB ND).
    apply (closure_ind rules _ (fun it => just q (rule_at rules (fst it)) (snd it))).
    - apply kernel_item_justified.
    - intros kit b i HJ Hn Hi Hl. apply j_clos with (r' := rule_at rules (fst kit)) (d' := snd kit); auto using rule_at_In.
      + apply rule_at_In, (next_sym_valid rules kit _ Hn).
      + unfold next_sym in Hn. simpl. now rewrite Hl.
  Qed.

  Theorem model_wf_items_v : wf_items_v rules Pm start itemsm.
  Proof.
    constructor.
    - apply (model_wf_items rules prio [r0] tEND fuel A rel LA R HT ND) with (r0 := r0) (rootnt := rootnt); auto.
      intros r [<-|[]]. exact Hv.
    - intros q r d Hin. apply (items_In HT ND) in Hin.
      destruct Hin as (it & Hit & -> & ->). now apply model_justified.
    - intros q X q' Ha. apply (action_shift HT) in Ha.
      destruct (trans_spec HB ND _ _ _ Ha) as (_ & HX & _).
      apply next_syms_In in HX. destruct HX as (it & Hit & Hn).
      exists (rule_at rules (fst it)), (snd it). split; [now apply item_in|]. split.
      + apply rule_at_In. apply (next_sym_valid rules it _ Hn).
      + exact Hn.
    - exists (rule_at rules r0). split; [now apply rule_at_In|now rewrite Hr0].
  Qed.
End VM.

(* user level: rules = G ++ [$root -> start], viability in the USER grammar *)
Section User.
  Variable G : grammar.
  Variable prio : list Z.
  Variable rootnt start tEND fuel : nat.
  Variable A : lr0.
  Variable rel : relations.
  Variable LA : list (nat * nat * nat).
  Variable R : rows.
  Variable qe : nat.
  Notation rules := (G ++ [mkRule rootnt [NT start]]).
  Notation tm := (tmatch nat (fun k : nat => k)).
  Hypothesis HT : compute_lalr rules prio [length G] tEND fuel = ATable A rel LA R.
  Hypothesis fresh : forall r, In r G -> ~ In (NT rootnt) (rhs r).
  Hypothesis Hne : start <> rootnt.
  Hypothesis Hqe : end_state rules [length G] A 0 = Some qe.
  Hypothesis Hprod : productive_bodies G nat tm.
  Hypothesis Hstart : exists r, In r G /\ lhs r = start.

  Notation Pm := (ptable_of_rows R 0 qe).

  Lemma prod' : productive_bodies rules nat tm.
  Proof.
    intros r d Hr. apply in_app_iff in Hr. destruct Hr as [Hr|[<-|[]]].
    - destruct (Hprod r d Hr) as (u & Hu). exists u. eapply derives_incl; [apply user_incl|exact Hu].
    - simpl. destruct d as [|[|d]]; simpl.
      + destruct Hstart as (r & Hr & Hl). destruct (Hprod r 0 Hr) as (u & Hu). simpl in Hu.
        exists u. rewrite <- Hl. apply derives_rule; [now apply user_incl|].
        eapply derives_incl; [apply user_incl|exact Hu].
      + exists []. constructor.
      + exists []. constructor.
  Qed.

  Lemma WVu : wf_items_v rules (model_ptable R 0 qe) start (model_items rules A).
  Proof.
    apply (model_wf_items_v rules prio tEND fuel A rel LA R (length G) rootnt start qe HT); auto.
    - apply user_root_lt.
    - apply user_root_rule.
    - now apply user_fresh.
  Qed.

  Lemma viable_user p : viable rules nat tm start p -> viable G nat tm start p.
  Proof.
    intros (v & Hv). exists v. now apply (derives_user G rootnt start).
  Qed.

  Theorem model_shift_viable fuel' u c k c' :
    feed_all nat (fun k => k) Pm fuel' (init_config Pm) u = Shifted c ->
    feed nat (fun k => k) Pm fuel' c k false = Shifted c' ->
    viable G nat tm start (u ++ [k]).
  Proof.
    intros H1 H2. apply viable_user.
    exact (lalr_shift_viable nat (fun k => k) rules (model_ptable R 0 qe) start _ WVu prod' fuel' u c k c' H1 H2).
  Qed.

  Theorem model_error_not_late fuel' w c :
    feed_all nat (fun k => k) Pm fuel' (init_config Pm) w = Unexpected c ->
    exists w1 w2, w = w1 ++ w2 /\ consumed nat (vstack c) = w1 /\ viable G nat tm start w1.
  Proof.
    intros H.
    destruct (lalr_error_not_late nat (fun k => k) rules (model_ptable R 0 qe) start _ WVu prod' fuel' w c H)
      as (w1 & w2 & E & Hc & Hvi).
    exists w1, w2. repeat split; auto. now apply viable_user.
  Qed.

  (* accepts(): trial feeds from any configuration reached by feeding u *)
  Theorem model_accepts_sound fuel' u c k c' :
    feed_all nat (fun k => k) Pm fuel' (init_config Pm) u = Shifted c ->
    feed nat (fun k => k) Pm fuel' c k false = Shifted c' ->
    viable G nat tm start (u ++ [k]).
  Proof. exact (model_shift_viable fuel' u c k c'). Qed.

  (* ... and '$END' is in accepts() only after a sentence *)
  Theorem model_accepts_end_sound fuel' u c t :
    feed_all nat (fun k => k) Pm fuel' (init_config Pm) u = Shifted c ->
    feed nat (fun k => k) Pm fuel' c tEND true = Accepted t ->
    derives G nat tm [NT start] u.
  Proof.
    intros H1 H2.
    assert (S : parse nat (fun k => k) Pm fuel' u tEND = Accepted t) by (unfold parse; now rewrite H1).
    exact (proj2 (model_table_sound_user G prio rootnt start tEND fuel A rel LA R qe fuel' u t HT fresh Hne Hqe S)).
  Qed.
End User.
