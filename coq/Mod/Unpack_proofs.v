(* C17 - what _unpack_import hands to do_import. *)
From Coq Require Import List String Bool.
From LV Require Import Mod.Modules Mod.Modules_proofs Mod.Unpack.
Import ListNotations.
Local Open Scope string_scope.

Lemma assoc_dict_set {A} k (v : A) x l :
  assoc x (dict_set k v l) = if String.eqb x k then Some v else assoc x l.
Proof.
  induction l as [|[k' v'] r IH]; simpl.
  - destruct (String.eqb x k); reflexivity.
  - destruct (String.eqb_spec k k') as [->|Hne]; simpl.
    + destruct (String.eqb x k'); reflexivity.
    + destruct (String.eqb_spec x k') as [->|Hx].
      * destruct (String.eqb_spec k' k); [congruence | reflexivity].
      * exact IH.
Qed.

(* dict(zip(names, names)) *)
Lemma assoc_identity_fold names : forall acc k,
  assoc k (fold_left (fun acc n => dict_set n n acc) names acc) = if mem k names then Some k else assoc k acc.
Proof.
  induction names as [|n names IH]; simpl; intros acc k; auto.
  rewrite IH, assoc_dict_set. destruct (String.eqb_spec k n), (mem k names); subst; auto.
Qed.

(* %import path (n1, n2, ...): the whole path is the module, every listed name is imported under its
   own name (a multi-import cannot rename) *)
Theorem unpack_names children names :
  exists al, unpack_import children (ANames names) = Some (children, al) /\
    (forall k v, assoc k al = Some v -> k = v) /\
    (forall n, In n names -> assoc n al = Some n).
Proof.
  eexists. split. reflexivity. split.
  - intros k v. rewrite assoc_identity_fold. destruct (mem k names); simpl; congruence.
  - intros n Hn. rewrite assoc_identity_fold. apply mem_In in Hn. now rewrite Hn.
Qed.

(* %import path.name [-> alias]: the module is the path without its last name; that name is imported,
   under the alias if one is given *)
Theorem unpack_single path name arg :
  path <> [] -> (forall l, arg <> ANames l) ->
  unpack_import (path ++ [name]) arg =
    Some (path, [(name, match arg with AAlias a => a | _ => name end)]).
Proof.
  intros Hp Harg. unfold unpack_import. rewrite rev_app_distr. simpl.
  destruct (rev path) as [|x r] eqn:E.
  { apply (f_equal (@rev string)) in E. rewrite rev_involutive in E. contradiction. }
  rewrite <- E, rev_involutive. destruct arg as [|a|l]; try reflexivity. elim (Harg l); reflexivity.
Qed.

Theorem unpack_nothing name arg : (forall l, arg <> ANames l) -> unpack_import [name] arg = None.
Proof. intros H. destruct arg as [|a|l]; try reflexivity. elim (H l); reflexivity. Qed.
