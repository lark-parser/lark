(* Proofs about the scanner and the token loop of Lex/Lexer.v:
   first-alternative-wins over chunked alternations, chunking, tiling. *)
From Coq Require Import ZArith List Bool String Ascii Arith Lia Sorted Permutation.
From LV Require Import Base.Prelude Lex.LexerBase Gen.LexerSortKey Lex.Lexer Lex.LexerOrder_proofs.
Import ListNotations.

Lemma first_some_spec {A B} (f : A -> option B) l x b :
  first_some f l = Some (x, b) ->
  exists pre post, l = pre ++ x :: post /\ f x = Some b /\ forall u, In u pre -> f u = None.
Proof.
  induction l as [|y r IH]; cbn; [discriminate|].
  destruct (f y) eqn:E.
  - intros H; injection H as <- <-. exists [], r. repeat split; auto. intros u [].
  - intros H. destruct (IH H) as (pre & post & -> & Hx & Hpre).
    exists (y :: pre), post. repeat split; auto.
    intros u [<-|Hu]; auto.
Qed.

Lemma first_some_none {A B} (f : A -> option B) l :
  first_some f l = None <-> forall u, In u l -> f u = None.
Proof.
  induction l as [|y r IH]; cbn.
  - split; [intros _ u []|reflexivity].
  - destruct (f y) eqn:E.
    + split; [discriminate|]. intros H. specialize (H y (or_introl eq_refl)). congruence.
    + rewrite IH. split.
      * intros H u [<-|Hu]; auto.
      * intros H u Hu. apply H. now right.
Qed.

Lemma first_some_app {A B} (f : A -> option B) l1 l2 :
  first_some f (l1 ++ l2) = match first_some f l1 with Some x => Some x | None => first_some f l2 end.
Proof.
  induction l1 as [|y r IH]; cbn; [reflexivity|].
  destruct (f y); [reflexivity|apply IH].
Qed.

Lemma first_some_intro {A B} (f : A -> option B) pre x post b :
  (forall u, In u pre -> f u = None) -> f x = Some b ->
  first_some f (pre ++ x :: post) = Some (x, b).
Proof.
  induction pre as [|y pre IH]; cbn; intros Hpre Hx.
  - now rewrite Hx.
  - rewrite (Hpre y (or_introl eq_refl)). apply IH; auto.
Qed.

Lemma first_some_filter {A B} (f : A -> option B) (keep : A -> bool) l x b :
  first_some f l = Some (x, b) -> keep x = true -> first_some f (filter keep l) = Some (x, b).
Proof.
  intros H K. apply first_some_spec in H. destruct H as (pre & post & -> & Hx & Hpre).
  rewrite filter_app. cbn. rewrite K. apply first_some_intro; auto.
  intros u Hu. apply filter_In in Hu. now apply Hpre.
Qed.

Lemma first_some_sorted {B} (f : term -> option B) l x b :
  StronglySorted doc_le l -> first_some f l = Some (x, b) ->
  In x l /\ f x = Some b /\ forall u, In u l -> f u <> None -> doc_le x u.
Proof.
  intros Hs H. apply first_some_spec in H. destruct H as (pre & post & -> & Hx & Hpre).
  split; [apply in_elt|]. split; [assumption|].
  intros u Hu Hfu. apply in_app_or in Hu. destruct Hu as [Hu|[<-|Hu]].
  - now apply Hpre in Hu.
  - apply doc_le_refl.
  - now apply (sorted_split_le _ _ _ _ Hs).
Qed.

Section Proofs.

Variable m : term -> string -> nat -> option nat.
Variable cok : list term -> bool.
Variable text : string.

Notation scan := (Lexer.scan m text).
Notation lex_raw := (Lexer.lex_raw m text).

Lemma scan_concat mres p : scan mres p = first_some (fun t => m t text p) (List.concat mres).
Proof.
  induction mres as [|c r IH]; cbn; [reflexivity|].
  rewrite first_some_app. unfold chunk_match.
  destruct (first_some (fun t => m t text p) c); [reflexivity|apply IH].
Qed.

Theorem scanner_first mres p t n :
  scan mres p = Some (t, n) ->
  exists pre post, List.concat mres = pre ++ t :: post /\ m t text p = Some n /\
                   forall u, In u pre -> m u text p = None.
Proof. rewrite scan_concat. apply (first_some_spec (fun t => m t text p)). Qed.

Lemma scan_none mres p :
  scan mres p = None <-> forall u, In u (List.concat mres) -> m u text p = None.
Proof. rewrite scan_concat. apply (first_some_none (fun t => m t text p)). Qed.

Theorem scanner_first_documented mres p t n :
  StronglySorted doc_le (List.concat mres) ->
  scan mres p = Some (t, n) ->
  In t (List.concat mres) /\ m t text p = Some n /\
  forall u, In u (List.concat mres) -> m u text p <> None -> doc_le t u.
Proof. rewrite scan_concat. apply (first_some_sorted (fun t => m t text p)). Qed.

Lemma build_loop_spec n k : forall ts acc,
  match build_loop cok n k ts acc with
  | LDone mres => List.concat mres = List.concat (rev acc) ++ ts
  | LRetry rest => exists pre, ts = pre ++ rest
  | LFuel => True
  end.
Proof.
  induction n as [|n IH]; intros [|t ts] acc; cbn [build_loop]; try (now rewrite app_nil_r); [exact I|].
  destruct (cok (firstn k (t :: ts))); [|now exists []].
  specialize (IH (skipn k (t :: ts)) (firstn k (t :: ts) :: acc)).
  destruct (build_loop cok n k _ _) as [mres|rest|]; [| |exact I].
  - rewrite IH. cbn [rev]. rewrite concat_app. cbn [List.concat].
    rewrite app_nil_r, <- app_assoc. f_equal. apply firstn_skipn.
  - destruct IH as (pre & H). exists (firstn k (t :: ts) ++ pre).
    rewrite <- app_assoc, <- H. symmetry. apply firstn_skipn.
Qed.

(* whatever the compile oracle does, the alternations are consecutive slices of a suffix of
   the terminal list (what had been accumulated before a failure is dropped by the code) *)
Theorem build_mres_suffix fuel : forall k ts mres,
  build_mres cok fuel k ts = Some mres -> exists dropped, ts = dropped ++ List.concat mres.
Proof.
  induction fuel as [|f IH]; intros k ts mres; cbn [build_mres]; [discriminate|].
  pose proof (build_loop_spec (S (List.length ts)) k ts []) as E.
  destruct (build_loop cok _ k ts []) as [mr|rest|]; try discriminate.
  - intros H; injection H as <-. exists []. now rewrite E.
  - intros H. apply IH in H. destruct H as (d & H). destruct E as (pre & E).
    exists (pre ++ d). now rewrite <- app_assoc, <- H.
Qed.

(* a compile oracle that only depends on the number of alternatives (the group limit of old
   Pythons; never failing is the special case of this interpreter) *)
Definition cok_monotone : Prop :=
  forall l l', cok l = true -> (List.length l' <= List.length l)%nat -> cok l' = true.

(* such an oracle refuses the first chunk or none: later chunks are not longer *)
Lemma build_loop_retry_first (Hmono : cok_monotone) n k : forall ts acc rest,
  build_loop cok n k ts acc = LRetry rest -> rest = ts /\ cok (firstn k ts) = false.
Proof.
  induction n as [|n IH]; intros [|t ts] acc rest; cbn [build_loop]; try discriminate.
  destruct (cok (firstn k (t :: ts))) eqn:Hc.
  - intros H. apply IH in H. destruct H as [_ H].
    rewrite (Hmono _ _ Hc) in H; [discriminate|]. rewrite !firstn_length, skipn_length. lia.
  - intros H; injection H as <-. now split.
Qed.

Theorem build_mres_concat (Hmono : cok_monotone) fuel : forall k ts mres,
  build_mres cok fuel k ts = Some mres -> List.concat mres = ts.
Proof.
  induction fuel as [|f IH]; intros k ts mres; cbn [build_mres]; [discriminate|].
  pose proof (build_loop_spec (S (List.length ts)) k ts []) as E.
  destruct (build_loop cok _ k ts []) as [mr|rest|] eqn:Er; try discriminate.
  - intros H; now injection H as <-.
  - apply (build_loop_retry_first Hmono) in Er. destruct Er as [-> _]. apply IH.
Qed.

Inductive tiled : nat -> list rawtok -> nat -> Prop :=
| tiled_nil a : tiled a [] a
| tiled_cons a r rs b :
    rstart r = a -> (0 < rlen r)%nat -> tiled (a + rlen r) rs b -> tiled a (r :: rs) b.

Lemma tiled_le a rs b : tiled a rs b -> (a <= b)%nat.
Proof. induction 1; lia. Qed.

Definition scanned (mres : list (list term)) (r : rawtok) : Prop :=
  scan mres (rstart r) = Some (rterm r, rlen r).

(* matches of the scanner's terminals are non-empty (the min_width == 0 rejection) and end
   inside the text *)
Theorem lex_raw_tiling mres fuel
  (H_pos : forall t p n, In t (List.concat mres) -> m t text p = Some n -> (0 < n)%nat)
  (H_bound : forall t p n, In t (List.concat mres) -> m t text p = Some n ->
               (p + n <= String.length text)%nat) :
  forall p rs e,
  (p <= String.length text)%nat -> (String.length text - p < fuel)%nat ->
  lex_raw fuel mres p = (rs, e) ->
  Forall (scanned mres) rs /\
  match e with
  | AtEOF => tiled p rs (String.length text)
  | ErrAt q => tiled p rs q /\ (q < String.length text)%nat /\
               forall t, In t (List.concat mres) -> m t text q = None
  | NoFuel => False
  end.
Proof.
  induction fuel as [|f IH]; intros p rs e Hp Hf; [lia|].
  cbn [Lexer.lex_raw].
  destruct (String.length text <=? p)%nat eqn:El.
  - apply Nat.leb_le in El. intros H; injection H as <- <-.
    split; [constructor|]. replace p with (String.length text) by lia. constructor.
  - apply Nat.leb_gt in El.
    destruct (scan mres p) as [[t n]|] eqn:Es.
    + destruct (Lexer.lex_raw m text f mres (p + n)) as [ts e'] eqn:Er.
      intros H; injection H as <- <-.
      destruct (scanner_first _ _ _ _ Es) as (pre & post & E & Hm & _).
      assert (Ht : In t (List.concat mres)) by (rewrite E; apply in_elt).
      pose proof (H_pos _ _ _ Ht Hm). pose proof (H_bound _ _ _ Ht Hm).
      destruct (IH (p + n)%nat ts e') as [Hall He]; [lia|lia|assumption|].
      split; [constructor; [exact Es|assumption]|].
      destruct e'.
      * constructor; auto.
      * destruct He as (Ht' & Hq & Hn). repeat split; auto. constructor; auto.
      * assumption.
    + intros H; injection H as <- <-. split; [constructor|].
      repeat split; [constructor|assumption|]. now apply scan_none.
Qed.

End Proofs.
