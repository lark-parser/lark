(* C12 - theorems about the cache protocol model Cache/Cache.v.

   Idealisations, stated as Section hypotheses (see DESIGN section 3):
     sha_prefix    no digest is a prefix of another digest's continuation: sha a ++ r = sha b ++ r' -> a = b.
                   This is "sha256 has no collisions" (the collision-free idealisation of a cryptographic hash)
                   together with "all digests have one length", in the only form that is satisfiable by a
                   function on all byte strings (an injective function into strings of ONE length cannot
                   exist, so stating the two separately would make every theorem vacuous; see the instance in
                   Props/C12.v).  sha_no_nl: a hex digest contains no newline
     decU_encU / decD_encD / encU_nonempty   pickle is a self-delimiting codec with non-empty output
   The hypotheses on the rest of lark, each one forced by the proof of history_inv (and each refuted on the
   implementation by a keyed exotic stream of harness/props/C12.py):
     okenv               the class of file-system states in which every import resolves to the path it resolved
                         to when the cache was written (a predicate on environments; histories stay inside it)
     resolution_stable   inside that class: if every file recorded by the cached construction still verifies,
                         constructing now gives the same result (outside the class it fails on the code:
                         F11 import-path shadowing, F17 source_path, a deleted import - verify_used_files skips
                         paths it cannot read)
     build_verifies      the used-files table written verifies against the files it was computed from
     runtime_reapplied   data built under one value of the unhashed options and loaded under another behaves
                         as if built under the latter (C11 round trip; fails for edit_terminals and
                         postlex.always_accept: F16) *)
From Coq Require Import String List Ascii Bool Arith Lia.
From LV Require Import Cache.Bytes Cache.PyRepr Gen.CacheKey Cache.Cache Cache.PyRepr_proofs.
Import ListNotations.

Lemma app_inv_len {A} (a a' x x' : list A) :
  length a = length a' -> a ++ x = a' ++ x' -> a = a' /\ x = x'.
Proof.
  revert a'. induction a as [|h a IH]; intros [|h' a'] L H; cbn in *; try discriminate; auto.
  inversion H; subst. destruct (IH a') as [-> ->]; auto.
Qed.

Lemma firstn_In {A} n (l : list A) x : In x (firstn n l) -> In x l.
Proof.
  revert l. induction n; intros [|y l]; cbn; try tauto. intros [->|H]; auto.
Qed.

Lemma split_line_pre x y :
  ~ In nl x -> split_line (x ++ y) = (x ++ fst (split_line y), snd (split_line y)).
Proof.
  induction x as [|c x IH]; cbn; intros H.
  - now destruct (split_line y).
  - destruct (Ascii.eqb c nl) eqn:E. { apply Ascii.eqb_eq in E. subst. tauto. }
    rewrite IH by tauto. reflexivity.
Qed.

Lemma split_line_nonl l : ~ In nl l -> split_line l = (l, []).
Proof. intros H. rewrite <- (app_nil_r l) at 1. rewrite split_line_pre by exact H. cbn. now rewrite app_nil_r. Qed.

Lemma split_line_app l b : ~ In nl l -> split_line (l ++ nl :: b) = (l, b).
Proof. intros H. rewrite split_line_pre by exact H. cbn. now rewrite app_nil_r. Qed.

Lemma split_line_spec f : let (l, b) := split_line f in
  ~ In nl l /\ (f = l /\ b = [] \/ f = l ++ nl :: b).
Proof.
  induction f as [|c f IH]; cbn. { auto. }
  destruct (Ascii.eqb c nl) eqn:E.
  - apply Ascii.eqb_eq in E. subst. split; auto.
  - destruct (split_line f) as [l b]. destruct IH as [N IH]. apply Ascii.eqb_neq in E. split.
    + cbn. intros [H|H]; auto.
    + destruct IH as [[-> ->] | ->]; auto.
Qed.

Lemma set_byte_length i b f : length (set_byte i b f) = length f.
Proof. revert i. induction f; intros [|i]; cbn; auto. Qed.

Lemma set_byte_app_l i b x y : i < length x -> set_byte i b (x ++ y) = set_byte i b x ++ y.
Proof.
  revert i. induction x as [|c x IH]; intros [|i] H; cbn in *; try lia; auto.
  rewrite IH by lia. reflexivity.
Qed.

Lemma set_byte_app_r i b x y : set_byte (length x + i) b (x ++ y) = x ++ set_byte i b y.
Proof. induction x; cbn; auto. now rewrite IHx. Qed.

Lemma set_byte_neq i b f d : i < length f -> b <> nth i f d -> set_byte i b f <> f.
Proof.
  revert i. induction f as [|c f IH]; intros [|i] L N; cbn in *; try lia.
  - intros H. inversion H. congruence.
  - intros H. inversion H. eapply IH; eauto. lia.
Qed.

Lemma set_byte_In i b f x : In x (set_byte i b f) -> x = b \/ In x f.
Proof.
  revert i. induction f as [|c f IH]; intros [|i]; cbn; try tauto.
  - intros [<-|H]; auto.
  - intros [<-|H]; auto. apply IH in H. tauto.
Qed.

Lemma set_byte_firstn i b f : firstn i (set_byte i b f) = firstn i f.
Proof. revert i. induction f; intros [|i]; cbn; auto. now rewrite IHf. Qed.

Lemma set_byte_split i b f : i < length f -> set_byte i b f = firstn i f ++ b :: skipn (S i) f.
Proof.
  revert i. induction f as [|c f IH]; intros [|i] L; cbn in *; try lia; auto.
  rewrite IH by lia. reflexivity.
Qed.

Lemma run_history {S E O} (step : S -> E -> O * S) (run : S -> list E -> list O * S)
      (ok : E -> Prop) (Inv : S -> Prop) (post : S -> E -> Prop) :
  (forall s ev r, run s (ev :: r) = let (o, s') := step s ev in let (os, s'') := run s' r in (o :: os, s'')) ->
  (forall s, run s [] = ([], s)) ->
  (forall s ev, ok ev -> Inv s -> Inv (snd (step s ev)) /\ post s ev) ->
  forall h, Forall ok h -> forall s, Inv s ->
    Inv (snd (run s h)) /\
    forall h1 ev h2, h = h1 ++ ev :: h2 -> Inv (snd (run s h1)) /\ post (snd (run s h1)) ev.
Proof.
  intros Rc Rn St.
  assert (RI : forall h, Forall ok h -> forall s, Inv s -> Inv (snd (run s h))).
  { induction h as [|ev h IH]; intros F s I; [now rewrite Rn|]. inversion F as [|? ? Oe F']; subst.
    rewrite Rc. destruct (St s ev Oe I) as [I' _]. destruct (step s ev) as [o s'].
    specialize (IH F' s' I'). now destruct (run s' h). }
  intros h F s I. split; [exact (RI h F s I)|]. intros h1 ev h2 ->.
  apply Forall_app in F as [F1 F2]. inversion F2; subst.
  pose proof (RI h1 F1 s I). split; [assumption | now apply St].
Qed.

Section Proofs.
  Variable R : Type.
  Variable sha : bytes -> bytes.
  Variables D P : Type.
  Variable encU : ufiles -> bytes.
  Variable decU : bytes -> option (ufiles * bytes).
  Variable encD : D -> bytes.
  Variable decD : bytes -> option (D * bytes).
  Variable build : cfg R -> env -> option (built D P).
  Variable load : D -> cfg R -> option P.

  Hypothesis sha_prefix : forall a b r r', sha a ++ r = sha b ++ r' -> a = b.
  Hypothesis sha_no_nl : forall a, ~ In nl (sha a).
  Hypothesis decU_encU : forall u r, decU (encU u ++ r) = Some (u, r).
  Hypothesis decD_encD : forall d r, decD (encD d ++ r) = Some (d, r).
  Hypothesis encU_nonempty : forall u, encU u <> [].

  Notation read := (read R sha D P decU decD load).
  Notation write := (write sha D encU encD).
  Notation verify := (verify sha).
  Notation lookup := (lookup R sha D P decU decD load).
  Notation construct := (construct R sha D P encU decU encD decD build load).
  Notation step := (step R sha D P encU decU encD decD build load).
  Notation run := (run R sha D P encU decU encD decD build load).
  Notation header := (header sha).
  Notation mk_file := (mk_file sha).
  Notation key := (key R).

  Lemma header_no_nl k b : ~ In nl (header k b).
  Proof.
    unfold header. intros H. apply in_app_or in H as [H | [H | H]].
    - now apply sha_no_nl in H.
    - discriminate.
    - now apply sha_no_nl in H.
  Qed.

  Lemma header_firstn_no_nl n k b : ~ In nl (firstn n (header k b)).
  Proof. intros X. apply firstn_In in X. now apply header_no_nl in X. Qed.

  Lemma sha_inj a b : sha a = sha b -> a = b.
  Proof. intros H. apply (sha_prefix a b [] []). now rewrite H. Qed.

  Lemma header_prefix k b k' b' r r' : header k b ++ r = header k' b' ++ r' -> k = k' /\ b = b'.
  Proof.
    unfold header. rewrite <- !app_assoc. cbn [app]. intros H.
    pose proof (sha_prefix _ _ _ _ H) as ->. apply app_inv_head in H. inversion H as [H1].
    split; [reflexivity|]. exact (sha_prefix _ _ _ _ H1).
  Qed.

  Lemma header_inj k b k' b' : header k b = header k' b' -> k = k' /\ b = b'.
  Proof. intros H. apply (header_prefix k b k' b' [] []). now rewrite H. Qed.

  Lemma header_firstn n k b k' b' : firstn n (header k b) = header k' b' -> k' = k /\ b' = b.
  Proof.
    intros H. apply (header_prefix k' b' k b (skipn n (header k b)) []). rewrite <- H, app_nil_r. apply firstn_skipn.
  Qed.

  Lemma split_mk_file k b : split_line (mk_file k b) = (header k b, b).
  Proof. unfold Cache.mk_file. apply split_line_app, header_no_nl. Qed.

  Lemma read_hit_inv f c e p :
    read f c e = Hit p ->
    exists u rest d rest',
      fst (split_line f) = header (key c) (snd (split_line f)) /\
      decU (snd (split_line f)) = Some (u, rest) /\ verify e u = true /\
      decD rest = Some (d, rest') /\ load d c = Some p.
  Proof.
    unfold Cache.read. destruct (split_line f) as [line body]. unfold header_ok. cbn [fst snd].
    destruct (beqb line _) eqn:Eh; [|discriminate]. apply beqb_eq in Eh.
    destruct (decU body) as [[u rest]|] eqn:Eu; [|discriminate].
    destruct (Cache.verify sha e u) eqn:Ev; [|discriminate].
    destruct (decD rest) as [[d rest']|] eqn:Ed; [|discriminate].
    destruct (load d c) as [p'|] eqn:El; [|discriminate].
    intros H. inversion H; subst. exists u, rest, d, rest'. repeat split; auto.
  Qed.

  Lemma hit_header f c e p : read f c e = Hit p -> fst (split_line f) = header (key c) (snd (split_line f)).
  Proof. intros H. apply read_hit_inv in H as (_ & _ & _ & _ & Hh & _). exact Hh. Qed.

  Lemma hit_after_header k Bd r c e p :
    read (header k Bd ++ r) c e = Hit p -> key c = k /\ (r = nl :: Bd \/ r = [] /\ Bd = []).
  Proof.
    intros H. apply hit_header in H. rewrite split_line_pre in H by apply header_no_nl.
    pose proof (split_line_spec r) as S. destruct (split_line r) as [l y]. cbn [fst snd] in H.
    rewrite <- (app_nil_r (header (key c) y)) in H. destruct (header_prefix _ _ _ _ _ _ H) as [-> ->].
    apply app_inv_head in H. subst l. split; [reflexivity|]. destruct S as [_ [[-> ->] | ->]]; auto.
  Qed.

  Lemma read_write k u d c e :
    read (write k u d) c e =
    if beqb (header k (encU u ++ encD d)) (header (key c) (encU u ++ encD d)) then
      if verify e u then match load d c with Some p => Hit p | None => Miss end else Miss
    else Miss.
  Proof.
    unfold Cache.read, Cache.write. rewrite split_mk_file. unfold header_ok.
    destruct (beqb _ _); [|reflexivity].
    rewrite decU_encU. destruct (Cache.verify sha e u); [|reflexivity].
    rewrite <- (app_nil_r (encD d)), decD_encD. reflexivity.
  Qed.

  Lemma read_write_hit k u d c e p :
    key c = k -> verify e u = true -> load d c = Some p -> read (write k u d) c e = Hit p.
  Proof. intros <- V L. rewrite read_write, beqb_refl, V, L. reflexivity. Qed.

  Theorem trunc_safe k u d n c e :
    n < length (write k u d) -> read (firstn n (write k u d)) c e = Miss.
  Proof.
    unfold Cache.write, Cache.mk_file. set (Bd := encU u ++ encD d). set (H := header k Bd).
    assert (NE : Bd <> []).
    { unfold Bd. intros E. apply app_eq_nil in E as [E _]. now apply encU_nonempty in E. }
    intros L. rewrite app_length in L. cbn [length] in L.
    destruct (read _ c e) as [p|] eqn:E; [exfalso|reflexivity]. rewrite firstn_app in E.
    destruct (Nat.le_gt_cases n (length H)) as [Le | Gt].
    - (* cut inside the header: the first line would be the header of an empty body *)
      replace (n - length H) with 0 in E by lia. cbn [firstn] in E. rewrite app_nil_r in E. apply hit_header in E.
      rewrite split_line_nonl in E by apply header_firstn_no_nl.
      cbn [fst snd] in E. apply header_firstn in E as [_ E]. exact (NE (eq_sym E)).
    - rewrite firstn_all2 in E by lia. destruct (n - length H) as [|m] eqn:En; [lia|]. cbn [firstn] in E.
      apply hit_after_header in E as [_ [E | [E _]]]; [|discriminate E].
      injection E as E. apply (f_equal (@length _)) in E. rewrite firstn_length in E. lia.
  Qed.

  Theorem key_mismatch_miss k u d c e : key c <> k -> read (write k u d) c e = Miss.
  Proof.
    intros N. rewrite read_write. destruct (beqb _ _) eqn:E; [|reflexivity].
    apply beqb_eq, header_inj in E as [E _]. congruence.
  Qed.

  Definition hashed (c : cfg R) :=
    (grammar R c, options_items (options R c), version R c, pyver R c).

  Theorem key_injective c c' : key c = key c' -> hashed c = hashed c'.
  Proof.
    unfold Cache.key, hashed. intros H. apply key_frame_injective in H as (-> & -> & -> & ->). reflexivity.
  Qed.

  Theorem stale_config_miss c0 u d c e : hashed c <> hashed c0 -> read (write (key c0) u d) c e = Miss.
  Proof. intros N. apply key_mismatch_miss. intros E. now apply key_injective in E. Qed.

  Theorem used_files_changed_miss k u d c e p h t :
    In (p, h) u -> e p = Some t -> sha t <> h -> read (write k u d) c e = Miss.
  Proof.
    intros I E N. rewrite read_write. destruct (beqb _ _); [|reflexivity].
    assert (V : verify e u = false).
    { destruct (Cache.verify sha e u) eqn:V; [|reflexivity]. exfalso. unfold Cache.verify in V.
      rewrite forallb_forall in V. specialize (V _ I). cbn in V. rewrite E in V. apply beqb_eq in V. auto. }
    rewrite V. reflexivity.
  Qed.

  Corollary import_edited_miss k u d c e p t0 t :
    In (p, sha t0) u -> e p = Some t -> t <> t0 -> read (write k u d) c e = Miss.
  Proof. intros I E N. eapply used_files_changed_miss; [exact I | exact E | intros X; now apply sha_inj in X]. Qed.

  (* Integrity of the bytes after the header (F4 repaired): if the first line of a file is the header that was
     written for (k, body) and the file is loaded, then the file is exactly the file that was written. *)
  Theorem body_integrity k Bd f c e p :
    In nl f -> fst (split_line f) = header k Bd -> read f c e = Hit p -> f = mk_file k Bd.
  Proof using sha_prefix.
    intros Hnl Hl H. apply hit_header in H. rewrite Hl in H. apply header_inj in H as [_ ->].
    pose proof (split_line_spec f) as S. destruct (split_line f) as [l b]. cbn [fst snd] in *. subst l.
    destruct S as [N [[-> _] | ->]]; [contradiction|reflexivity].
  Qed.

  Theorem byte_edit_miss k u d i b c e :
    i < length (write k u d) -> b <> nth i (write k u d) b ->
    (key c = k \/ length (header k (encU u ++ encD d)) <= i) ->
    read (set_byte i b (write k u d)) c e = Miss.
  Proof.
    unfold Cache.write, Cache.mk_file. set (Bd := encU u ++ encD d). set (H := header k Bd).
    intros L N K.
    destruct (read _ c e) as [p|] eqn:E; [exfalso|reflexivity].
    destruct (Nat.lt_ge_cases i (length H)) as [Lt | Ge].
    - (* inside the header *)
      destruct K as [K | K]; [|lia].
      rewrite set_byte_app_l in E by assumption. apply hit_header in E.
      destruct (ascii_dec b nl) as [-> | Nb].
      + (* a newline written into the header: what is left of the first line is no header *)
        rewrite set_byte_split, <- app_assoc in E by assumption. cbn [app] in E.
        rewrite split_line_app in E by apply header_firstn_no_nl.
        cbn [fst snd] in E. apply header_firstn in E as [_ E].
        apply (f_equal (@length _)) in E. rewrite app_length in E. cbn [length] in E. lia.
      + rewrite split_line_app in E.
        * cbn [fst snd] in E. rewrite K in E. fold H in E.
          eapply set_byte_neq; [exact Lt | | exact E].
          intros X. apply N. rewrite app_nth1 by assumption. exact X.
        * intros X. apply set_byte_In in X as [X | X]; [congruence | now apply header_no_nl in X].
    - (* after the header: what follows it is no longer the newline and the body it was computed for *)
      replace i with (length H + (i - length H)) in E by lia. rewrite set_byte_app_r in E.
      apply hit_after_header in E as [_ [E | [E _]]]; [|destruct (i - length H); discriminate E].
      revert E. apply set_byte_neq with (d := b).
      + rewrite app_length in L. cbn [length] in *. lia.
      + intros X. apply N. rewrite app_nth2 by lia. exact X.
  Qed.

  Variable okenv : env -> Prop.
  Hypothesis resolution_stable : forall c e0 b e, okenv e0 -> okenv e ->
    build c e0 = Some b -> verify e (bused D P b) = true -> build c e = Some b.
  Hypothesis build_verifies : forall c e b, okenv e -> build c e = Some b -> verify e (bused D P b) = true.
  Hypothesis runtime_reapplied : forall c0 c e b0,
    build c0 e = Some b0 -> hashed c0 = hashed c ->
    exists b, build c e = Some b /\ load (bdata D P b0) c = Some (bparser D P b).

  Definition uncached (c : cfg R) (e : env) : option P := option_map (bparser D P) (build c e).

  Definition complete_file (f : bytes) : Prop :=
    exists c0 e0 b0, okenv e0 /\ build c0 e0 = Some b0 /\ f = write (key c0) (bused D P b0) (bdata D P b0).

  (* invariant of the path: no file, or a prefix (a crash) of a complete file for some key *)
  Definition Inv (fl : file) : Prop :=
    fl = None \/ exists f n, complete_file f /\ fl = Some (firstn n f).

  Definition valid_for (c : cfg R) (e : env) (fl : file) : Prop :=
    exists f p, fl = Some f /\ complete_file f /\ read f c e = Hit p /\ uncached c e = Some p.

  Lemma lookup_hit_sound fl c e p :
    okenv e -> Inv fl -> lookup fl c e = Hit p -> uncached c e = Some p /\ valid_for c e fl.
  Proof.
    intros Oe [-> | (f & n & Cf & ->)]; cbn [Cache.lookup]; [discriminate|].
    intros H. destruct Cf as (c0 & e0 & b0 & Oe0 & Hb & ->).
    destruct (Nat.le_gt_cases (length (write (key c0) (bused D P b0) (bdata D P b0))) n) as [Le | Lt];
      [|rewrite trunc_safe in H by assumption; discriminate].
    rewrite firstn_all2 in * by exact Le. pose proof H as H0. rewrite read_write in H.
    destruct (beqb _ _) eqn:Eh; [|discriminate]. apply beqb_eq, header_inj in Eh as [Ek _].
    destruct (Cache.verify sha e _) eqn:V; [|discriminate].
    destruct (load _ c) as [p'|] eqn:El; [|discriminate]. inversion H; subst p'.
    pose proof (resolution_stable _ _ _ _ Oe0 Oe Hb V) as Hb'.
    destruct (runtime_reapplied c0 c e b0 Hb' (key_injective _ _ Ek)) as (b & Hbc & Hl).
    assert (U : uncached c e = Some p).
    { unfold uncached. rewrite Hbc. cbn. congruence. }
    split; [exact U|]. exists (write (key c0) (bused D P b0) (bdata D P b0)), p.
    repeat split; auto. exists c0, e0, b0. auto.
  Qed.

  Lemma written_valid c e b :
    okenv e -> build c e = Some b -> valid_for c e (Some (write (key c) (bused D P b) (bdata D P b))).
  Proof.
    intros Oe Hb. destruct (runtime_reapplied c c e b Hb eq_refl) as (b' & Hb' & Hl).
    assert (b' = b) by congruence. subst b'.
    exists (write (key c) (bused D P b) (bdata D P b)), (bparser D P b). repeat split.
    - exists c, e, b. auto.
    - apply read_write_hit; auto. eapply build_verifies; eauto.
    - unfold uncached. now rewrite Hb.
  Qed.

  Lemma valid_Inv c e fl : valid_for c e fl -> Inv fl.
  Proof.
    intros (f & p & -> & Cf & _). right. exists f, (length f). split; auto. now rewrite firstn_all.
  Qed.

  Theorem construct_spec fl c e :
    okenv e -> Inv fl ->
    fst (construct fl c e) = uncached c e /\
    Inv (snd (construct fl c e)) /\
    (uncached c e <> None -> valid_for c e (snd (construct fl c e))).
  Proof.
    intros Oe I. unfold Cache.construct. fold (lookup fl c e).
    destruct (lookup fl c e) as [p|] eqn:El.
    - destruct (lookup_hit_sound _ _ _ _ Oe I El) as [U V]. cbn [fst snd]. auto.
    - unfold uncached. destruct (build c e) as [b|] eqn:Hb; cbn [fst snd option_map].
      + pose proof (written_valid _ _ _ Oe Hb) as V. split; [reflexivity|]. split; [|auto].
        eapply valid_Inv; eauto.
      + split; [reflexivity|]. split; [assumption|congruence].
  Qed.

  Definition event_ok (fl : file) (ev : event R) (o : option (option P)) (fl' : file) : Prop :=
    Inv fl' /\
    match crash R ev with
    | None => o = Some (uncached (ecfg R ev) (eenv R ev)) /\
              (uncached (ecfg R ev) (eenv R ev) <> None -> valid_for (ecfg R ev) (eenv R ev) fl')
    | Some _ => o = None \/ o = Some (uncached (ecfg R ev) (eenv R ev))
    end.

  Lemma step_spec fl ev :
    okenv (eenv R ev) -> Inv fl -> event_ok fl ev (fst (step fl ev)) (snd (step fl ev)).
  Proof.
    intros Oe I. unfold Cache.step, event_ok. destruct (crash R ev) as [n|].
    - fold (lookup fl (ecfg R ev) (eenv R ev)).
      destruct (lookup fl (ecfg R ev) (eenv R ev)) as [p|] eqn:El.
      + destruct (lookup_hit_sound _ _ _ _ Oe I El) as [U V]. cbn [fst snd]. split; [assumption|].
        right. now rewrite U.
      + unfold uncached. destruct (build _ _) as [b|] eqn:Hb; cbn [fst snd].
        * split; [|auto]. right. eexists _, n. split; [|reflexivity]. eexists _, _, b. eauto.
        * split; [assumption|]. right. reflexivity.
    - pose proof (construct_spec fl (ecfg R ev) (eenv R ev) Oe I) as (A & B & C).
      destruct (construct fl (ecfg R ev) (eenv R ev)) as [p fl'] eqn:Ec. cbn [fst snd] in *.
      subst p. auto.
  Qed.

  Theorem history_inv h : Forall (fun ev => okenv (eenv R ev)) h -> forall fl, Inv fl ->
    Inv (snd (run fl h)) /\
    forall h1 ev h2, h = h1 ++ ev :: h2 ->
      let fl1 := snd (run fl h1) in
      Inv fl1 /\ event_ok fl1 ev (fst (step fl1 ev)) (snd (step fl1 ev)).
  Proof.
    apply (run_history step run _ Inv (fun fl ev => event_ok fl ev (fst (step fl ev)) (snd (step fl ev))));
      [reflexivity | reflexivity |].
    intros fl ev Oe I. pose proof (step_spec fl ev Oe I) as S. exact (conj (proj1 S) S).
  Qed.
End Proofs.

(* the hypotheses, bundled (for the statements in Props/C12.v) *)
Record ideal_oracles (sha : bytes -> bytes) (D : Type)
       (encU : ufiles -> bytes) (decU : bytes -> option (ufiles * bytes))
       (encD : D -> bytes) (decD : bytes -> option (D * bytes)) : Prop := {
  io_sha_prefix : forall a b r r', sha a ++ r = sha b ++ r' -> a = b;
  io_sha_no_nl : forall a, ~ In nl (sha a);
  io_decU_encU : forall u r, decU (encU u ++ r) = Some (u, r);
  io_decD_encD : forall d r, decD (encD d ++ r) = Some (d, r);
  io_encU_nonempty : forall u, encU u <> [] }.

Record rest_of_lark (R : Type) (sha : bytes -> bytes) (D P : Type)
       (build : cfg R -> env -> option (built D P)) (load : D -> cfg R -> option P)
       (okenv : env -> Prop) : Prop := {
  rl_resolution_stable : forall c e0 b e, okenv e0 -> okenv e ->
    build c e0 = Some b -> verify sha e (bused D P b) = true -> build c e = Some b;
  rl_build_verifies : forall c e b, okenv e -> build c e = Some b -> verify sha e (bused D P b) = true;
  rl_runtime_reapplied : forall c0 c e b0,
    build c0 e = Some b0 -> hashed R c0 = hashed R c ->
    exists b, build c e = Some b /\ load (bdata D P b0) c = Some (bparser D P b) }.

Section Bundled.
  Variable R : Type.
  Variable sha : bytes -> bytes.
  Variables D P : Type.
  Variable encU : ufiles -> bytes.
  Variable decU : bytes -> option (ufiles * bytes).
  Variable encD : D -> bytes.
  Variable decD : bytes -> option (D * bytes).
  Variable build : cfg R -> env -> option (built D P).
  Variable load : D -> cfg R -> option P.
  Variable okenv : env -> Prop.
  Hypothesis IO : ideal_oracles sha D encU decU encD decD.

  Notation read := (read R sha D P decU decD load).
  Notation write := (write sha D encU encD).

  Lemma trunc_safe_b k u d n c e :
    n < length (write k u d) -> read (firstn n (write k u d)) c e = Miss.
  Proof. destruct IO. eapply trunc_safe; eauto. Qed.

  Lemma key_mismatch_miss_b k u d c e : key R c <> k -> read (write k u d) c e = Miss.
  Proof. destruct IO. eapply key_mismatch_miss; eauto. Qed.

  Lemma stale_config_miss_b c0 u d c e :
    hashed R c <> hashed R c0 -> read (write (key R c0) u d) c e = Miss.
  Proof. destruct IO. eapply stale_config_miss; eauto. Qed.

  Lemma used_files_changed_miss_b k u d c e p t0 t :
    In (p, sha t0) u -> e p = Some t -> t <> t0 -> read (write k u d) c e = Miss.
  Proof. destruct IO. eapply import_edited_miss; eauto. Qed.

  Lemma body_integrity_b k Bd f c e p :
    In nl f -> fst (split_line f) = header sha k Bd -> read f c e = Hit p -> f = mk_file sha k Bd.
  Proof. destruct IO. eapply body_integrity; eauto. Qed.

  Lemma byte_edit_miss_b k u d i b c e :
    i < length (write k u d) -> b <> nth i (write k u d) b ->
    (key R c = k \/ length (header sha k (encU u ++ encD d)) <= i) ->
    read (set_byte i b (write k u d)) c e = Miss.
  Proof. destruct IO. eapply byte_edit_miss; eauto. Qed.

  Lemma read_write_hit_b k u d c e p :
    key R c = k -> verify sha e u = true -> load d c = Some p -> read (write k u d) c e = Hit p.
  Proof. destruct IO. eapply read_write_hit; eauto. Qed.

  Hypothesis RL : rest_of_lark R sha D P build load okenv.

  Lemma history_inv_b h : Forall (fun ev => okenv (eenv R ev)) h ->
    forall fl, Inv R sha D P encU encD build okenv fl ->
    Inv R sha D P encU encD build okenv (snd (run R sha D P encU decU encD decD build load fl h)) /\
    forall h1 ev h2, h = h1 ++ ev :: h2 ->
      let fl1 := snd (run R sha D P encU decU encD decD build load fl h1) in
      Inv R sha D P encU encD build okenv fl1 /\
      event_ok R sha D P encU decU encD decD build load okenv fl1 ev
        (fst (step R sha D P encU decU encD decD build load fl1 ev))
        (snd (step R sha D P encU decU encD decD build load fl1 ev)).
  Proof. destruct IO, RL. eapply history_inv; eauto. Qed.

  Lemma construct_spec_b fl c e :
    okenv e -> Inv R sha D P encU encD build okenv fl ->
    fst (construct R sha D P encU decU encD decD build load fl c e) = uncached R D P build c e /\
    Inv R sha D P encU encD build okenv (snd (construct R sha D P encU decU encD decD build load fl c e)) /\
    (uncached R D P build c e <> None ->
     valid_for R sha D P encU decU encD decD build load okenv c e
               (snd (construct R sha D P encU decU encD decD build load fl c e))).
  Proof. destruct IO, RL. eapply construct_spec; eauto. Qed.
End Bundled.

(* the option sets regenerated from the source *)
Lemma unhashable_objects : forall n, In n unhashable ->
  In n ["transformer"; "postlex"; "lexer_callbacks"; "edit_terminals"; "_plugins"]%string.
Proof.
  unfold unhashable. intros n H.
  repeat (destruct H as [<- | H]; [cbn; tauto|]). destruct H.
Qed.

Lemma unhashable_not_reapplied : exists n, In n unhashable /\ ~ In n load_allowed.
Proof.
  exists "edit_terminals"%string. split; [cbn; tauto|].
  unfold load_allowed. intros H. repeat (destruct H as [H | H]; [discriminate|]). destruct H.
Qed.
