(* C11 - soundness of the boolean well-formedness check of Ser/SerializeDec.v *)
From Coq Require Import ZArith List Bool String Ascii.
From LV Require Import Ser.Value Gen.SerializeFields Ser.Serialize Ser.Serialize_proofs Ser.SerializeDec.
Import ListNotations.

Lemma keys_unique_dec_sound l :
  keys_unique_dec l = true -> forall a b, In a l -> In b l -> mentry_keyeqb a b = true -> a = b.
Proof.
  unfold keys_unique_dec. intros H a b Ha Hb Hk. rewrite forallb_forall in H. specialize (H a Ha).
  rewrite forallb_forall in H. specialize (H b Hb). rewrite Hk in H. cbn in H.
  destruct (mentry_eq_dec a b); [assumption|discriminate].
Qed.

Theorem wf_inst_b_sound i : wf_inst_b i = true -> wf_inst i.
Proof.
  unfold wf_inst_b, wf_inst. rewrite !andb_true_iff. intros ((Hu & Ht) & Hr). split; [apply keys_unique_dec_sound; exact Hu|]. split.
  - apply Forall_forall. intros t Hin. rewrite forallb_forall in Ht. specialize (Ht t Hin).
    unfold termdef_ok_b in Ht. unfold termdef_ok, pattern_ok, pattern_flags.
    destruct (td_pattern t) as [? f ?|? f ? ?]; destruct f; first [exact I|discriminate].
  - destruct (li_rules i); discriminate.
Qed.
