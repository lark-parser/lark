(* Proofs that the regenerated LineCounter (Gen/LineCounter.v) tracks [coord]. *)
From Coq Require Import ZArith List Bool Lia Arith.
From LV Require Import Pos.PosBase Gen.LineCounter Pos.Coord.
Import ListNotations.

Section Windows.
Context {A : Type}.

Lemma firstn_plus_split (T : list A) p n :
  firstn (p + n) T = firstn p T ++ firstn n (skipn p T).
Proof.
  revert T; induction p as [|p IH]; intros T; [reflexivity|].
  destruct T as [|x T]; cbn [Nat.add firstn skipn app].
  - rewrite firstn_nil. reflexivity.
  - rewrite IH. reflexivity.
Qed.

Lemma firstn_S_snoc (T : list A) i x : nth_error T i = Some x -> firstn (S i) T = firstn i T ++ [x].
Proof.
  revert T; induction i as [|i IH]; intros [|y T] H; try discriminate.
  - cbn in H. injection H as ->. reflexivity.
  - cbn [nth_error] in H. rewrite !firstn_cons. cbn [app]. f_equal. apply IH, H.
Qed.

Lemma window_length (T : list A) (p n : nat) :
  p + n <= length T -> length (firstn n (skipn p T)) = n.
Proof. intros H. rewrite firstn_length_le; [reflexivity|]. rewrite skipn_length. lia. Qed.

Lemma skipn_skipn' (x y : nat) (l : list A) : skipn x (skipn y l) = skipn (y + x) l.
Proof.
  revert l; induction y as [|y IH]; intros l; [reflexivity|].
  destruct l as [|z l]; cbn [skipn Nat.add]; [apply skipn_nil|apply IH].
Qed.

Lemma window_sub (T : list A) (a b p n : nat) :
  a <= p -> p + n <= b ->
  firstn n (skipn (p - a) (firstn (b - a) (skipn a T))) = firstn n (skipn p T).
Proof.
  intros H1 H2. rewrite skipn_firstn_comm, skipn_skipn', firstn_firstn.
  replace (a + (p - a)) with p by lia. f_equal. lia.
Qed.

Lemma slice_nat (T : list A) p q : slice T (Z.of_nat p) (Z.of_nat q) = firstn (q - p) (skipn p T).
Proof. unfold slice. rewrite Nat2Z.id. f_equal. lia. Qed.

End Windows.

Section Proofs.
Context {A : Type} (eqb : A -> A -> bool) (nl : A).

Notation count_nl := (count_nl eqb nl).
Notation rindex_nl := (rindex_nl eqb nl).
Notation prefix_nonl := (prefix_nonl eqb nl).
Notation tail_len := (tail_len eqb nl).

Lemma count_nl_app a b : count_nl (a ++ b) = count_nl a + count_nl b.
Proof. induction a as [|x a IH]; cbn [count_nl app]; [reflexivity|]. rewrite IH. lia. Qed.

Lemma count_nl_rev a : count_nl (rev a) = count_nl a.
Proof.
  induction a as [|x a IH]; [reflexivity|]. cbn [rev]. rewrite count_nl_app, IH.
  cbn [count_nl]. lia.
Qed.

Lemma prefix_nonl_id u : count_nl u = 0 -> prefix_nonl u = u.
Proof.
  induction u as [|x u IH]; cbn [count_nl Coord.prefix_nonl]; [reflexivity|].
  destruct (eqb x nl); [lia|]. intros H. rewrite IH by lia. reflexivity.
Qed.

Lemma prefix_nonl_app u v :
  prefix_nonl (u ++ v) = if Nat.eqb (count_nl u) 0 then u ++ prefix_nonl v else prefix_nonl u.
Proof.
  induction u as [|x u IH]; cbn [count_nl Coord.prefix_nonl app]; [reflexivity|].
  destruct (eqb x nl); cbn [Nat.add Nat.eqb]; [reflexivity|].
  rewrite IH. destruct (Nat.eqb (count_nl u) 0); reflexivity.
Qed.

Lemma tail_len_app a b :
  tail_len (a ++ b) = if Nat.eqb (count_nl b) 0 then tail_len a + length b else tail_len b.
Proof.
  unfold Coord.tail_len. rewrite rev_app_distr, prefix_nonl_app, count_nl_rev.
  destruct (Nat.eqb (count_nl b) 0); [|reflexivity].
  rewrite app_length, rev_length. lia.
Qed.

Lemma tail_len_nonl b : count_nl b = 0 -> tail_len b = length b.
Proof.
  intros H. unfold Coord.tail_len. rewrite prefix_nonl_id by (rewrite count_nl_rev; exact H).
  apply rev_length.
Qed.

Lemma tail_len_nl x : eqb x nl = true -> tail_len [x] = 0.
Proof. intros X. unfold Coord.tail_len. cbn [rev app Coord.prefix_nonl]. rewrite X. reflexivity. Qed.

Lemma tail_len_le b : tail_len b <= length b.
Proof.
  unfold Coord.tail_len. rewrite <- (rev_length b). generalize (rev b). intros l.
  induction l as [|x l IH]; cbn [Coord.prefix_nonl length]; [lia|].
  destruct (eqb x nl); cbn [length]; lia.
Qed.

Lemma rindex_nl_none b : rindex_nl b = None -> count_nl b = 0.
Proof.
  induction b as [|z b IHb]; [reflexivity|].
  cbn [PosBase.rindex_nl]. destruct (rindex_nl b); [discriminate|].
  destruct (eqb z nl) eqn:Z0; [discriminate|]. intros _. cbn [PosBase.count_nl]. rewrite Z0.
  rewrite IHb; reflexivity.
Qed.

Lemma rindex_nl_split b i :
  rindex_nl b = Some i ->
  exists b1 x b2, b = b1 ++ x :: b2 /\ length b1 = i /\ eqb x nl = true /\ count_nl b2 = 0.
Proof.
  revert i. induction b as [|y b IH]; intros i; cbn [PosBase.rindex_nl]; [discriminate|].
  destruct (rindex_nl b) as [j|] eqn:E.
  - intros [= <-]. destruct (IH j eq_refl) as (b1 & x & b2 & -> & L & X & C).
    exists (y :: b1), x, b2. cbn [app length]. rewrite L. auto.
  - destruct (eqb y nl) eqn:Y; [|discriminate]. intros [= <-].
    exists [], y, b. split; [reflexivity|]. split; [reflexivity|]. split; [exact Y|].
    apply rindex_nl_none, E.
Qed.

Lemma rindex_tail b : count_nl b <> 0 ->
  exists i, rindex_nl b = Some i /\ i < length b /\ tail_len b = length b - (i + 1).
Proof.
  intros H. destruct (rindex_nl b) as [i|] eqn:E.
  - exists i. destruct (rindex_nl_split b i E) as (b1 & x & b2 & -> & L & X & C).
    split; [reflexivity|]. rewrite app_length. cbn [length]. split; [lia|].
    rewrite tail_len_app. cbn [PosBase.count_nl]. rewrite X. cbn [Nat.add Nat.eqb].
    change (x :: b2) with ([x] ++ b2). rewrite tail_len_app, C, (tail_len_nl x X). cbn [Nat.eqb]. lia.
  - apply rindex_nl_none in E. contradiction.
Qed.

Definition at_end (pre : list A) (c : counter) : Prop :=
  char_pos c = Z.of_nat (length pre) /\ line c = Z.of_nat (1 + count_nl pre) /\
  column c = Z.of_nat (1 + tail_len pre) /\
  line_start_pos c = (Z.of_nat (length pre) - Z.of_nat (tail_len pre))%Z.

Lemma at_coord_at_end T p c : p <= length T -> (at_coord eqb nl T p c <-> at_end (firstn p T) c).
Proof.
  intros H. unfold at_coord, at_end, line_of, col_of, line_start_of.
  rewrite firstn_length_le by exact H. tauto.
Qed.

Lemma feed_no_newline c tok tn : count_nl tok = 0 -> feed eqb nl c tok tn = feed eqb nl c tok false.
Proof. intros E. unfold feed. rewrite E. destruct tn; reflexivity. Qed.

Lemma feed_at_end pre tok c tn :
  at_end pre c -> (tn = true \/ count_nl tok = 0) ->
  at_end (pre ++ tok) (feed eqb nl c tok tn).
Proof.
  intros (Hp & Hl & Hc & Hs) Htn.
  pose proof (tail_len_le pre) as Hle.
  unfold at_end. rewrite app_length, count_nl_app, tail_len_app.
  destruct (Nat.eqb_spec (count_nl tok) 0) as [E|E].
  - rewrite (feed_no_newline c tok tn E), E. destruct c as [cp ln col lsp]. cbn in *. subst.
    repeat split; lia.
  - destruct Htn as [-> | Hn]; [|contradiction].
    destruct (rindex_tail tok E) as (i & Hi & Hlt & Ht).
    unfold feed, rindex_z. rewrite Hi.
    assert (Z.eqb (Z.of_nat (count_nl tok)) 0 = false) as -> by (apply Z.eqb_neq; lia).
    destruct c as [cp ln col lsp]. cbn in *. subst. repeat split; lia.
Qed.

Theorem feed_tracks_coord T p n c tn :
  p + n <= length T -> at_coord eqb nl T p c ->
  (tn = true \/ has_no_newline eqb nl (firstn n (skipn p T))) ->
  at_coord eqb nl T (p + n) (feed eqb nl c (firstn n (skipn p T)) tn).
Proof.
  intros H Hc Htn. apply at_coord_at_end; [exact H|]. rewrite firstn_plus_split.
  apply feed_at_end; [|exact Htn]. apply at_coord_at_end; [lia|exact Hc].
Qed.

Lemma feed_char_pos c tok tn : char_pos (feed eqb nl c tok tn) = (char_pos c + Z.of_nat (length tok))%Z.
Proof.
  unfold feed. destruct tn; [destruct (negb (Z.eqb (Z.of_nat (count_nl tok)) 0))|]; reflexivity.
Qed.

(* advance_to(pos) is feed(text[char_pos:pos]) with newline counting, when the slice is not cut short *)
Lemma advance_to_feed c T pos :
  Z.of_nat (length (slice T (char_pos c) pos)) = (pos - char_pos c)%Z ->
  advance_to eqb nl c T pos = feed eqb nl c (slice T (char_pos c) pos) true.
Proof.
  intros H. unfold advance_to, feed, count_range, rindex_range. rewrite H.
  destruct c as [cp ln col lsp]. cbn [char_pos] in *.
  destruct (negb (Z.eqb (Z.of_nat (count_nl (slice T cp pos))) 0)); cbn [char_pos set_line set_line_start_pos];
    replace (cp + (pos - cp))%Z with pos by lia; reflexivity.
Qed.

Theorem advance_to_tracks_coord T p q c :
  p <= q -> q <= length T -> at_coord eqb nl T p c ->
  at_coord eqb nl T q (advance_to eqb nl c T (Z.of_nat q)).
Proof.
  intros Hpq Hq Hc. pose proof Hc as (Hcp & _).
  rewrite advance_to_feed; rewrite Hcp, slice_nat; [|rewrite window_length; lia].
  replace q with (p + (q - p)) at 1 by lia.
  apply feed_tracks_coord; [lia|exact Hc|left; reflexivity].
Qed.

Lemma lc_init_at_coord T : at_coord eqb nl T 0 lc_init.
Proof. unfold at_coord, lc_init, line_of, col_of, line_start_of. cbn. repeat split. Qed.

(* both branches of from_text_slice: a plain TextSlice (count the prefix once) and a slice
   carrying a snapshot (line, line_start_pos) that is exact for its start *)
Theorem from_text_slice_coord T a snap :
  a <= length T ->
  (snap = None \/ snap = Some (line_of eqb nl T a, line_start_of eqb nl T a)) ->
  at_coord eqb nl T a (from_text_slice eqb nl T (Z.of_nat a) snap).
Proof.
  intros Ha [-> | ->]; unfold from_text_slice.
  - destruct (Z.gtb (Z.of_nat a) 0) eqn:E.
    + apply advance_to_tracks_coord with (p := 0); [lia|exact Ha|apply lc_init_at_coord].
    + assert (a = 0) as -> by lia. apply lc_init_at_coord.
  - pose proof (tail_len_le (firstn a T)) as Hle. rewrite firstn_length_le in Hle by exact Ha.
    unfold at_coord, line_of, col_of, line_start_of in *. cbn. repeat split; lia.
Qed.

(* necessity of the side condition of feed: with test_newline = false a token containing a
   newline leaves the counter on the old line *)
Lemma feed_false_keeps_line c tok : line (feed eqb nl c tok false) = line c.
Proof. reflexivity. Qed.

Lemma coord_step T p x :
  nth_error T p = Some x ->
  coord eqb nl T (S p) =
    if eqb x nl then ((line_of eqb nl T p + 1)%Z, 1%Z) else (line_of eqb nl T p, (col_of eqb nl T p + 1)%Z).
Proof.
  intros Hx. unfold coord, line_of, col_of.
  rewrite (firstn_S_snoc T p x Hx), count_nl_app, tail_len_app. cbn [PosBase.count_nl length].
  destruct (eqb x nl) eqn:X; cbn [Nat.add Nat.eqb].
  - rewrite (tail_len_nl x X). f_equal; lia.
  - f_equal; lia.
Qed.

End Proofs.
