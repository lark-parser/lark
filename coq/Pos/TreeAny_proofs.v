(* Tree coordinates for ANY derivation (C06, Earley routes): TreeShift_proofs.tree_of_any instantiated for the
   basic lexer (exact coordinates) and for the dynamic scanner (start exact, end = last character + one column). *)
From Coq Require Import ZArith List Bool String Lia.
From LV Require Import Base.Prelude Cfg.Grammar Pos.PosBase Pos.Coord Pos.LexCoords Pos.LexCoords_proofs Pos.Current
  Pos.MetaSpan Shape.Chain Pos.TreeShift Pos.TreeShift_proofs.
From LV Require LR.Driver.
Import ListNotations.

Section EarleyBasic.
Context {A term : Type} (eqb : A -> A -> bool) (nl : A).
Variable rr : rule -> rrec.
Variable mp : bool.
Variable scan : list term -> list A -> Z -> Z -> option (nat * term).
Variable ignore : term -> bool.
Variable newline_types : term -> bool.

(* d: the derivation the forest walk hands to the callbacks - ANY derivation tree whose leaves are the lexed
   tokens (which one is chosen - priorities, ambiguity resolution - does not matter) *)
Theorem tree_coords_exact_earley (T : list A) (a e : nat) ts o (d : Driver.dtree (token A term)) v :
  (a <= e)%nat -> (e <= List.length T)%nat ->
  (forall h (p n : nat) ty, scan h T (Z.of_nat p) (Z.of_nat e) = Some (n, ty) -> (p + n <= e)%nat) ->
  lex_slice eqb nl scan ignore newline_types T (Z.of_nat a) (Z.of_nat e) None = (ts, o) ->
  (forall t, In t (Driver.yield _ d) -> In t ts) ->
  tree_of rr mp d = Some v ->
  Forall (tok_ok eqb nl T a e) (vtokens v) /\ Forall (trip_exact eqb nl T a e) (vtrips v).
Proof.
  intros Ha He Hb El Hy Ht.
  destruct (lexer_coords eqb nl scan ignore newline_types T a e None ts o Ha He Hb (or_introl eq_refl) El) as (Hts & _ & _).
  apply (tree_of_any rr mp (tok_ok eqb nl T a e) (trip_exact eqb nl T a e) (tok_ok_trips eqb nl T a e) d v); [|exact Ht].
  rewrite Forall_forall in *. intros t Hin. apply Hts, Hy, Hin.
Qed.
End EarleyBasic.

(* Earley with the dynamic lexers: tokens are created in xearley.scan *)
Section EarleyDyn.
Context {A term : Type} (eqb : A -> A -> bool) (nl : A) (isnl : A -> bool).
Variable rr : rule -> rrec.
Variable mp : bool.
Hypothesis isnl_spec : forall x, isnl x = eqb x nl.
Variable T : list A.

Definition dyn_tok (t : token A term) : Prop :=
  exists ty (s e : nat), (s < e)%nat /\ (e <= List.length T)%nat /\ t = dyn_token isnl ty T s e.

(* a triple is either an exact coordinate (token starts) or "last character + one column" (token ends) *)
Definition dyn_trip (t : trip) : Prop :=
  exists q : nat, fst (fst t) = Z.of_nat q /\ (q <= List.length T)%nat /\
    ((snd (fst t), snd t) = coord eqb nl T q \/
     ((1 <= q)%nat /\ (snd (fst t), snd t) = (line_of eqb nl T (q - 1), (col_of eqb nl T (q - 1) + 1)%Z))).

Lemma dyn_tok_trips t : dyn_tok t -> dyn_trip (start3 t) /\ dyn_trip (end3 t).
Proof.
  intros (ty & s & e & Hse & He & ->).
  destruct (dyn_token_coords eqb nl isnl isnl_spec ty T s e Hse He) as (_ & _ & Hs & Hep & Hc & Hec & _).
  split.
  - exists s. unfold start3. cbn [fst snd]. split; [exact Hs|]. split; [lia|]. left. exact Hc.
  - exists e. unfold end3. cbn [fst snd]. split; [exact Hep|]. split; [lia|]. right. split; [lia|exact Hec].
Qed.

(* for ANY derivation over dynamic-scanner tokens: every token in the tree is such a token (start exact, value =
   T[s:e]), every meta triple is the start of one (exact coordinates) or the end of one *)
Theorem dyn_tree_coords (d : Driver.dtree (token A term)) v :
  Forall dyn_tok (Driver.yield _ d) -> tree_of rr mp d = Some v ->
  Forall dyn_tok (vtokens v) /\ Forall dyn_trip (vtrips v).
Proof. exact (tree_of_any rr mp dyn_tok dyn_trip dyn_tok_trips d v). Qed.
End EarleyDyn.
