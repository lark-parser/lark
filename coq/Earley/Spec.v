(* Earley's chart as an inductive specification, sound and complete for derivability.
   (The executable worklist model of lark/parsers/earley.py refers to this.) *)
From Coq Require Import List Arith Lia Bool.
From LV Require Import Cfg.Grammar.
Import ListNotations.

Lemma app_eq_len {A} (a b c d : list A) : length a = length c -> a ++ b = c ++ d -> a = c /\ b = d.
Proof.
  revert c. induction a as [|x a IH]; intros [|y c] L E; simpl in *; try discriminate; auto.
  inversion E; subst. destruct (IH c) as [-> ->]; auto.
Qed.

Lemma firstn_S_nth {A} (l : list A) d x :
  nth_error l d = Some x -> firstn (S d) l = firstn d l ++ [x].
Proof.
  revert d. induction l as [|y l IH]; intros [|d] E; simpl in *; try discriminate.
  - inversion E; auto.
  - f_equal; auto.
Qed.

Lemma skipn_cons_inv {A} (l : list A) d x m : skipn d l = x :: m -> nth_error l d = Some x /\ skipn (S d) l = m.
Proof.
  revert d. induction l as [|y l IH]; intros [|d] E; simpl in *; try discriminate; auto.
  inversion E; auto.
Qed.

Record item := mkItem { irule : rule; dot : nat; orig : nat }.

Section Chart.
  Variable G : grammar.
  Variable tok : Type.
  Variable tmatch : nat -> tok -> bool.
  Variable w : list tok.
  Variable start : nat.

  Notation derives := (derives G tok tmatch).

  Inductive chart : nat -> item -> Prop :=
  | c_init r : In r G -> lhs r = start -> chart 0 (mkItem r 0 0)
  | c_pred k r d j a r' : chart k (mkItem r d j) -> nth_error (rhs r) d = Some (NT a) ->
      In r' G -> lhs r' = a -> chart k (mkItem r' 0 k)
  | c_scan k r d j t x : chart k (mkItem r d j) -> nth_error (rhs r) d = Some (T t) ->
      nth_error w k = Some x -> tmatch t x = true -> chart (S k) (mkItem r (S d) j)
  | c_comp k r d j a r' i : chart i (mkItem r d j) -> nth_error (rhs r) d = Some (NT a) ->
      chart k (mkItem r' (length (rhs r')) i) -> lhs r' = a -> chart k (mkItem r (S d) j).

  Definition span i k (u : list tok) :=
    exists p s, w = p ++ u ++ s /\ length p = i /\ i + length u = k.

  Lemma span_nil i : i <= length w -> span i i [].
  Proof.
    intros. exists (firstn i w), (skipn i w). simpl.
    rewrite firstn_skipn, firstn_length. repeat split; lia.
  Qed.

  Lemma span_app i j k u v : span i j u -> span j k v -> span i k (u ++ v).
  Proof.
    intros (p & s & E & L1 & L2) (p' & s' & E' & L1' & L2').
    exists p, s'. rewrite app_length. repeat split; try lia.
    rewrite E, app_assoc in E'. apply app_eq_len in E' as [<- Es]; [|rewrite app_length; lia].
    rewrite E, Es, <- !app_assoc. reflexivity.
  Qed.

  Lemma span_split i k u v : span i k (u ++ v) -> span i (i + length u) u /\ span (i + length u) k v.
  Proof.
    intros (p & s & E & L1 & L2). rewrite app_length in L2. split.
    - exists p, (v ++ s). rewrite <- app_assoc in E. repeat split; auto.
    - exists (p ++ u), s. rewrite app_length. repeat split; try lia.
      rewrite E, <- !app_assoc. reflexivity.
  Qed.

  Lemma span_cons i k x u : span i k (x :: u) -> nth_error w i = Some x /\ span (S i) k u.
  Proof.
    intros (p & s & E & L1 & L2). split.
    - rewrite E, nth_error_app2 by lia. rewrite L1, Nat.sub_diag. reflexivity.
    - exists (p ++ [x]), s. rewrite <- app_assoc. simpl in *. rewrite app_length. simpl.
      repeat split; auto; lia.
  Qed.

  Lemma span_cons_inv i j x u : nth_error w i = Some x -> span (S i) j u -> span i j (x :: u).
  Proof.
    intros Hn (p & s & E & L1 & L2).
    assert (Hp : p <> []) by (intros ->; simpl in L1; lia).
    pose proof (app_removelast_last x Hp) as Ep.
    assert (Hl : length (removelast p) = i).
    { rewrite Ep in L1. rewrite app_length in L1. simpl in L1. lia. }
    assert (Ex : last p x = x).
    { rewrite E in Hn. rewrite nth_error_app1 in Hn by lia. rewrite Ep in Hn.
      rewrite nth_error_app2 in Hn by lia. rewrite Hl, Nat.sub_diag in Hn. simpl in Hn. congruence. }
    exists (removelast p), s. repeat split; auto.
    - rewrite E. rewrite Ep at 1. rewrite Ex. rewrite <- app_assoc. reflexivity.
    - simpl. lia.
  Qed.

  Lemma span_snoc i k u x : span i k u -> nth_error w k = Some x -> span i (S k) (u ++ [x]).
  Proof.
    intros (p & s & E & L1 & L2) H. apply nth_error_split in H as (l1 & l2 & E' & L).
    rewrite E, app_assoc in E'. apply app_eq_len in E' as [<- ->]; [|rewrite app_length; lia].
    exists p, l2. rewrite app_length, <- app_assoc. simpl. repeat split; auto; lia.
  Qed.

  Lemma span_le i k u : span i k u -> i <= k /\ k <= length w.
  Proof. intros (p & s & E & L1 & L2). rewrite E, !app_length. lia. Qed.

  Lemma span_whole u : span 0 (length w) u <-> u = w.
  Proof.
    split; [|intros ->; exists [], []; rewrite app_nil_r; auto].
    intros ([|] & s & E & L1 & L2); [|discriminate]. simpl in *.
    apply (f_equal (@length tok)) in E as L. rewrite app_length in L.
    destruct s; [|simpl in L; lia]. rewrite app_nil_r in E. auto.
  Qed.

  Lemma chart_wf k x : chart k x ->
    In (irule x) G /\ dot x <= length (rhs (irule x)) /\ orig x <= k.
  Proof.
    assert (Hlt : forall (r : rule) d s, nth_error (rhs r) d = Some s -> d < length (rhs r)).
    { intros r d s E. apply nth_error_Some. congruence. }
    induction 1 as [r Hin Hl | k r d j a r' Hc IH Hn Hin Hl | k r d j t x Hc IH Hn Hw Hm
                   | k r d j a r' i Hc1 IH1 Hn Hc2 IH2 Hl]; cbn [orig dot irule] in *.
    - repeat split; auto; lia.
    - repeat split; auto; lia.
    - destruct IH as (A & B & C). apply Hlt in Hn. repeat split; auto; lia.
    - destruct IH1 as (A & B & C). destruct IH2 as (A' & B' & C'). apply Hlt in Hn. repeat split; auto; lia.
  Qed.

  Lemma chart_in_G k it : chart k it -> In (irule it) G.
  Proof. intros H. apply (chart_wf k it H). Qed.

  Lemma chart_dot0 k it : chart k it -> dot it = 0 -> orig it = k.
  Proof. induction 1; simpl; intros; auto; discriminate. Qed.

  Theorem chart_sound k it :
    chart k it ->
    exists u, span (orig it) k u /\ derives (firstn (dot it) (rhs (irule it))) u.
  Proof.
    induction 1 as [r Hin Hl | k r d j a r' Hc IH Hn Hin Hl | k r d j t x Hc IH Hn Hw Hm
                   | k r d j a r' i Hc1 IH1 Hn Hc2 IH2 Hl]; cbn [orig dot irule] in *.
    - exists []. split. apply span_nil; lia. constructor.
    - destruct IH as (u & Hs & _). exists []. split.
      + apply span_nil. apply span_le in Hs; lia.
      + constructor.
    - destruct IH as (u & Hs & Hd). exists (u ++ [x]). split.
      + eapply span_snoc; eauto.
      + rewrite (firstn_S_nth _ _ _ Hn). apply derives_app; auto. repeat constructor; auto.
    - destruct IH1 as (u & Hs & Hd). destruct IH2 as (v & Hs' & Hd').
      exists (u ++ v). split.
      + eapply span_app; eauto.
      + rewrite (firstn_S_nth _ _ _ Hn). apply derives_app; auto. rewrite firstn_all in Hd'.
        rewrite <- Hl. apply derives_rule; auto. apply (chart_in_G _ _ Hc2).
  Qed.

  Lemma chart_le k x : chart k x -> k <= length w.
  Proof. intros H. destruct (chart_sound _ _ H) as (u & Hs & _). apply span_le in Hs. lia. Qed.

  Lemma chart_complete_gen b u : derives b u ->
    forall r d j i k c, chart i (mkItem r d j) -> skipn d (rhs r) = b ++ c ->
      span i k u -> chart k (mkItem r (d + length b) j).
  Proof.
    induction 1 as [| t x ss w' Hm Hd IH | a r ss w1 w2 Hin Hl Hd1 IH1 Hd2 IH2];
      intros r0 d j i k0 c Hc E Hs; simpl in *.
    - apply span_le in Hs as Hle. destruct Hs as (p & s & _ & L1 & L2). simpl in L2.
      replace k0 with i by lia. rewrite Nat.add_0_r. auto.
    - apply span_cons in Hs as (Hn & Hs). apply skipn_cons_inv in E as (Hx & E).
      rewrite <- Nat.add_succ_comm. apply (IH r0 (S d) j (S i) k0 c); auto. eapply c_scan; eauto.
    - apply skipn_cons_inv in E as (Hx & E). apply span_split in Hs as (Hs1 & Hs2).
      assert (Hr : chart (i + length w1) (mkItem r (0 + length (rhs r)) i)).
      { apply (IH1 r 0 i i _ []); auto; [eapply c_pred; eauto|symmetry; apply app_nil_r]. }
      rewrite <- Nat.add_succ_comm. apply (IH2 r0 (S d) j (i + length w1) k0 c); auto.
      eapply c_comp; eauto.
  Qed.

  Theorem chart_complete :
    derives [NT start] w ->
    exists r, In r G /\ lhs r = start /\ chart (length w) (mkItem r (length (rhs r)) 0).
  Proof.
    intros H. apply derives_nt_inv in H as (r & Hr & Hl & Hd).
    exists r. repeat split; auto.
    apply (chart_complete_gen _ _ Hd r 0 0 0 (length w) []).
    - constructor; auto.
    - symmetry; apply app_nil_r.
    - exists [], []. rewrite app_nil_r. auto.
  Qed.

  (* acceptance: a completed start rule spanning the whole input *)
  Definition accepts_spec : Prop :=
    exists r, In r G /\ lhs r = start /\ chart (length w) (mkItem r (length (rhs r)) 0).

  Theorem accepts_iff_sentence : accepts_spec <-> derives [NT start] w.
  Proof.
    split; [|apply chart_complete].
    intros (r & Hin & Hl & Hc). destruct (chart_sound _ _ Hc) as (u & Hs & Hd).
    cbn [orig dot irule] in *. rewrite firstn_all in Hd.
    apply span_whole in Hs as ->. rewrite <- Hl. apply derives_rule; auto.
  Qed.
End Chart.
