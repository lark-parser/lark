(* The resolve walk on graph forests (cyclic or not): what it returns is one of the finite unfoldings the
   forest stores ([den]), and it returns one whenever the root has one. *)
From Coq Require Import List Arith Bool Lia.
From LV Require Import Cfg.Grammar Forest.ExplicitBuild Forest.GraphResolve.
Import ListNotations.

Section Proofs.
  Variable tok : Type.
  Variable teqb : tok -> tok -> bool.
  Hypothesis teqb_spec : forall a b, teqb a b = true <-> a = b.

  Notation label := (nlabel tok).
  Notation leqb := (nlabel_eqb tok teqb).

  Lemma rule_eqb'_spec a b : rule_eqb' a b = true <-> a = b.
  Proof. unfold rule_eqb'. destruct (rule_eq_dec a b); split; congruence. Qed.

  Lemma nlabel_eqb_spec (a b : label) : leqb a b = true <-> a = b.
  Proof.
    destruct a, b; cbn [nlabel_eqb]; try (split; [discriminate|congruence]);
      rewrite ?andb_true_iff, ?Nat.eqb_eq, ?rule_eqb'_spec, ?teqb_spec; split;
      try (intros H; decompose [and] H; subst; reflexivity); intros H; inversion H; subst; auto.
  Qed.

  Lemma lmem_in (x : label) l : lmem tok teqb x l = true <-> In x l.
  Proof.
    induction l as [|y r IH]; cbn; [split; [discriminate|tauto]|].
    rewrite orb_true_iff, IH, nlabel_eqb_spec. split; intros [H|H]; auto.
  Qed.
  Lemma lmem_not_in (x : label) l : lmem tok teqb x l = false <-> ~ In x l.
  Proof. rewrite <- lmem_in. destruct (lmem tok teqb x l); split; congruence. Qed.

  Variable fams : list (label * family tok).
  Variable order : label -> list (family tok) -> list (family tok).
  (* SymbolNode.children rearranges the packed children: nothing added, nothing lost *)
  Hypothesis order_perm : forall l fs f, In f (order l fs) <-> In f fs.

  Notation gres := (gres tok teqb fams order).
  Notation F := (in_forest tok fams).

  Lemma fams_of_in lbl f : In f (fams_of tok teqb fams lbl) <-> In (lbl, f) fams.
  Proof.
    unfold fams_of. rewrite in_map_iff. split.
    - intros [[l0 f0] [<- H]]. apply filter_In in H. destruct H as [H E]. cbn [fst snd] in *.
      apply nlabel_eqb_spec in E. subst. exact H.
    - intros H. exists (lbl, f). split; [reflexivity|]. apply filter_In. split; [exact H|].
      apply nlabel_eqb_spec. reflexivity.
  Qed.

  Lemma first_some_some {A B} (f : A -> option B) l y :
    first_some f l = Some y -> exists x, In x l /\ f x = Some y.
  Proof.
    induction l as [|x r IH]; cbn; [discriminate|]. destruct (f x) eqn:E.
    - intros [= <-]. exists x. auto.
    - intros H. destruct (IH H) as [x' [H1 H2]]. exists x'. auto.
  Qed.
  Lemma first_some_none {A B} (f : A -> option B) l x : first_some f l = None -> In x l -> f x = None.
  Proof.
    induction l as [|x0 r IH]; cbn; [tauto|]. destruct (f x0) eqn:E; [discriminate|].
    intros H [<-|Hin]; auto.
  Qed.

  Definition sub (f : nat) (path : list label) (o : option label) : option (list (dt tok)) :=
    match o with None => Some [] | Some l => gres f path l end.

  Definition try_fam (f : nat) (path : list label) (lbl : label) (fm : family tok) : option (list (dt tok)) :=
    let '(r, l, rt) := fm in
    match sub f (lbl :: path) l with
    | None => None
    | Some d1 => match sub f (lbl :: path) rt with
                 | None => None
                 | Some d2 => Some (pack tok lbl r (d1 ++ d2))
                 end
    end.

  Definition is_tok (l : label) : bool := match l with NTok _ _ _ _ _ => true | _ => false end.

  Lemma gres_nontok f path lbl : is_tok lbl = false ->
    gres (S f) path lbl =
    if lmem tok teqb lbl path then None
    else first_some (try_fam f path lbl) (order lbl (fams_of tok teqb fams lbl)).
  Proof. destruct lbl; [reflexivity|reflexivity|discriminate]. Qed.

  Lemma gres_inv f path lbl ds : is_tok lbl = false -> gres (S f) path lbl = Some ds ->
    ~ In lbl path /\ exists r l rt d1 d2, F lbl (r, l, rt) /\ sub f (lbl :: path) l = Some d1 /\
      sub f (lbl :: path) rt = Some d2 /\ ds = pack tok lbl r (d1 ++ d2).
  Proof.
    intros Et. rewrite (gres_nontok _ _ _ Et). destruct (lmem tok teqb lbl path) eqn:El; [discriminate|].
    intros H. split; [apply lmem_not_in; exact El|].
    apply first_some_some in H. destruct H as [[[r l] rt] [Hin Htry]].
    apply order_perm, fams_of_in in Hin. unfold try_fam in Htry.
    destruct (sub f (lbl :: path) l) as [d1|] eqn:E1; [|discriminate].
    destruct (sub f (lbl :: path) rt) as [d2|] eqn:E2; [|discriminate]. injection Htry as <-.
    exists r, l, rt, d1, d2. auto.
  Qed.

  Theorem gres_sound : forall fuel path lbl ds, gres fuel path lbl = Some ds -> den tok F lbl ds.
  Proof.
    induction fuel as [|f IH]; intros path lbl ds; [discriminate|].
    destruct (is_tok lbl) eqn:Et.
    - destruct lbl; try discriminate. cbn. intros [= <-]. constructor.
    - intros H. destruct (gres_inv _ _ _ _ Et H) as [_ [r [l [rt [d1 [d2 [HF [E1 [E2 ->]]]]]]]]].
      apply (den_fam tok F lbl r l rt d1 d2); [exact HF| |].
      + destruct l as [l0|]; cbn [sub] in E1; [constructor; apply (IH _ _ _ E1)|]. injection E1 as <-. constructor.
      + destruct rt as [l0|]; cbn [sub] in E2; [constructor; apply (IH _ _ _ E2)|]. injection E2 as <-. constructor.
  Qed.

  (* the result below a symbol node is one tree, so transform() returns it *)
  Theorem graph_resolve_in_den a i j d :
    graph_resolve tok teqb fams order (NSym tok a i j) = Some d -> den tok F (NSym tok a i j) [d].
  Proof.
    unfold graph_resolve. destruct (GraphResolve.gres tok teqb fams order _ _ _) as [[|d0 [|? ?]]|] eqn:E; try discriminate.
    intros [= <-]. exact (gres_sound _ _ _ _ E).
  Qed.

  Inductive denh : nat -> label -> Prop :=
  | dh_tok n t x i j : denh n (NTok tok t x i j)
  | dh_fam n lbl r l rt : F lbl (r, l, rt) -> denh_opt n l -> denh_opt n rt -> denh (S n) lbl
  with denh_opt : nat -> option label -> Prop :=
  | dho_none n : denh_opt n None
  | dho_some n l : denh n l -> denh_opt n (Some l).

  Scheme denh_mind := Minimality for denh Sort Prop
    with denh_opt_mind := Minimality for denh_opt Sort Prop.
  Combined Scheme denh_mutind from denh_mind, denh_opt_mind.

  Lemma denh_mono : (forall n l, denh n l -> forall m, n <= m -> denh m l) /\
                    (forall n o, denh_opt n o -> forall m, n <= m -> denh_opt m o).
  Proof.
    apply denh_mutind.
    - intros. constructor.
    - intros n lbl r l rt HF _ IH1 _ IH2 m Hm. destruct m as [|m]; [lia|].
      apply (dh_fam m lbl r l rt HF); [apply IH1|apply IH2]; lia.
    - intros. constructor.
    - intros n l _ IH m Hm. constructor. apply IH. exact Hm.
  Qed.

  Scheme den_mind := Minimality for den Sort Prop
    with den_opt_mind := Minimality for den_opt Sort Prop.
  Combined Scheme den_mutind from den_mind, den_opt_mind.

  Lemma den_height : (forall l ds, den tok F l ds -> exists n, denh n l) /\
                     (forall o ds, den_opt tok F o ds -> exists n, denh_opt n o).
  Proof.
    apply den_mutind.
    - intros. exists 0. constructor.
    - intros lbl r l rt ds1 ds2 HF _ [n1 H1] _ [n2 H2]. exists (S (Nat.max n1 n2)).
      apply (dh_fam _ lbl r l rt HF).
      + apply (proj2 denh_mono _ _ H1). lia.
      + apply (proj2 denh_mono _ _ H2). lia.
    - exists 0. constructor.
    - intros l ds _ [n H]. exists n. constructor. exact H.
  Qed.

  Definition heads : list label := map fst fams.

  (* The symbol nodes on a path are distinct and own families, so no path is longer than [fams]: the fuel
     [S (length fams)] given at the root is never used up. *)
  Definition path_ok (path : list label) (fuel : nat) : Prop :=
    NoDup path /\ incl path heads /\ List.length fams < fuel + List.length path.

  Lemma path_ok_nil fuel : List.length fams < fuel -> path_ok [] fuel.
  Proof. intros H. split; [constructor|]. split; [intros q []|]. cbn [List.length]. lia. Qed.

  Lemma path_ok_fuel path fuel : path_ok path fuel -> fuel <> 0.
  Proof.
    intros [Hnd [Hincl Hf]] ->. pose proof (NoDup_incl_length Hnd Hincl) as H.
    unfold heads in H. rewrite map_length in H. lia.
  Qed.

  Lemma path_ok_cons path f lbl fm : path_ok path (S f) -> ~ In lbl path -> F lbl fm -> path_ok (lbl :: path) f.
  Proof.
    intros [Hnd [Hincl Hf]] Hn HF. split; [constructor; assumption|]. split.
    - intros q [<-|Hq]; [exact (in_map fst _ _ HF)|exact (Hincl q Hq)].
    - cbn [List.length]. lia.
  Qed.

  Lemma dn_em (A : Prop) : ~ ~ (A \/ ~ A).
  Proof. tauto. Qed.

  (* a node all of whose ancestors have no unfolding of height <= n, and that has one itself, succeeds *)
  Lemma gres_total_aux : forall n fuel lbl path,
    denh n lbl -> (forall q, In q path -> ~ denh n q) -> path_ok path fuel ->
    gres fuel path lbl <> None.
  Proof.
    induction n as [n IHn] using lt_wf_ind. intros fuel lbl path Hd Hp Hpo.
    destruct fuel as [|f]; [destruct (path_ok_fuel _ _ Hpo eq_refl)|].
    destruct (is_tok lbl) eqn:Et.
    { destruct lbl; discriminate. }
    rewrite (gres_nontok _ _ _ Et).
    assert (Hnp : ~ In lbl path) by (intros Hin; exact (Hp _ Hin Hd)).
    rewrite (proj2 (lmem_not_in _ _) Hnp).
    inversion Hd as [|n0 lbl0 r l rt HF Hl Hr]; subst; [discriminate|].
    intros Hnone.
    assert (Hp0 : forall q, In q path -> ~ denh n0 q).
    { intros q Hq Hdq. apply (Hp q Hq). apply (proj1 denh_mono _ _ Hdq). apply Nat.le_succ_diag_r. }
    (* either lbl already has a smaller unfolding (then the induction hypothesis applies to lbl itself), or the
       children of this family can be tried below lbl *)
    apply (dn_em (denh n0 lbl)). intros [Hsmall|Hnot].
    - refine (IHn n0 (Nat.lt_succ_diag_r _) (S f) lbl path Hsmall Hp0 Hpo _).
      rewrite (gres_nontok _ _ _ Et), (proj2 (lmem_not_in _ _) Hnp). exact Hnone.
    - assert (Hin : In (r, l, rt) (order lbl (fams_of tok teqb fams lbl))).
      { apply order_perm. apply fams_of_in. exact HF. }
      pose proof (first_some_none _ _ _ Hnone Hin) as Htry. unfold try_fam in Htry.
      assert (Hsub : forall o, denh_opt n0 o -> sub f (lbl :: path) o <> None).
      { intros o Ho. destruct o as [l0|]; cbn [sub]; [|discriminate]. inversion Ho; subst.
        apply (IHn n0 (Nat.lt_succ_diag_r _)); [assumption| |exact (path_ok_cons _ _ _ _ Hpo Hnp HF)].
        intros q [<-|Hq]; [exact Hnot|exact (Hp0 q Hq)]. }
      destruct (sub f (lbl :: path) l) as [d1|] eqn:E1; [|exact (Hsub l Hl E1)].
      destruct (sub f (lbl :: path) rt) as [d2|] eqn:E2; [discriminate|exact (Hsub rt Hr E2)].
  Qed.

  Theorem gres_total lbl ds : den tok F lbl ds -> gres (S (List.length fams)) [] lbl <> None.
  Proof.
    intros H. destruct (proj1 den_height _ _ H) as [n Hn].
    apply (gres_total_aux n); [exact Hn|intros q []|apply path_ok_nil, Nat.lt_succ_diag_r].
  Qed.

  Lemma den_sym_single a i j ds : den tok F (NSym tok a i j) ds -> exists d, ds = [d].
  Proof. intros H. inversion H; subst. cbn [pack]. eauto. Qed.

  (* the walk returns a tree whenever the forest stores one below the root - on every forest, cyclic or not:
     it retreats from alternatives that run into the current path and still finds an unfolding if one exists *)
  Theorem graph_resolve_total a i j d :
    den tok F (NSym tok a i j) [d] -> graph_resolve tok teqb fams order (NSym tok a i j) <> None.
  Proof.
    intros H. pose proof (gres_total _ _ H) as Hne. unfold graph_resolve.
    destruct (GraphResolve.gres tok teqb fams order _ _ _) as [ds|] eqn:E; [|congruence].
    destruct (den_sym_single _ _ _ _ (gres_sound _ _ _ _ E)) as [d0 ->]. discriminate.
  Qed.
End Proofs.
