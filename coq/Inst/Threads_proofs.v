(* Proofs about Inst/Threads.v: safety of the publish-last lazy initialisation for every
   schedule and any number of threads (by an invariant, induction over the schedule), and a
   concrete failing schedule for the old publish-first order. *)
From Coq Require Import List Arith Bool String Lia.
From LV Require Import Inst.ListFacts Inst.ThreadsBase Inst.Threads.
Import ListNotations.

Lemma lookup_tset_same k v d : lookup k (tset k v d) = Some v.
Proof.
  induction d as [|[k' v'] r IH]; cbn.
  - now rewrite String.eqb_refl.
  - destruct (String.eqb k k') eqn:E; cbn; rewrite E; auto.
Qed.

Lemma lookup_tset_other k k' v d : k <> k' -> lookup k' (tset k v d) = lookup k' d.
Proof.
  intros N. induction d as [|[k2 v2] r IH]; cbn.
  - destruct (String.eqb_spec k' k); [congruence|reflexivity].
  - destruct (String.eqb_spec k k2) as [<-|_]; cbn.
    + destruct (String.eqb_spec k' k); [congruence|reflexivity].
    + destruct (String.eqb k' k2); auto.
Qed.

Definition is_user_entry (o : option cbv) : Prop := o = Some CUser \/ o = Some CChain.

Lemma add_user_same d k : is_user_entry (lookup k (add_user d k)).
Proof.
  unfold add_user, is_user_entry. destruct (lookup k d); rewrite lookup_tset_same; auto.
Qed.

Lemma add_user_keeps d k k' : is_user_entry (lookup k' d) -> is_user_entry (lookup k' (add_user d k)).
Proof.
  intros H. destruct (String.eqb_spec k k') as [<-|N]; [apply add_user_same|].
  unfold add_user. destruct (lookup k d); rewrite lookup_tset_other; auto.
Qed.

Lemma fold_add_user_keeps ks : forall d k', is_user_entry (lookup k' d) ->
  is_user_entry (lookup k' (fold_left add_user ks d)).
Proof. induction ks; cbn; intros; auto. apply IHks. now apply add_user_keeps. Qed.

Lemma fold_add_user_in ks : forall d k, In k ks -> is_user_entry (lookup k (fold_left add_user ks d)).
Proof.
  induction ks; cbn; intros d k H; [contradiction|].
  destruct H as [->|H]; [|now apply IHks].
  apply fold_add_user_keeps, add_user_same.
Qed.

(* every user lexer_callback has an entry that calls it (alone, or chained after the Unless callback) *)
Lemma full_table_has_user c k : In k (user_keys c) ->
  lookup k (full_table c) = Some CUser \/ lookup k (full_table c) = Some CChain.
Proof. intros H. exact (fold_add_user_in _ _ _ H). Qed.

Section Safe.
Variable c : tcfg.

Definition sh_ok (sh : shared) : Prop :=
  Forall (fun d => d = full_table c) (heap sh) /\
  (forall a, sh_cb sh = Some a -> a < List.length (heap sh)) /\
  (sh_scanner sh = true -> sh_cb sh <> None).

Definition sh_le (sh sh' : shared) : Prop :=
  (sh_scanner sh = true -> sh_scanner sh' = true) /\ (sh_cb sh <> None -> sh_cb sh' <> None).

Lemma cb_table_complete sh : sh_ok sh -> sh_cb sh <> None -> cb_table sh = Some (full_table c).
Proof.
  intros (F & B & _) N. unfold cb_table. destruct (sh_cb sh) as [a|]; [|congruence].
  specialize (B a eq_refl). destruct (nth_error (heap sh) a) eqn:E.
  - rewrite Forall_forall in F. f_equal. apply F. eapply nth_error_In; eauto.
  - apply nth_error_None in E. lia.
Qed.

Definition pc_ok (sh : shared) (th : thread) : Prop :=
  match t_pc th with
  | PCheck | PCall => t_todo th <> []
  | PPublish d => d = full_table c /\ t_todo th <> []
  | PReturn => sh_cb sh <> None /\ t_todo th <> []
  | PRet | PTokA => sh_scanner sh = true /\ t_todo th <> []
  | PTokB => sh_scanner sh = true /\ t_todo th <> [] /\ expected c (cur th) <> TDropped
  | PTokC => sh_scanner sh = true /\ t_todo th <> [] /\ lookup (fst (cur th)) (full_table c) <> None
  | PDone => t_todo th = []
  | POldAlloc | POldAssert | POldTest _ | POldSet _ _ => False
  end.

Definition th_ok (sh : shared) (inp : list (key * bool)) (th : thread) : Prop :=
  t_res th ++ seq_results c (t_todo th) = seq_results c inp /\ pc_ok sh th.

Lemma th_ok_mono sh sh' inp th : sh_le sh sh' -> th_ok sh inp th -> th_ok sh' inp th.
Proof.
  intros (L1 & L2) (R & P). split; auto. unfold pc_ok in *.
  destruct (t_pc th); try exact P; destruct P as [a b]; split; auto.
Qed.

Lemma sh_le_refl sh : sh_le sh sh.
Proof. split; auto. Qed.

Lemma start_ok inp : th_ok sh0 inp (start inp).
Proof.
  unfold th_ok, start, pc_ok; cbn. split; auto. destruct inp; cbn; congruence.
Qed.

Lemma finish_ok sh inp th :
  t_res th ++ seq_results c (t_todo th) = seq_results c inp -> t_todo th <> [] ->
  th_ok sh inp (finish th (expected c (cur th))).
Proof.
  intros R N. unfold finish, cur, th_ok, pc_ok in *. destruct (t_todo th) as [|[k b] rest]; [congruence|].
  cbn in *. split.
  - rewrite <- app_assoc. exact R.
  - destruct rest; cbn; congruence.
Qed.

Lemma expected_some k b v : lookup k (full_table c) = Some v -> expected c (k, b) = TApplied v.
Proof. unfold expected; cbn. intros ->. reflexivity. Qed.
Lemma expected_none k b : lookup k (full_table c) = None -> expected c (k, b) = if b then TDropped else TPlain.
Proof. unfold expected; cbn. intros ->. reflexivity. Qed.

Lemma step_ok sh th inp sh' th' :
  sh_ok sh -> th_ok sh inp th -> step PublishLast c sh th = (sh', th') ->
  sh_ok sh' /\ sh_le sh sh' /\ th_ok sh' inp th'.
Proof.
  intros SO (R & P) S. unfold step in S. unfold pc_ok in P.
  (* a step that writes nothing, and one that only moves on *)
  assert (stay : forall th1, th_ok sh inp th1 -> sh_ok sh /\ sh_le sh sh /\ th_ok sh inp th1)
    by (intros; auto using sh_le_refl).
  assert (go : forall p, pc_ok sh (goto th p) -> th_ok sh inp (goto th p)) by (intros; split; auto).
  (* once the scanner is published, next_token reads the complete table *)
  assert (CT : sh_scanner sh = true -> cb_table sh = Some (full_table c)).
  { intros ES. apply cb_table_complete; auto. apply SO, ES. }
  destruct (t_pc th) eqn:EP; try contradiction.
  - (* PCheck *)
    destruct (sh_scanner sh) eqn:ES; inversion S; subst; apply stay, go; cbn; auto.
  - (* PCall *)
    inversion S; subst. apply stay, go. cbn; auto.
  - (* PPublish *)
    destruct P as (-> & N). inversion S; subst; clear S. destruct SO as (F & B & I).
    split; [|split].
    + split; [|split]; cbn.
      * apply Forall_app. split; auto.
      * intros a E. inversion E; subst. rewrite app_length. cbn. lia.
      * intros _. congruence.
    + split; cbn; auto. intros _. congruence.
    + split; auto. unfold pc_ok; cbn. split; auto. congruence.
  - (* PReturn *)
    destruct P as (NC & N). inversion S; subst; clear S. destruct SO as (F & B & I).
    split; [|split].
    + split; [|split]; cbn; auto.
    + split; cbn; auto.
    + split; auto. unfold pc_ok; cbn. auto.
  - (* PRet *)
    inversion S; subst. apply stay, go, P.
  - (* PTokA *)
    destruct P as (ES & N). rewrite (CT ES) in S. destruct (cur th) as [k ign] eqn:EC.
    destruct (lookup k (full_table c)) as [v|] eqn:EL.
    + assert (th' = goto th PTokB /\ sh' = sh) as [-> ->] by (destruct ign; inversion S; auto).
      apply stay, go. cbn. repeat split; auto. unfold cur in *; cbn. rewrite EC, (expected_some _ _ _ EL). discriminate.
    + destruct ign; inversion S; subst; apply stay.
      * rewrite <- (expected_none k true EL), <- EC. apply finish_ok; auto.
      * apply go. cbn. repeat split; auto. unfold cur in *; cbn. rewrite EC, (expected_none _ _ EL). discriminate.
  - (* PTokB *)
    destruct P as (ES & N & ND). rewrite (CT ES) in S. destruct (cur th) as [k ign] eqn:EC.
    destruct (lookup k (full_table c)) as [v|] eqn:EL; inversion S; subst; apply stay.
    + apply go. cbn. repeat split; auto. unfold cur in *; cbn. rewrite EC. cbn. congruence.
    + rewrite (expected_none _ _ EL) in ND. destruct ign; [congruence|].
      rewrite <- (expected_none k false EL), <- EC. apply finish_ok; auto.
  - (* PTokC *)
    destruct P as (ES & N & NL). rewrite (CT ES) in S. destruct (cur th) as [k ign] eqn:EC. cbn in NL.
    destruct (lookup k (full_table c)) as [v|] eqn:EL; [|congruence]. inversion S; subst. apply stay.
    rewrite <- (expected_some k ign v EL), <- EC. apply finish_ok; auto.
  - (* PDone *)
    inversion S; subst. apply stay. split; auto. unfold pc_ok. now rewrite EP.
Qed.

Definition g_ok (inputs : list (list (key * bool))) (g : gstate) : Prop :=
  sh_ok (fst g) /\ Forall2 (th_ok (fst g)) inputs (snd g).

Lemma init_ok inputs : g_ok inputs (init inputs).
Proof.
  split; cbn.
  - split; [constructor|]. split; intros; discriminate.
  - induction inputs; cbn; constructor; auto. apply start_ok.
Qed.

(* the scheduler's list update is the set_at of ListFacts *)
Lemma upd_set_at {A} : @upd A = @set_at A.
Proof. reflexivity. Qed.

Lemma gstep_ok inputs g i : g_ok inputs g -> g_ok inputs (gstep PublishLast c g i).
Proof.
  intros (SO & F). unfold gstep. destruct (nth_error (snd g) i) as [th|] eqn:E; [|split; auto].
  destruct (step PublishLast c (fst g) th) as [sh' th'] eqn:S.
  destruct (Forall2_nth_r _ _ _ _ _ F E) as (inp & EI & TO).
  destruct (step_ok _ _ _ _ _ SO TO S) as (SO' & LE & TO').
  split; cbn; auto.
  rewrite upd_set_at. eapply Forall2_set_at_r; eauto.
  eapply Forall2_impl; [|exact F]. intros a b. now apply th_ok_mono.
Qed.

Lemma run_ok sched : forall inputs g, g_ok inputs g -> g_ok inputs (run PublishLast c sched g).
Proof.
  induction sched; cbn; intros; auto. apply IHsched. now apply gstep_ok.
Qed.

(* Safety, every schedule, any number of threads:
   (1) what each thread has produced so far, followed by the sequential results of what it still
       has to lex, is the sequential result of its whole input (so its tokens are the sequential
       ones, no KeyError/AttributeError, no callback skipped);
   (2) a finished thread has produced exactly the sequential result;
   (3) whenever a thread is at one of next_token's reads of self.callback, the attribute holds
       the complete table. *)
Theorem lazy_init_safe_publish_last inputs sched :
  let g := run PublishLast c sched (init inputs) in
  Forall2 (fun inp th =>
             t_res th ++ seq_results c (t_todo th) = seq_results c inp /\
             (t_pc th = PDone -> t_res th = seq_results c inp) /\
             (t_pc th = PTokA \/ t_pc th = PTokB \/ t_pc th = PTokC ->
              cb_table (fst g) = Some (full_table c)))
          inputs (snd g).
Proof.
  intros g. destruct (run_ok sched inputs _ (init_ok inputs)) as (SO & F). fold g in SO, F.
  eapply Forall2_impl; [|exact F]. intros inp th (R & P). split; auto. split.
  - intros D. unfold pc_ok in P. rewrite D in P. rewrite P in R. cbn in R. now rewrite app_nil_r in R.
  - intros H. apply cb_table_complete; auto. destruct SO as (_ & _ & I). apply I.
    unfold pc_ok in P. destruct H as [H|[H|H]]; rewrite H in P; tauto.
Qed.

End Safe.

Definition race_cfg : tcfg := mkTcfg [] ["WORD"%string].
Definition race_inputs : list (list (key * bool)) := [[("WORD"%string, false)]; [("WORD"%string, false)]].
(* thread 1 tests `_scanner is None`; thread 0 builds, publishes, starts lexing and stops in front of
   `if t.type in self.callback`; thread 1 enters _build_scanner and re-binds self.callback to a dict
   that does not contain the user callback yet; thread 0 continues. *)
Definition race_sched : list nat := [1; 0; 0; 0; 0; 0; 0; 0; 0; 0; 0; 1; 1; 0].

Lemma lazy_init_race_old_order_refuted :
  exists c inputs sched th,
    nth_error (snd (run PublishFirst c sched (init inputs))) 0 = Some th /\
    t_pc th = PDone /\ t_res th <> seq_results c (nth 0 inputs []).
Proof.
  exists race_cfg, race_inputs, race_sched.
  eexists. split; [vm_compute; reflexivity|]. split; [reflexivity|]. vm_compute. discriminate.
Qed.

Example race_sched_publish_last :
  map t_res (snd (run PublishLast race_cfg (race_sched ++ [1;1;1;1;1;1;1;1]) (init race_inputs)))
  = [[("WORD"%string, TApplied CUser)]; [("WORD"%string, TApplied CUser)]].
Proof. vm_compute. reflexivity. Qed.
