(* Proofs about Inst/World.v: calls on one instance are not affected by the construction or use of
   other instances, and construction is not affected by what was constructed before. *)
From Coq Require Import ZArith List Bool String Arith Lia.
From LV Require Import Base.Prelude Sys.IndenterBase Gen.IndenterHoles Sys.Indenter Inst.IndSteps Inst.Instance
     Inst.Instance_proofs Inst.World.
Import ListNotations.

Section Proofs.
Variables Conf Sc CB LexSt Err Text : Type.
Variable mk_scanner : Conf -> Sc.
Variable mk_callback : Conf -> CB.
Variable mk_search : Conf -> Sc.
Variable at_end : LexSt -> bool.
Variable ntfuel : LexSt -> nat.
Variable init_ls : Text -> nat -> LexSt.
Variable iter : Conf -> Sc -> CB -> LexSt -> iter_res LexSt Err.
Variable search : Sc -> Text -> nat -> option nat.
Variable sc_want : Text -> nat -> list tok -> bool.
Variable sc_end : Text -> nat -> list tok -> pend Err -> option nat.
Variables GP Src : Type.
Variable mk_gp : GP.
Variable compile : GP -> Src -> option (iconf Conf).

Notation coherent := (coherent Conf Sc CB mk_scanner mk_callback mk_search).
Notation run_op := (run_op mk_scanner mk_callback mk_search at_end ntfuel init_ls iter search sc_want sc_end).
Notation op_pure := (op_pure mk_scanner mk_callback mk_search at_end ntfuel init_ls iter search sc_want sc_end).
Notation wstep := (wstep mk_scanner mk_callback mk_search at_end ntfuel init_ls iter search sc_want sc_end mk_gp compile).
Notation wrun := (wrun mk_scanner mk_callback mk_search at_end ntfuel init_ls iter search sc_want sc_end mk_gp compile).
Notation world := (world Conf Sc CB GP).
Notation run_op_coh := (run_op_coh Conf Sc CB mk_scanner mk_callback mk_search LexSt Err Text at_end ntfuel init_ls iter
                          search sc_want sc_end).

Definition w_ok (w : world) : Prop :=
  (w_gp w = None \/ w_gp w = Some mk_gp) /\
  Forall (fun p => coherent (fst p) (snd p) /\ exists src, compile mk_gp src = Some (fst p)) (w_insts w).

Lemma w_ok_0 : w_ok (world0 Conf Sc CB GP).
Proof. split; cbn; auto. Qed.

Lemma force_gp_ok w : w_ok w -> exists w', force_gp mk_gp w = (w', mk_gp) /\ w_ok w' /\ w_insts w' = w_insts w.
Proof.
  intros (A & B). unfold force_gp. destruct (w_gp w) eqn:E.
  - destruct A as [A|A]; [discriminate|]. inversion A; subst. exists w. repeat split; auto; try (rewrite E; auto).
  - eexists. split; [reflexivity|]. split; [|reflexivity]. split; cbn; auto.
Qed.

Lemma nth_upd_inst (l : list (iconf Conf * inst Sc CB)) : forall i j s,
  nth_error (upd_inst l i s) j =
  match nth_error l j with
  | Some (cf, s0) => Some (cf, if Nat.eqb j i then s else s0)
  | None => None
  end.
Proof.
  induction l as [|[cf s0] r IH]; intros i j s.
  - destruct i, j; reflexivity.
  - destruct i, j; cbn; auto.
    destruct (nth_error r j) as [[c x]|]; reflexivity.
Qed.

Lemma Forall_upd_inst (P : iconf Conf * inst Sc CB -> Prop) l : forall i s,
  Forall P l -> (forall cf s0, nth_error l i = Some (cf, s0) -> P (cf, s)) -> Forall P (upd_inst l i s).
Proof.
  induction l as [|[cf s0] r IH]; intros i s F H; cbn.
  - destruct i; constructor.
  - inversion F; subst. destruct i.
    + constructor; auto; try (apply (H cf s0); reflexivity).
    + constructor; auto.
Qed.

Lemma w_ok_nth w i cf s : w_ok w -> nth_error (w_insts w) i = Some (cf, s) ->
  coherent cf s /\ exists src, compile mk_gp src = Some cf.
Proof.
  intros (_ & B) E. rewrite Forall_forall in B. apply (B (cf, s)). eapply nth_error_In; eauto.
Qed.

Lemma wstep_ok fuel w e : w_ok w -> w_ok (fst (wstep fuel w e)).
Proof.
  intros H. destruct e as [src|i o]; cbn [World.wstep].
  - destruct (force_gp_ok w H) as (w1 & E & H1 & I). rewrite E.
    destruct (compile mk_gp src) as [cf|] eqn:C; cbn; auto.
    destruct H1 as (A & B). split; cbn; auto. apply Forall_app. split; auto.
    constructor; [|constructor]. cbn. split; [exact (coherent_fresh Conf Sc CB mk_scanner mk_callback mk_search LexSt Err Text iter search cf)|eauto].
  - destruct (nth_error (w_insts w) i) as [[cf s]|] eqn:E; cbn; auto.
    destruct (w_ok_nth w i cf s H E) as (Hc & Hsrc).
    pose proof (run_op_coh fuel cf s o Hc) as (_ & Hc').
    destruct (run_op fuel cf s o) as [s' ob]. cbn in *. destruct H as (A & B). split; auto.
    apply Forall_upd_inst; auto. intros cf0 s0 E0. rewrite E in E0. injection E0 as <- <-. cbn. auto.
Qed.

Lemma wrun_ok fuel h : forall w, w_ok w -> w_ok (wrun fuel w h).
Proof.
  induction h as [|e r IH]; intros w H; cbn; auto. apply IH. now apply wstep_ok.
Qed.

(* Other instances.  After any history of the process - any number of other instances constructed (successfully or
   not) and used in any way, and any earlier calls on this one - a call on an instance delivers the pure function of
   that instance's own configuration and the call's arguments. *)
Theorem other_instances fuel h i cf s o :
  nth_error (w_insts (wrun fuel (world0 Conf Sc CB GP) h)) i = Some (cf, s) ->
  snd (wstep fuel (wrun fuel (world0 Conf Sc CB GP) h) (WCall Src i o)) = WResult (op_pure fuel cf o).
Proof.
  intros E. cbn [World.wstep]. rewrite E.
  pose proof (run_op_coh fuel cf s o (proj1 (w_ok_nth _ i cf s (wrun_ok fuel h _ w_ok_0) E))) as (R & _).
  destruct (run_op fuel cf s o) as [s' ob]. cbn in *. now rewrite R.
Qed.

(* Construction does not depend on the history either: Lark(src) fails or yields the configuration compile gives
   with the constant grammar-of-grammars parser, whatever was built or called before *)
Theorem construction_pure fuel h src :
  let w := wrun fuel (world0 Conf Sc CB GP) h in
  match compile mk_gp src with
  | None => snd (wstep fuel w (WNew Text src)) = WFailed _
  | Some cf => snd (wstep fuel w (WNew Text src)) = WCreated _ (List.length (w_insts w)) /\
               nth_error (w_insts (fst (wstep fuel w (WNew Text src)))) (List.length (w_insts w)) = Some (cf, fresh Sc CB)
  end.
Proof.
  intros w. pose proof (wrun_ok fuel h _ w_ok_0) as H. fold w in H.
  cbn [World.wstep]. destruct (force_gp_ok w H) as (w1 & E & H1 & I). rewrite E.
  destruct (compile mk_gp src) as [cf|]; cbn; auto. rewrite I. split; auto.
  rewrite nth_error_app2 by lia. rewrite Nat.sub_diag. reflexivity.
Qed.

Theorem configuration_immutable fuel e w i cf s :
  nth_error (w_insts w) i = Some (cf, s) ->
  exists s', nth_error (w_insts (fst (wstep fuel w e))) i = Some (cf, s').
Proof.
  intros E. destruct e as [src|j o]; cbn [World.wstep].
  - unfold force_gp. destruct (w_gp w); destruct (compile _ src); cbn; eauto;
      exists s; rewrite nth_error_app1; auto; apply nth_error_Some; congruence.
  - destruct (nth_error (w_insts w) j) as [[cf' s0]|] eqn:Ej; cbn; eauto.
    destruct (run_op fuel cf' s0 o) as [s' ob]. cbn. rewrite nth_upd_inst, E. eauto.
Qed.

End Proofs.
