(* The EBNF-to-BNF compilation preserves the language with the stated repetition counts (C09).
   CFG notion: Cfg/Grammar.v (symbol, rule, derives) with tokens = numbers of the user's symbols and
   tmatch = Nat.eqb, i.e. the language over the symbols of the original rule body. *)
From Coq Require Import ZArith List Bool Arith Lia.
From LV Require Import Base.Prelude Gen.Consts Gen.SmallFactors Cfg.Grammar Ebnf.Repeat
  Ebnf.SmallFactors_proofs Ebnf.Repeat_proofs Ebnf.Compile.
Import ListNotations.

Lemma Forall2_repeat {X Y} (R : X -> Y -> Prop) x y n : R x y -> Forall2 R (repeat x n) (repeat y n).
Proof. intros H. induction n; simpl; constructor; auto. Qed.

Lemma Forall2_map_same {X Y Z} (R : Y -> Z -> Prop) (f : X -> Y) (g : X -> Z) l :
  (forall i, R (f i) (g i)) -> Forall2 R (map f l) (map g l).
Proof. intros H. induction l; simpl; constructor; auto. Qed.

Lemma rbind_ok {X Y} (r : res X) (f : X -> res Y) y : rbind r f = Ok y -> exists x, r = Ok x /\ f x = Ok y.
Proof. destruct r; simpl; try discriminate. eauto. Qed.

Section BtInd.
  Variable P : bt -> Prop.
  Hypothesis HSy : forall s, P (Sy s).
  Hypothesis HSq : forall l, Forall P l -> P (Sq l).
  Hypothesis HAl : forall l, Forall P l -> P (Al l).
  Fixpoint bt_ind' (t : bt) : P t :=
    match t with
    | Sy s => HSy s
    | Sq l => HSq l ((fix go (l : list bt) : Forall P l :=
                        match l with [] => Forall_nil P | x :: r => Forall_cons x (bt_ind' x) (go r) end) l)
    | Al l => HAl l ((fix go (l : list bt) : Forall P l :=
                        match l with [] => Forall_nil P | x :: r => Forall_cons x (bt_ind' x) (go r) end) l)
    end.
End BtInd.

Section ExprInd.
  Variable P : expr -> Prop.
  Hypothesis HSym : forall s, P (Sym s).
  Hypothesis HSeq : forall l, Forall P l -> P (Seq l).
  Hypothesis HAlt : forall l, Forall P l -> P (Alt l).
  Hypothesis HOpt : forall e, P e -> P (Opt e).
  Hypothesis HStar : forall e, P e -> P (Star e).
  Hypothesis HPlus : forall e, P e -> P (Plus e).
  Hypothesis HRep : forall e mn mx, P e -> P (Rep e mn mx).
  Fixpoint expr_ind' (e : expr) : P e :=
    match e with
    | Sym s => HSym s
    | Seq l => HSeq l ((fix go (l : list expr) : Forall P l :=
                          match l with [] => Forall_nil P | x :: r => Forall_cons x (expr_ind' x) (go r) end) l)
    | Alt l => HAlt l ((fix go (l : list expr) : Forall P l :=
                          match l with [] => Forall_nil P | x :: r => Forall_cons x (expr_ind' x) (go r) end) l)
    | Opt e => HOpt e (expr_ind' e)
    | Star e => HStar e (expr_ind' e)
    | Plus e => HPlus e (expr_ind' e)
    | Rep e mn mx => HRep e mn mx (expr_ind' e)
    end.
End ExprInd.

(* [bt_eqb (Sq (a :: l)) (Sq (b :: m))] computes to [bt_eqb a b && go l m], where [go l m] is convertible with
   [bt_eqb (Sq l) (Sq m)]: the lists are handled by an inner induction on the Forall of [bt_ind']; same for Al *)
Lemma bt_eqb_eq x : forall y, bt_eqb x y = true -> x = y.
Proof.
  induction x as [s|l IH|l IH] using bt_ind'; intros [s'|m|m] H; try discriminate.
  1: simpl in H; destruct (symbol_eqb_spec s s'); congruence.
  all: f_equal; revert m H; induction IH as [|a l Ha _ IHl]; intros [|b m] H; try discriminate; [reflexivity|];
    cbn in H; apply andb_prop in H; destruct H as [H1 H2]; f_equal; [apply Ha, H1 | apply IHl, H2].
Qed.

Lemma bt_eqb_refl x : bt_eqb x x = true.
Proof.
  induction x as [s|l IH|l IH] using bt_ind'.
  1: simpl; destruct (symbol_eqb_spec s s); congruence.
  all: induction IH as [|a l Ha _ IHl]; [reflexivity|]; cbn; rewrite Ha; exact IHl.
Qed.

Lemma key_eqb_eq k k' : key_eqb k k' = true -> k = k'.
Proof.
  destruct k, k'; simpl; intros H; try discriminate.
  1: f_equal; apply bt_eqb_eq; auto.
  all: repeat (apply andb_prop in H; destruct H as [H ?]);
    apply Nat.eqb_eq in H; apply Nat.eqb_eq in H2; f_equal; auto using bt_eqb_eq.
Qed.

Lemma key_eqb_refl k : key_eqb k k = true.
Proof. destruct k; simpl; rewrite ?Nat.eqb_refl, ?bt_eqb_refl; auto. Qed.

Lemma lookup_some k c h : lookup k c = Some h -> In (k, h) c.
Proof.
  induction c as [|[k' h'] c IH]; simpl; [discriminate|].
  destruct (key_eqb k k') eqn:E.
  - intros [= ->]. left. f_equal. symmetry. apply key_eqb_eq; auto.
  - auto.
Qed.

Lemma lookup_none k c : lookup k c = None -> forall h, ~ In (k, h) c.
Proof.
  induction c as [|[k' h'] c IH]; simpl; auto.
  destruct (key_eqb k k') eqn:E; [discriminate|].
  intros H h [Heq|Hin]; [|eapply IH; eauto].
  inversion Heq; subst. rewrite key_eqb_refl in E. discriminate.
Qed.

Lemma syms_eqb_eq x : forall y, syms_eqb x y = true <-> x = y.
Proof.
  induction x as [|a x IH]; intros [|b y]; simpl; split; intros H; try discriminate; auto.
  - apply andb_prop in H. destruct H as [H1 H2]. destruct (symbol_eqb_spec a b); try discriminate.
    f_equal; auto. apply IH; auto.
  - inversion H; subst. destruct (symbol_eqb_spec b b); try congruence. apply IH; auto.
Qed.

Lemma dedup_In a l : In a (dedup l) <-> In a l.
Proof.
  induction l as [|x l IH]; simpl; [tauto|]. rewrite filter_In, IH. split.
  - intros [H|[H _]]; auto.
  - intros [H|H]; auto. destruct (syms_eqb x a) eqn:E.
    + left. apply syms_eqb_eq; auto.
    + right. split; auto.
Qed.

Definition seq_alts (l : list bt) : list (list symbol) := fold_right (fun x acc => cross (alts x) acc) [[]] l.
Definition alt_alts (l : list bt) : list (list symbol) := flat_map alts l.

Lemma alts_Sq l : alts (Sq l) = seq_alts l.
Proof. induction l as [|x l IH]; simpl; auto; try (simpl in IH; rewrite IH; auto). Qed.
Lemma alts_Al l : alts (Al l) = dedup (alt_alts l).
Proof. reflexivity. Qed.

Lemma cross_In xs ys a : In a (cross xs ys) <-> exists x y, In x xs /\ In y ys /\ a = x ++ y.
Proof.
  unfold cross. rewrite in_flat_map. split.
  - intros (x & Hx & Hin). apply in_map_iff in Hin. destruct Hin as (y & <- & Hy). eauto.
  - intros (x & y & Hx & Hy & ->). exists x. split; auto. apply in_map_iff. eauto.
Qed.

Definition Gok (G : grammar) (D : list (nat * bt)) : Prop :=
  (forall r h, In r G -> lhs r = S h -> exists t, In (h, t) D /\ In (rhs r) (alts t)) /\
  (forall h t a, In (h, t) D -> In a (alts t) -> In (mkRule (S h) a) G) /\
  (forall h t t', In (h, t) D -> In (h, t') D -> t = t').

Section Lang.
  Variable G : grammar.
  Notation der := (derives G nat Nat.eqb).

  Definition lang (t : bt) (w : list nat) : Prop := exists a, In a (alts t) /\ der a w.

  Lemma der_nil_inv w : der [] w -> w = [].
  Proof. intros H; inversion H; auto. Qed.

  Lemma lang_T s w : lang (Sy (T s)) w <-> w = [s].
  Proof.
    split.
    - intros (a & [<-|[]] & H). inversion H as [|t k ss w' Hm Hd|]; subst.
      apply der_nil_inv in Hd. subst. apply Nat.eqb_eq in Hm. subst. auto.
    - intros ->. exists [T s]. split; [left; auto|]. constructor; [apply Nat.eqb_refl | constructor].
  Qed.

  Lemma lang_Sy s w : lang (Sy s) w <-> der [s] w.
  Proof.
    split.
    - intros (a & [<-|[]] & H). auto.
    - intros H. exists [s]. split; [left; auto | auto].
  Qed.

  Lemma lang_Sq_nil w : lang (Sq []) w <-> w = [].
  Proof.
    split.
    - intros (a & [<-|[]] & H). apply der_nil_inv; auto.
    - intros ->. exists []. split; [left; auto | constructor].
  Qed.

  Lemma lang_Sq_cons x r w :
    lang (Sq (x :: r)) w <-> exists u v, w = u ++ v /\ lang x u /\ lang (Sq r) v.
  Proof.
    unfold lang. rewrite !alts_Sq. simpl. split.
    - intros (a & Hin & Hd). apply cross_In in Hin. destruct Hin as (p & q & Hp & Hq & ->).
      apply derives_split in Hd. destruct Hd as (u & v & -> & Hu & Hv).
      exists u, v. split; auto. split; [exists p | exists q]; auto.
    - intros (u & v & -> & (p & Hp & Hu) & (q & Hq & Hv)).
      exists (p ++ q). split; [apply cross_In; eauto | apply derives_app; auto].
  Qed.

  Lemma lang_Al l w : lang (Al l) w <-> exists x, In x l /\ lang x w.
  Proof.
    unfold lang. change (alts (Al l)) with (dedup (alt_alts l)). split.
    - intros (a & Hin & Hd). apply (proj1 (dedup_In _ _)) in Hin. unfold alt_alts in Hin. apply in_flat_map in Hin.
      destruct Hin as (x & Hx & Ha). eauto.
    - intros (x & Hx & a & Ha & Hd). exists a. split; auto. apply (proj2 (dedup_In _ _)). apply in_flat_map. eauto.
  Qed.

  Lemma lang_Al_cons x r w : lang (Al (x :: r)) w <-> lang x w \/ lang (Al r) w.
  Proof.
    rewrite !lang_Al. split.
    - intros (y & [<-|Hy] & H); eauto.
    - intros [H|(y & Hy & H)]; [exists x | exists y]; simpl; auto.
  Qed.

  Lemma lang_Al_nil w : ~ lang (Al []) w.
  Proof. rewrite lang_Al. intros (x & [] & _). Qed.

  Lemma lang_opt x w : lang (Al [x; Sq []]) w <-> lang x w \/ w = [].
  Proof. rewrite !lang_Al_cons, lang_Sq_nil. pose proof (lang_Al_nil w). tauto. Qed.

  Variable D : list (nat * bt).
  Hypothesis HG : Gok G D.

  Lemma nt_unfold h t w : In (h, t) D -> (der [NT (S h)] w <-> lang t w).
  Proof.
    destruct HG as (HG1 & HG2 & HD). intros Hin. split.
    - intros H. inversion H as [| |a r ss w1 w2 Hr Hl Hd1 Hd2]; subst.
      apply der_nil_inv in Hd2. subst. rewrite app_nil_r.
      destruct (HG1 r h Hr Hl) as (t' & Hin' & Ha). rewrite (HD _ _ _ Hin Hin'). exists (rhs r). auto.
    - intros (a & Ha & Hd). rewrite <- (app_nil_r w).
      apply (d_nt G nat Nat.eqb (S h) (mkRule (S h) a) [] w []); auto; [eapply HG2; eauto | constructor].
  Qed.
End Lang.

Lemma alts_Sq1 x a : In a (alts (Sq [x])) <-> In a (alts x).
Proof.
  rewrite alts_Sq. simpl. rewrite cross_In. split.
  - intros (p & q & Hp & [<-|[]] & ->). rewrite app_nil_r. auto.
  - intros H. exists a, []. rewrite app_nil_r. simpl; auto.
Qed.

Lemma alts_Sq2 s x a : In a (alts (Sq [Sy s; x])) <-> exists p, In p (alts x) /\ a = s :: p.
Proof.
  rewrite alts_Sq. unfold seq_alts. cbn [fold_right]. change (alts (Sy s)) with [[s]]. rewrite cross_In. split.
  - intros (p & q & [<-|[]] & Hq & ->). apply cross_In in Hq. destruct Hq as (p' & q' & Hp' & [<-|[]] & ->).
    exists p'. rewrite app_nil_r. auto.
  - intros (p & Hp & ->). exists [s], p. split; [left; auto|]. split; auto.
    apply cross_In. exists p, []. rewrite app_nil_r. simpl; auto.
Qed.

Lemma rec_body_alts x h a :
  In a (alts (rec_body x h)) <-> In a (alts x) \/ exists p, In p (alts x) /\ a = NT (S h) :: p.
Proof.
  unfold rec_body. change (alts (Al [Sq [x]; Sq [Sy (NT (S h)); x]]))
    with (dedup (alts (Sq [x]) ++ alts (Sq [Sy (NT (S h)); x]) ++ [])).
  rewrite dedup_In, app_nil_r, in_app_iff, alts_Sq1, alts_Sq2. tauto.
Qed.

Section Sem.
  Variable G : grammar.
  Variable D : list (nat * bt).
  Hypothesis HG : Gok G D.
  Notation der := (derives G nat Nat.eqb).
  Notation lng := (lang G).

  Variable atom : bt.
  Variable A : list nat -> Prop.
  Hypothesis Hatom : forall w, lng atom w <-> A w.

  Inductive inl : bt -> rexp -> Prop :=
  | inl_atom : inl atom Atom
  | inl_sq_nil : inl (Sq []) Eps
  | inl_sq_cons x r xr rr : inl x xr -> inl (Sq r) rr -> inl (Sq (x :: r)) (Cat xr rr)
  | inl_al_nil : inl (Al []) Void
  | inl_al_cons x r xr rr : inl x xr -> inl (Al r) rr -> inl (Al (x :: r)) (Or xr rr)
  | inl_nt h t r : In (h, t) D -> inl t r -> inl (Sy (NT (S h))) r
  | inl_rec h x xr : In (h, rec_body x h) D -> inl x xr -> inl (Sy (NT (S h))) (Rec xr).

  Lemma inl_seq_of l lr : Forall2 inl l lr -> inl (Sq l) (seq_of lr).
  Proof. induction 1; simpl; constructor; auto. Qed.
  Lemma inl_alt_of l lr : Forall2 inl l lr -> inl (Al l) (alt_of lr).
  Proof. induction 1; simpl; constructor; auto. Qed.

  Lemma rec_sound h x xr :
    In (h, rec_body x h) D -> (forall w, lng x w <-> den nat A xr w) ->
    forall w, der [NT (S h)] w <-> den nat A (Rec xr) w.
  Proof.
    intros Hin Hx. split.
    - intros Hd. destruct HG as (HG1 & _ & HD).
      assert (Hgen : forall ss w, der ss w -> forall rest, ss = NT (S h) :: rest ->
                exists u v, w = u ++ v /\ den nat A (Rec xr) u /\ der rest v).
      { clear w Hd. induction 1 as [|t k ss w Hm Hd IH|a r ss w1 w2 Hr Hl Hd1 IH1 Hd2 IH2];
          intros rest Heq; try discriminate.
        injection Heq as Hq1 Hs. subst ss. assert (Hl' : lhs r = S h) by congruence.
        exists w1, w2. split; auto. split; auto.
        destruct (HG1 r h Hr Hl') as (t' & Hin' & Ha). rewrite <- (HD _ _ _ Hin Hin') in Ha.
        apply rec_body_alts in Ha. destruct Ha as [Ha|(p & Hp & Ha)].
        - apply d_rec1. apply Hx. exists (rhs r). auto.
        - destruct (IH1 p Ha) as (u & v & -> & Hu & Hv). apply d_rec2; auto.
          apply Hx. exists p. auto. }
      destruct (Hgen _ _ Hd [] eq_refl) as (u & v & -> & Hu & Hv).
      apply der_nil_inv in Hv. subst. rewrite app_nil_r. auto.
    - intros Hd. remember (Rec xr) as rr eqn:Er. induction Hd; inversion Er; subst.
      + apply (nt_unfold G D HG h _ w Hin). apply Hx in Hd. destruct Hd as (a & Ha & Hd).
        exists a. split; auto. apply rec_body_alts. auto.
      + specialize (IHHd1 eq_refl). apply Hx in Hd2. destruct Hd2 as (p & Hp & Hd2).
        apply (nt_unfold G D HG h _ _ Hin). exists (NT (S h) :: p). split.
        * apply rec_body_alts. right. eauto.
        * change (NT (S h) :: p) with ([NT (S h)] ++ p). apply derives_app; auto.
  Qed.

  Theorem inl_sound x r : inl x r -> forall w, lng x w <-> den nat A r w.
  Proof.
    induction 1 as [| |x r xr rr Hx IHx Hr IHr| |x r xr rr Hx IHx Hr IHr|h t r Hin Ht IHt|h x xr Hin Hx IHx]; intros w.
    - rewrite Hatom. split; intros H; [constructor; auto | inversion H; auto].
    - rewrite lang_Sq_nil. split; intros H; [subst; constructor | inversion H; auto].
    - rewrite lang_Sq_cons. split.
      + intros (u & v & -> & Hu & Hv). constructor; [apply IHx | apply IHr]; auto.
      + intros H. inversion H; subst. exists u, v. split; auto. split; [apply IHx | apply IHr]; auto.
    - split; intros H; [exfalso; eapply lang_Al_nil; eauto | inversion H].
    - rewrite lang_Al_cons. split.
      + intros [H|H]; [apply d_or_l; apply IHx | apply d_or_r; apply IHr]; auto.
      + intros H. inversion H; subst; [left; apply IHx | right; apply IHr]; auto.
    - rewrite lang_Sy, (nt_unfold G D HG h t w Hin). apply IHt.
    - rewrite lang_Sy. apply (rec_sound h x xr Hin IHx).
  Qed.
End Sem.

Lemma inl_mono D D' atom x r : incl D D' -> inl D atom x r -> inl D' atom x r.
Proof.
  intros Hi H. induction H; try (constructor; auto; fail).
  - eapply inl_nt; eauto.
  - eapply inl_rec; eauto.
Qed.

(* the pair (diff_target, diff_opt_target) of _generate_repeats: either the initial one or the two
   helpers made from the same (a, b, previous target) *)
Definition pair_ok (c : list (key * nat)) (atom dt dopt : bt) : Prop :=
  (dt = atom /\ dopt = Sq []) \/
  (exists a b t h ho, dt = Sy (NT (S h)) /\ dopt = Sy (NT (S ho)) /\
                      In (KRep a b t atom, h) c /\ In (KOpt a b t atom, ho) c).

Definition entry_ok (st : state) (k : key) (h : nat) : Prop :=
  match k with
  | KRec x => In (h, rec_body x h) (new_rules st)
  | KRep a b tg atom => In (h, rep_body a b tg atom) (new_rules st) /\ Sy (NT (S h)) <> atom
  | KOpt a b tg atom =>
      exists topt, In (h, opt_body a b tg topt atom) (new_rules st) /\ pair_ok (cache st) atom tg topt
  end.

Record wf (st : state) : Prop := {
  wf_rules : forall h t, In (h, t) (new_rules st) -> h < ctr st;
  wf_cache : forall k h, In (k, h) (cache st) -> h < ctr st;
  wf_keyfun : forall k h h', In (k, h) (cache st) -> In (k, h') (cache st) -> h = h';
  wf_valfun : forall k k' h, In (k, h) (cache st) -> In (k', h) (cache st) -> k = k';
  wf_entry : forall k h, In (k, h) (cache st) -> entry_ok st k h;
  wf_defs : forall h t t', In (h, t) (new_rules st) -> In (h, t') (new_rules st) -> t = t' }.

Definition ext (st st' : state) : Prop :=
  incl (new_rules st) (new_rules st') /\ incl (cache st) (cache st') /\ ctr st <= ctr st'.

Lemma ext_refl st : ext st st.
Proof. repeat split; auto using incl_refl. Qed.
Lemma ext_trans a b c : ext a b -> ext b c -> ext a c.
Proof. intros (H1 & H2 & H3) (H4 & H5 & H6). repeat split; eauto using incl_tran. lia. Qed.

Definition top_bound (t : bt) (n : nat) : Prop := forall h, t = Sy (NT (S h)) -> h < n.

Lemma top_bound_ext t st st' : ext st st' -> top_bound t (ctr st) -> top_bound t (ctr st').
Proof. intros (_ & _ & Hl) H h Ht. specialize (H h Ht). lia. Qed.

Lemma wf_st0 : wf st0.
Proof. constructor; simpl; intros; contradiction. Qed.

Lemma pair_ok_mono c c' atom dt dopt : incl c c' -> pair_ok c atom dt dopt -> pair_ok c' atom dt dopt.
Proof.
  intros Hi [H|(a & b & t & h & ho & H1 & H2 & H3 & H4)]; [left; auto|].
  right. exists a, b, t, h, ho. auto.
Qed.

Lemma entry_ok_mono st st' k h : ext st st' -> entry_ok st k h -> entry_ok st' k h.
Proof.
  intros (H1 & H2 & H3). destruct k; simpl.
  - auto.
  - intros [Ha Hb]. split; auto.
  - intros (topt & Ha & Hb). exists topt. split; auto. eapply pair_ok_mono; eauto.
Qed.

Lemma pair_ok_unique st atom dt dopt dopt' :
  wf st -> pair_ok (cache st) atom dt dopt -> pair_ok (cache st) atom dt dopt' -> dopt = dopt'.
Proof.
  intros W [[H1 H2]|(a & b & t & h & ho & H1 & H2 & H3 & H4)]
           [[H1' H2']|(a' & b' & t' & h' & ho' & H1' & H2' & H3' & H4')].
  - congruence.
  - exfalso. apply (wf_entry st W) in H3'. simpl in H3'. destruct H3' as [_ Hne]. congruence.
  - exfalso. apply (wf_entry st W) in H3. simpl in H3. destruct H3 as [_ Hne]. congruence.
  - assert (h = h') by congruence. subst h'.
    pose proof (wf_valfun st W _ _ _ H3 H3') as Hk. inversion Hk; subst.
    rewrite (wf_keyfun st W _ _ _ H4 H4'). auto.
Qed.

Lemma add_rule_wf k body st :
  wf st -> lookup k (cache st) = None ->
  entry_ok (snd (add_rule k body st)) k (ctr st) ->
  wf (snd (add_rule k body st)) /\ ext st (snd (add_rule k body st)).
Proof.
  intros W Hl He.
  assert (Hext : ext st (snd (add_rule k body st))).
  { unfold add_rule, ext. simpl. repeat split; auto using incl_appl, incl_refl, incl_tl. }
  split; auto. unfold add_rule in *. simpl in *. constructor; simpl.
  - intros h t Hin. apply in_app_or in Hin. destruct Hin as [Hin|[Heq|[]]].
    + apply (wf_rules st W) in Hin. lia.
    + inversion Heq. lia.
  - intros k' h [Heq|Hin].
    + inversion Heq. lia.
    + apply (wf_cache st W) in Hin. lia.
  - intros k' h h' [Heq|Hin] [Heq'|Hin'].
    + congruence.
    + inversion Heq; subst. exfalso. eapply lookup_none; eauto.
    + inversion Heq'; subst. exfalso. eapply lookup_none; eauto.
    + eapply (wf_keyfun st W); eauto.
  - intros k1 k2 h [Heq|Hin] [Heq'|Hin'].
    + congruence.
    + inversion Heq; subst. apply (wf_cache st W) in Hin'. lia.
    + inversion Heq'; subst. apply (wf_cache st W) in Hin. lia.
    + eapply (wf_valfun st W); eauto.
  - intros k' h [Heq|Hin].
    + inversion Heq; subst. exact He.
    + eapply entry_ok_mono; [exact Hext|]. apply (wf_entry st W); auto.
  - intros h t t' Hin Hin'. apply in_app_or in Hin. apply in_app_or in Hin'.
    destruct Hin as [Hin|[Heq|[]]]; destruct Hin' as [Hin'|[Heq'|[]]].
    + eapply (wf_defs st W); eauto.
    + inversion Heq'; subst. apply (wf_rules st W) in Hin. lia.
    + inversion Heq; subst. apply (wf_rules st W) in Hin'. lia.
    + congruence.
Qed.

Lemma cached_spec k body st t st' :
  wf st -> cached k body st = (t, st') ->
  (lookup k (cache st) = None -> entry_ok (snd (add_rule k body st)) k (ctr st)) ->
  exists h, t = Sy (NT (S h)) /\ In (k, h) (cache st') /\ wf st' /\ ext st st'.
Proof.
  intros W Hc He. unfold cached in Hc. destruct (lookup k (cache st)) as [h|] eqn:El.
  - injection Hc as <- <-. exists h. apply lookup_some in El. auto using ext_refl.
  - destruct (add_rule_wf k body st W El (He eq_refl)) as [W' Hext]. rewrite Hc in W', Hext.
    exists (ctr st). unfold add_rule in Hc. injection Hc as <- <-. split; [reflexivity|]. split; [left; reflexivity | auto].
Qed.

Lemma add_recurse_spec x st t st' :
  wf st -> add_recurse x st = (t, st') ->
  exists h, t = Sy (NT (S h)) /\ In (h, rec_body x h) (new_rules st') /\ wf st' /\ ext st st' /\ h < ctr st'.
Proof.
  intros W Hc. unfold add_recurse in Hc.
  destruct (cached_spec _ _ _ _ _ W Hc) as (h & -> & Hin & W' & Hext).
  - intros _. simpl. apply in_or_app. right. left. auto.
  - exists h. split; auto. split; [exact (wf_entry st' W' _ _ Hin)|]. do 2 (split; [auto|]).
    exact (wf_cache st' W' _ _ Hin).
Qed.

Lemma inl_ext st st' atom x r : ext st st' -> inl (new_rules st) atom x r -> inl (new_rules st') atom x r.
Proof. intros (Hi & _). exact (inl_mono _ _ _ _ _ Hi). Qed.

(* _generate_repeats with named, cached helpers reads as Ebnf/Repeat.generate_repeats *)
Section Chain.
  Variable rule : bt.

  Lemma inl_rule D : inl D rule rule Atom.
  Proof. constructor. Qed.

  Lemma inl_rep_body D a b tg tr :
    inl D rule tg tr -> inl D rule (rep_body a b tg rule) (add_repeat_rule a b tr Atom).
  Proof.
    intros H. unfold rep_body, add_repeat_rule. apply inl_alt_of. constructor; [|constructor].
    apply inl_seq_of. apply Forall2_app; apply Forall2_repeat; auto. apply inl_rule.
  Qed.

  Lemma inl_opt_body D a b tg tr topt or :
    inl D rule tg tr -> inl D rule topt or ->
    inl D rule (opt_body a b tg topt rule) (add_repeat_opt_rule a b tr or Atom).
  Proof.
    intros H1 H2. unfold opt_body, add_repeat_opt_rule. apply inl_alt_of. apply Forall2_app.
    - apply Forall2_map_same. intros i. apply inl_seq_of. apply Forall2_app.
      + apply Forall2_repeat; auto.
      + constructor; auto.
    - apply Forall2_map_same. intros i. apply inl_seq_of. apply Forall2_app; apply Forall2_repeat; auto.
      apply inl_rule.
  Qed.

  Lemma add_repeat_rule_spec a b tg tr st t st' :
    wf st -> top_bound rule (ctr st) -> inl (new_rules st) rule tg tr ->
    add_repeat_rule' a b tg rule st = (t, st') ->
    exists h, t = Sy (NT (S h)) /\ In (KRep a b tg rule, h) (cache st') /\ wf st' /\ ext st st' /\ h < ctr st' /\
              inl (new_rules st') rule t (add_repeat_rule a b tr Atom).
  Proof.
    intros W Hb Hi Hc. unfold add_repeat_rule' in Hc.
    destruct (cached_spec _ _ _ _ _ W Hc) as (h & -> & Hin & W' & Hext).
    - intros _. simpl. split; [apply in_or_app; right; left; auto|].
      intros Heq. symmetry in Heq. apply Hb in Heq. lia.
    - exists h. do 4 (split; [auto|]). split; [exact (wf_cache st' W' _ _ Hin)|].
      destruct (wf_entry st' W' _ _ Hin) as [Hr _].
      eapply inl_nt; [exact Hr|]. apply inl_rep_body, (inl_ext _ _ _ _ _ Hext Hi).
  Qed.

  Lemma add_repeat_opt_rule_spec a b tg topt tr or st t st' :
    wf st -> pair_ok (cache st) rule tg topt ->
    inl (new_rules st) rule tg tr -> inl (new_rules st) rule topt or ->
    add_repeat_opt_rule' a b tg topt rule st = (t, st') ->
    exists h, t = Sy (NT (S h)) /\ In (KOpt a b tg rule, h) (cache st') /\ wf st' /\ ext st st' /\
              inl (new_rules st') rule t (add_repeat_opt_rule a b tr or Atom).
  Proof.
    intros W Hp Hi Ho Hc. unfold add_repeat_opt_rule' in Hc.
    destruct (cached_spec _ _ _ _ _ W Hc) as (h & -> & Hin & W' & Hext).
    - intros _. simpl. exists topt. split; [apply in_or_app; right; left; auto|].
      eapply pair_ok_mono; [|exact Hp]. apply incl_tl, incl_refl.
    - exists h. do 4 (split; [auto|]). destruct (wf_entry st' W' _ _ Hin) as (topt' & Hb & Hp').
      (* a helper found in the cache was made for the same optional target *)
      assert (topt' = topt).
      { eapply pair_ok_unique; [exact W' | exact Hp' |]. eapply pair_ok_mono; [|exact Hp]. apply Hext. }
      subst. eapply inl_nt; [exact Hb|]. apply inl_opt_body; eapply inl_ext; eauto.
  Qed.

  Lemma mn_fold_spec fs : forall tg tr st,
    wf st -> top_bound rule (ctr st) -> top_bound tg (ctr st) -> inl (new_rules st) rule tg tr ->
    let s := fold_left (mn_step' rule) fs (tg, st) in
    wf (snd s) /\ ext st (snd s) /\ top_bound (fst s) (ctr (snd s)) /\
    inl (new_rules (snd s)) rule (fst s) (fold_left (mn_step Atom) fs tr).
  Proof.
    induction fs as [|[a b] fs IH]; intros tg tr st W Hb Ht Hi; simpl.
    - split; [exact W|]. split; [apply ext_refl|]. split; auto.
    - change (mn_step' rule (tg, st) (a, b)) with (add_repeat_rule' a b tg rule st).
      destruct (add_repeat_rule' a b tg rule st) as [t1 st1] eqn:E.
      destruct (add_repeat_rule_spec _ _ _ tr _ _ _ W Hb Hi E) as (h & -> & _ & W1 & Hext & Hlt & Hi1).
      assert (Ht1 : top_bound (Sy (NT (S h))) (ctr st1)) by (intros h' [= <-]; exact Hlt).
      destruct (IH _ _ _ W1 (top_bound_ext _ _ _ Hext Hb) Ht1 Hi1) as (W2 & Hext2 & R).
      split; [exact W2|]. split; [exact (ext_trans _ _ _ Hext Hext2) | exact R].
  Qed.

  Lemma diff_fold_spec fs : forall dt dopt tr or st,
    wf st -> top_bound rule (ctr st) -> pair_ok (cache st) rule dt dopt ->
    inl (new_rules st) rule dt tr -> inl (new_rules st) rule dopt or ->
    let s := fold_left (diff_step' rule) fs (dt, dopt, st) in
    let s' := fold_left (diff_step Atom) fs (tr, or) in
    wf (snd s) /\ ext st (snd s) /\ pair_ok (cache (snd s)) rule (fst (fst s)) (snd (fst s)) /\
    inl (new_rules (snd s)) rule (fst (fst s)) (fst s') /\
    inl (new_rules (snd s)) rule (snd (fst s)) (snd s').
  Proof.
    induction fs as [|[a b] fs IH]; intros dt dopt tr or st W Hb Hp Hi Ho; simpl.
    - split; [exact W|]. split; [apply ext_refl|]. split; auto.
    - destruct (add_repeat_opt_rule' a b dt dopt rule st) as [o1 st1] eqn:E1.
      destruct (add_repeat_rule' a b dt rule st1) as [t2 st2] eqn:E2.
      destruct (add_repeat_opt_rule_spec _ _ _ _ tr or _ _ _ W Hp Hi Ho E1) as (ho & -> & Hco & W1 & Hext1 & Ho1).
      destruct (add_repeat_rule_spec _ _ _ tr _ _ _ W1 (top_bound_ext _ _ _ Hext1 Hb) (inl_ext _ _ _ _ _ Hext1 Hi) E2)
        as (h & -> & Hc & W2 & Hext2 & _ & Hi2).
      pose proof (ext_trans _ _ _ Hext1 Hext2) as Hext.
      assert (Hp2 : pair_ok (cache st2) rule (Sy (NT (S h))) (Sy (NT (S ho)))).
      { right. exists a, b, dt, h, ho. do 3 (split; [auto|]). apply Hext2, Hco. }
      destruct (IH _ _ _ _ _ W2 (top_bound_ext _ _ _ Hext Hb) Hp2 Hi2 (inl_ext _ _ _ _ _ Hext2 Ho1)) as (W3 & Hext3 & R).
      split; [exact W3|]. split; [exact (ext_trans _ _ _ Hext Hext3) | exact R].
  Qed.

  Lemma gen_repeats_spec mn mx st t st' r :
    wf st -> top_bound rule (ctr st) ->
    gen_repeats rule mn mx st = Ok (t, st') -> generate_repeats Atom mn mx = Ok r ->
    wf st' /\ ext st st' /\ top_bound t (ctr st') /\ inl (new_rules st') rule t r.
  Proof.
    intros W Hb Hg Hr. unfold gen_repeats in Hg. unfold generate_repeats in Hr.
    destruct (mx <? REPEAT_BREAK_THRESHOLD)%Z.
    - inversion Hg; subst. inversion Hr; subst. split; auto. split; [apply ext_refl|].
      split; [intros h Heq; discriminate|]. apply inl_alt_of. apply Forall2_map_same. intros n.
      apply inl_seq_of. apply Forall2_repeat. apply inl_rule.
    - destruct (small_factors (sf_fuel mn) mn SMALL_FACTOR_THRESHOLD) as [fs| |]; try discriminate.
      cbn [rbind] in Hg, Hr.
      destruct (mn_fold_spec (map natpair fs) rule Atom st W Hb Hb (inl_rule _)) as (W1 & Hext1 & Ht1 & Hi1).
      set (s1 := fold_left (mn_step' rule) (map natpair fs) (rule, st)) in *.
      destruct (mx =? mn)%Z.
      + inversion Hr; subst. destruct s1 as [t1 st1]. inversion Hg; subst. auto.
      + destruct (small_factors (sf_fuel (mx - mn + 1)) (mx - mn + 1) SMALL_FACTOR_THRESHOLD) as [dfs| |]; try discriminate.
        cbn [rbind] in Hg, Hr.
        destruct (diff_fold_spec (removelast (map natpair dfs)) rule (Sq []) Atom (seq_of []) (snd s1)
                    W1 (top_bound_ext _ _ _ Hext1 Hb) (or_introl (conj eq_refl eq_refl)) (inl_rule _) (inl_sq_nil _ _))
          as (W2 & Hext2 & Hp2 & Hi2 & Ho2).
        destruct (fold_left (diff_step' rule) (removelast (map natpair dfs)) (rule, Sq [], snd s1))
          as [[dt dopt] st2]. simpl in W2, Hext2, Hp2, Hi2, Ho2.
        set (p := last (map natpair dfs) (0, 0)) in *.
        destruct (add_repeat_opt_rule' (fst p) (snd p) dt dopt rule st2) as [o3 st3] eqn:E3.
        destruct (add_repeat_opt_rule_spec _ _ _ _ _ _ _ _ _ W2 Hp2 Hi2 Ho2 E3) as (ho & -> & _ & W3 & Hext3 & Ho3).
        inversion Hg; subst. inversion Hr; subst. pose proof (ext_trans _ _ _ Hext2 Hext3) as Hext.
        split; auto. split; [exact (ext_trans _ _ _ Hext1 Hext)|]. split; [intros h Heq; discriminate|].
        apply inl_al_cons; [|apply inl_al_nil].
        apply inl_sq_cons; [exact (inl_ext _ _ _ _ _ Hext Hi1)|]. apply inl_sq_cons; [exact Ho3 | apply inl_sq_nil].
  Qed.
End Chain.

Fixpoint eden (e : expr) : list nat -> Prop :=
  match e with
  | Sym s => fun w => w = [s]
  | Seq es => (fix go (l : list expr) : list nat -> Prop :=
                 match l with
                 | [] => fun w => w = []
                 | x :: r => fun w => exists u v, w = u ++ v /\ eden x u /\ go r v
                 end) es
  | Alt es => (fix go (l : list expr) : list nat -> Prop :=
                 match l with
                 | [] => fun _ => False
                 | x :: r => fun w => eden x w \/ go r w
                 end) es
  | Opt e => fun w => exists k, k <= 1 /\ pow nat (eden e) k w
  | Star e => fun w => exists k, pow nat (eden e) k w
  | Plus e => fun w => exists k, 1 <= k /\ pow nat (eden e) k w
  | Rep e mn mx => fun w => exists k, Z.to_nat mn <= k <= Z.to_nat mx /\ pow nat (eden e) k w
  end.

Lemma eden_Seq_cons x r w : eden (Seq (x :: r)) w <-> exists u v, w = u ++ v /\ eden x u /\ eden (Seq r) v.
Proof. reflexivity. Qed.
Lemma eden_Alt_cons x r w : eden (Alt (x :: r)) w <-> eden x w \/ eden (Alt r) w.
Proof. reflexivity. Qed.

Fixpoint ebnf_list (l : list expr) (st : state) : res (list bt * state) :=
  match l with
  | [] => Ok ([], st)
  | x :: r => rbind (ebnf x st) (fun p => rbind (ebnf_list r (snd p)) (fun q => Ok (fst p :: fst q, snd q)))
  end.

Lemma ebnf_Seq es st : ebnf (Seq es) st = rbind (ebnf_list es st) (fun q => Ok (Sq (fst q), snd q)).
Proof. reflexivity. Qed.
Lemma ebnf_Alt es st : ebnf (Alt es) st = rbind (ebnf_list es st) (fun q => Ok (Al (fst q), snd q)).
Proof. reflexivity. Qed.

Definition good (e : expr) (st : state) (t : bt) (st' : state) : Prop :=
  wf st' /\ ext st st' /\ top_bound t (ctr st') /\
  forall G D, Gok G D -> incl (new_rules st') D -> forall w, lang G t w <-> eden e w.

Lemma pow_le1 (A : list nat -> Prop) w : (exists k, k <= 1 /\ pow nat A k w) <-> w = [] \/ A w.
Proof.
  split.
  - intros (k & Hk & Hp). destruct k as [|[|k]]; [| |lia].
    + inversion Hp; auto.
    + inversion Hp as [|k0 u v Hu Hv]; subst. inversion Hv; subst. rewrite app_nil_r. auto.
  - intros [->|H]; [exists 0; split; [lia|constructor] | exists 1; split; [lia|apply pow_1; auto]].
Qed.

Lemma den_Atom (A : list nat -> Prop) w : den nat A Atom w <-> A w.
Proof. split; intros H; [inversion H; auto | constructor; auto]. Qed.

Lemma ebnf_list_good l :
  Forall (fun e => forall st t st', wf st -> ebnf e st = Ok (t, st') -> good e st t st') l ->
  forall st ts st', wf st -> ebnf_list l st = Ok (ts, st') ->
  wf st' /\ ext st st' /\
  forall G D, Gok G D -> incl (new_rules st') D -> Forall2 (fun e t => forall w, lang G t w <-> eden e w) l ts.
Proof.
  induction 1 as [|x r Hx _ IHr]; intros st ts st' W Hl; simpl in Hl.
  - inversion Hl; subst. split; auto. split; [apply ext_refl|]. constructor.
  - apply rbind_ok in Hl. destruct Hl as ([t1 st1] & H1 & Hl).
    apply rbind_ok in Hl. destruct Hl as ([ts2 st2] & H2 & Hl). simpl in Hl. inversion Hl; subst.
    destruct (Hx _ _ _ W H1) as (W1 & E1 & _ & S1). destruct (IHr _ _ _ W1 H2) as (W2 & E2 & S2).
    split; auto. split; [eapply ext_trans; eauto|]. intros G D HG Hi. constructor; [|apply (S2 G D); auto].
    apply (S1 G D HG). eapply incl_tran; [apply E2 | exact Hi].
Qed.

Lemma lang_Sq_all G l ts : Forall2 (fun e t => forall w, lang G t w <-> eden e w) l ts ->
  forall w, lang G (Sq ts) w <-> eden (Seq l) w.
Proof.
  induction 1 as [|e t l ts He _ IH]; intros w; [apply lang_Sq_nil|].
  rewrite lang_Sq_cons, eden_Seq_cons.
  split; intros (u & v & -> & Hu & Hv); exists u, v; (split; [reflexivity|]); split; (apply He || apply IH); assumption.
Qed.

Lemma lang_Al_all G l ts : Forall2 (fun e t => forall w, lang G t w <-> eden e w) l ts ->
  forall w, lang G (Al ts) w <-> eden (Alt l) w.
Proof.
  induction 1 as [|e t l ts He _ IH]; intros w.
  - split; [intros H; exfalso; eapply lang_Al_nil; eauto | intros []].
  - rewrite lang_Al_cons, eden_Alt_cons, He, IH. reflexivity.
Qed.

(* x+ : the helper made by _add_recurse_rule derives one or more x *)
Lemma plus_good e st x st1 t st2 : good e st x st1 -> add_recurse x st1 = (t, st2) -> good (Plus e) st t st2.
Proof.
  intros (W1 & E1 & _ & S1) E2. destruct (add_recurse_spec _ _ _ _ W1 E2) as (h & -> & Hin & W2 & Ex2 & Hlt).
  split; auto. split; [eapply ext_trans; eauto|]. split; [intros h' Heq; inversion Heq; subst; auto|].
  intros G D HG Hi w.
  assert (Hx : forall w, lang G x w <-> den nat (eden e) Atom w).
  { intros w'. rewrite den_Atom. apply (S1 G D HG). eapply incl_tran; [apply Ex2 | exact Hi]. }
  rewrite lang_Sy, (rec_sound G D HG (eden e) h x Atom (Hi _ Hin) Hx w), den_cnt. cbn [eden].
  split; intros (k & Hk & Hp); exists k; split; auto; apply (rec_count Atom exactly_atom); auto.
Qed.

Lemma ebnf_good e : forall st t st', wf st -> ebnf e st = Ok (t, st') -> good e st t st'.
Proof.
  induction e as [s|l IH|l IH|e IH|e IH|e IH|e mn mx IH] using expr_ind'; intros st t st' W He.
  - simpl in He. inversion He; subst. split; auto. split; [apply ext_refl|].
    split; [intros h Heq; discriminate|]. intros G D _ _ w. apply lang_T.
  - rewrite ebnf_Seq in He. apply rbind_ok in He. destruct He as ([ts st1] & Hl & He). simpl in He.
    inversion He; subst. destruct (ebnf_list_good l IH _ _ _ W Hl) as (W' & E' & S').
    split; auto. split; auto. split; [intros h Heq; discriminate|].
    intros G D HG Hi. apply lang_Sq_all, (S' G D); auto.
  - rewrite ebnf_Alt in He. apply rbind_ok in He. destruct He as ([ts st1] & Hl & He). simpl in He.
    inversion He; subst. destruct (ebnf_list_good l IH _ _ _ W Hl) as (W' & E' & S').
    split; auto. split; auto. split; [intros h Heq; discriminate|].
    intros G D HG Hi. apply lang_Al_all, (S' G D); auto.
  - simpl in He. apply rbind_ok in He. destruct He as ([x st1] & H1 & He). simpl in He. inversion He; subst.
    destruct (IH _ _ _ W H1) as (W1 & E1 & _ & S1). split; auto. split; auto.
    split; [intros h Heq; discriminate|]. intros G D HG Hi w.
    rewrite lang_opt, (S1 G D HG Hi w). cbn [eden]. rewrite pow_le1. tauto.
  - (* Star: x+ or nothing *)
    simpl in He. apply rbind_ok in He. destruct He as ([x st1] & H1 & He). simpl in He.
    destruct (add_recurse x st1) as [t2 st2] eqn:E2. simpl in He. inversion He; subst.
    destruct (plus_good e st x st1 t2 st' (IH _ _ _ W H1) E2) as (W2 & Ex & _ & S2).
    split; auto. split; auto. split; [intros h' Heq; discriminate|]. intros G D HG Hi w.
    rewrite lang_opt, (S2 G D HG Hi w). cbn [eden]. split.
    + intros [(k & _ & Hp)| ->]; [eauto | exists 0; constructor].
    + intros ([|k] & Hp); [inversion Hp; auto | left; exists (S k); split; [lia | exact Hp]].
  - simpl in He. apply rbind_ok in He. destruct He as ([x st1] & H1 & He). simpl in He.
    destruct (add_recurse x st1) as [t2 st2] eqn:E2. inversion He; subst.
    exact (plus_good e st x st1 t st' (IH _ _ _ W H1) E2).
  - simpl in He. destruct ((mx <? mn) || (mn <? 0))%Z eqn:Erange; [discriminate|].
    apply orb_false_elim in Erange. destruct Erange as [R1 R2]. apply Z.ltb_ge in R1, R2.
    apply rbind_ok in He. destruct He as ([x st1] & H1 & He). simpl in He.
    destruct (IH _ _ _ W H1) as (W1 & E1 & B1 & S1).
    destruct (generate_repeats_language nat (eden e) mn mx (conj R2 R1)) as (r & Hr & Hlang).
    destruct (gen_repeats_spec x mn mx st1 t st' r W1 B1 He Hr) as (W2 & E2 & B2 & Hinl).
    split; auto. split; [eapply ext_trans; eauto|]. split; auto.
    intros G D HG Hi w. cbn [eden]. rewrite <- Hlang.
    apply (inl_sound G D HG x (eden e)).
    + intros w'. apply (S1 G D HG). eapply incl_tran; [apply E2 | exact Hi].
    + eapply inl_mono; [exact Hi | exact Hinl].
Qed.

Lemma in_rules_of a t r : In r (rules_of a t) <-> lhs r = a /\ In (rhs r) (alts t).
Proof.
  unfold rules_of. rewrite in_map_iff. split.
  - intros (x & <- & Hx). simpl. auto.
  - intros [<- H]. exists (rhs r). split; auto. destruct r; auto.
Qed.

Lemma grammar_of_ok t0 D :
  (forall h t t', In (h, t) D -> In (h, t') D -> t = t') -> Gok (grammar_of t0 D) D.
Proof.
  intros HD. unfold Gok, grammar_of. split; [|split]; auto.
  - intros r h Hr Hl. apply in_app_or in Hr. destruct Hr as [Hr|Hr].
    + apply in_rules_of in Hr. destruct Hr as [H0 _]. congruence.
    + apply in_flat_map in Hr. destruct Hr as ([h' t] & Hd & Hr). apply in_rules_of in Hr. simpl in Hr.
      destruct Hr as [H1 H2]. assert (h' = h) by congruence. subst. eauto.
  - intros h t a Hd Ha. apply in_or_app. right. apply in_flat_map. exists (h, t). split; auto.
    apply in_rules_of. simpl. auto.
Qed.

Lemma start_unfold t0 D w :
  derives (grammar_of t0 D) nat Nat.eqb [NT 0] w <-> lang (grammar_of t0 D) t0 w.
Proof.
  split.
  - intros H. inversion H as [| |a r ss w1 w2 Hr Hl Hd1 Hd2]; subst.
    apply der_nil_inv in Hd2. subst. rewrite app_nil_r. exists (rhs r). split; auto.
    unfold grammar_of in Hr. apply in_app_or in Hr. destruct Hr as [Hr|Hr].
    + apply in_rules_of in Hr. tauto.
    + apply in_flat_map in Hr. destruct Hr as (d & _ & Hr). apply in_rules_of in Hr. destruct Hr; congruence.
  - intros (a & Ha & Hd). rewrite <- (app_nil_r w).
    apply (d_nt _ nat Nat.eqb 0 (mkRule 0 a) [] w []); auto; [|constructor].
    unfold grammar_of. apply in_or_app. left. apply in_rules_of. simpl. auto.
Qed.

(* the compiled rule (all its alternatives, with all helper rules) derives exactly the words the
   expression denotes, with the stated repetition counts *)
Theorem compile_preserves_language e G :
  compile e = Ok G -> forall w, derives G nat Nat.eqb [NT 0] w <-> eden e w.
Proof.
  unfold compile. intros H. apply rbind_ok in H. destruct H as ([t st] & He & H). simpl in H.
  inversion H; subst. clear H. intros w.
  destruct (ebnf_good e st0 t st wf_st0 He) as (W & _ & _ & S).
  rewrite start_unfold. apply (S _ (new_rules st)); [|apply incl_refl].
  apply grammar_of_ok. apply (wf_defs st W).
Qed.

Fixpoint ranges_ok (e : expr) : Prop :=
  match e with
  | Sym _ => True
  | Seq es => (fix go (l : list expr) : Prop := match l with [] => True | x :: r => ranges_ok x /\ go r end) es
  | Alt es => (fix go (l : list expr) : Prop := match l with [] => True | x :: r => ranges_ok x /\ go r end) es
  | Opt e | Star e | Plus e => ranges_ok e
  | Rep e mn mx => (0 <= mn <= mx)%Z /\ ranges_ok e
  end.

Lemma gen_repeats_total rule mn mx st : (0 <= mn <= mx)%Z -> exists r, gen_repeats rule mn mx st = Ok r.
Proof.
  intros Hb. unfold gen_repeats. destruct (mx <? REPEAT_BREAK_THRESHOLD)%Z; [eauto|].
  destruct (small_factors_spec mn SMALL_FACTOR_THRESHOLD ltac:(lia) SFT_ok) as (fs & Hfs & _).
  unfold sf_fuel. rewrite Hfs. cbn [rbind]. destruct (mx =? mn)%Z eqn:E; [eauto|]. apply Z.eqb_neq in E.
  destruct (small_factors_spec (mx - mn + 1) SMALL_FACTOR_THRESHOLD ltac:(lia) SFT_ok) as (dfs & Hdfs & _).
  rewrite Hdfs. cbn [rbind].
  destruct (fold_left _ _ _) as [[dt dopt] st2]. destruct (add_repeat_opt_rule' _ _ _ _ _ _). eauto.
Qed.

(* [ranges_ok (Seq l)] and [ranges_ok (Alt l)] are the same conjunction over l *)
Lemma ebnf_list_total l : Forall (fun e => ranges_ok e -> forall st, exists r, ebnf e st = Ok r) l ->
  ranges_ok (Seq l) -> forall st, exists q, ebnf_list l st = Ok q.
Proof.
  induction 1 as [|x r Hx _ IHr]; intros Hr st; simpl; [eauto|].
  destruct Hr as [Hr1 Hr2]. destruct (Hx Hr1 st) as (p & ->). simpl.
  destruct (IHr Hr2 (snd p)) as (q & ->). simpl. eauto.
Qed.

Theorem compile_total e : ranges_ok e -> exists G, compile e = Ok G.
Proof.
  intros Hr. assert (H : forall st, exists r, ebnf e st = Ok r).
  { induction e as [s|l IH|l IH|e IH|e IH|e IH|e mn mx IH] using expr_ind'; intros st.
    - simpl. eauto.
    - rewrite ebnf_Seq. destruct (ebnf_list_total l IH Hr st) as (q & ->). simpl. eauto.
    - rewrite ebnf_Alt. destruct (ebnf_list_total l IH Hr st) as (q & ->). simpl. eauto.
    - simpl. destruct (IH Hr st) as (p & ->). simpl. eauto.
    - simpl. destruct (IH Hr st) as (p & ->). simpl. eauto.
    - simpl. destruct (IH Hr st) as (p & ->). simpl. eauto.
    - simpl. destruct Hr as [Hb Hr]. destruct (IH Hr st) as (p & ->). simpl.
      replace ((mx <? mn) || (mn <? 0))%Z with false.
      + apply gen_repeats_total; auto.
      + symmetry. apply orb_false_intro; apply Z.ltb_ge; lia. }
  unfold compile. destruct (H st0) as (p & ->). simpl. eauto.
Qed.

(* "Filter out unused rules" keeps the language of the start rule *)
Section Prune.
  Variable G : grammar.
  Let keep (a : nat) := used_in G a.
  Let G' := filter (fun r => used_in G (lhs r)) G.

  Lemma prune_step_derives ss w :
    derives G nat Nat.eqb ss w -> (forall a, In (NT a) ss -> keep a = true) -> derives G' nat Nat.eqb ss w.
  Proof.
    induction 1 as [|t k ss w Hm Hd IH|a r ss w1 w2 Hr Hl Hd1 IH1 Hd2 IH2]; intros Hk.
    - constructor.
    - constructor; auto. apply IH. intros a Ha. apply Hk. right; auto.
    - assert (Ka : keep a = true) by (apply Hk; left; auto).
      apply (d_nt G' nat Nat.eqb a r); auto.
      + unfold G'. apply filter_In. split; auto. rewrite Hl. exact Ka.
      + apply IH1. intros b Hb. destruct (Nat.eq_dec b a) as [->|Hne]; auto.
        unfold keep, used_in. apply orb_true_intro. right. apply existsb_exists. exists r. split; auto.
        apply andb_true_intro. split.
        * rewrite Hl. apply negb_true_iff. apply Nat.eqb_neq. auto.
        * apply existsb_exists. exists (NT b). split; auto. simpl. apply Nat.eqb_refl.
      + apply IH2. intros b Hb. apply Hk. right; auto.
  Qed.

  Lemma filter_derives (f : rule -> bool) ss w :
    derives (filter f G) nat Nat.eqb ss w -> derives G nat Nat.eqb ss w.
  Proof.
    induction 1; try (constructor; auto; fail).
    apply (d_nt G nat Nat.eqb a r); auto. apply filter_In in H. tauto.
  Qed.

  Lemma prune_step w : derives G nat Nat.eqb [NT 0] w <-> derives G' nat Nat.eqb [NT 0] w.
  Proof.
    split.
    - intros H. apply prune_step_derives; auto. intros a [Ha|[]]. inversion Ha; subst. reflexivity.
    - apply filter_derives.
  Qed.
End Prune.

Lemma prune_language fuel : forall G w,
  derives (prune fuel G) nat Nat.eqb [NT 0] w <-> derives G nat Nat.eqb [NT 0] w.
Proof.
  induction fuel as [|f IH]; intros G w; simpl; [tauto|].
  destruct (Nat.eqb _ _); [tauto|]. rewrite IH. symmetry. apply prune_step.
Qed.

Theorem compile_pruned_preserves_language e G :
  compile_pruned e = Ok G -> forall w, derives G nat Nat.eqb [NT 0] w <-> eden e w.
Proof.
  unfold compile_pruned. intros H. apply rbind_ok in H. destruct H as (G0 & H0 & H). inversion H; subst.
  intros w. rewrite prune_language. apply compile_preserves_language; auto.
Qed.
