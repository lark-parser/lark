(* The hand-written, grouped PropagatePositions model (Pos/MetaSpan.propagate, the one all C06 / C13 / C15
   theorems are about) IS the regenerated attribute-wise one (Pos/PropPosModel.rpropagate over Gen/PropPos.v). *)
From Coq Require Import ZArith List Bool Lia.
From LV Require Import Pos.RawMeta Gen.PropPos Pos.MetaSpan Pos.PropPosModel Pos.MetaSpan_proofs.
Import ListNotations.

Definition all_kept (_ : rchild) : bool := true.

Lemma alias_safe : pp_alias_safe = true.
Proof. reflexivity. Qed.

(* Meta() starts empty and without any position attribute; the annotated list names the six own fields *)
Lemma meta_new_is_empty : raw_meta empty_meta = rmeta_new meta_init_empty.
Proof. reflexivity. Qed.

Lemma rfirst_view l :
  rfirst all_kept (map raw_shaped l) = option_map raw_meta (first_view l).
Proof.
  induction l as [|c r IH]; [reflexivity|].
  cbn [map rfirst first_view all_kept negb]. destruct c as [s e|m|]; cbn [raw_shaped view].
  - reflexivity.
  - unfold pp_tree_offers. cbn [raw_meta r_empty]. destruct (m_empty m); cbn [negb]; [exact IH|reflexivity].
  - exact IH.
Qed.

(* each half of __call__ against its regenerated statements; the source has the end that is read eagerly *)
Lemma first_half_regenerated m f : m_start f <> None ->
  run_half pp_first_probe pp_first_own pp_first_marks pp_first_cont (Some (raw_meta f)) (raw_meta m) =
  Some (raw_meta (widen_start m f)).
Proof.
  intros H. destruct f as [[fs|] fe fcs fce]; [|contradiction H; reflexivity].
  destruct fcs, m as [[ms|] me mcs mce]; reflexivity.
Qed.

Lemma last_half_regenerated m l : m_end l <> None ->
  run_half pp_last_probe pp_last_own pp_last_marks pp_last_cont (Some (raw_meta l)) (raw_meta m) =
  Some (raw_meta (widen_end m l)).
Proof.
  intros H. destruct l as [ls [le|] lcs lce]; [|contradiction H; reflexivity].
  destruct lce, m as [[ms|] [me|] mcs mce]; reflexivity.
Qed.

(* MetaSpan.propagate is the regenerated PropagatePositions body: same twelve attributes, same [empty] flag,
   and no AttributeError, whenever every non-empty child meta has both ends *)
Theorem propagate_regenerated m ch :
  Forall full_shaped ch ->
  rpropagate all_kept (raw_meta m) (map raw_shaped ch) = Some (raw_meta (propagate m ch)).
Proof.
  intros Hf. unfold rpropagate. rewrite propagate_halves, <- map_rev, !rfirst_view.
  pose proof (first_view_full ch) as F. pose proof (first_view_full (rev ch)) as L.
  specialize (fun f => F f Hf). specialize (fun f => L f (Forall_rev Hf)).
  assert (E1 : run_half pp_first_probe pp_first_own pp_first_marks pp_first_cont
                 (option_map raw_meta (first_view ch)) (raw_meta m) =
               Some (raw_meta (half widen_start m (first_view ch)))).
  { destruct (first_view ch) as [f|]; [|reflexivity]. apply first_half_regenerated, (F f eq_refl). }
  rewrite E1. destruct (first_view (rev ch)) as [l|]; [|reflexivity].
  apply last_half_regenerated, (L l eq_refl).
Qed.

(* when the trees no recorded callback produced have full metas, every meta the callbacks build is full
   (MetaSpan_proofs.propagate_full), so the eager getattr defaults never raise *)
Fixpoint leaves_full (p : ptree) : Prop :=
  match p with
  | PLeaf m => full_meta m
  | PNode _ _ cs => (fix go (l : list ptree) : Prop := match l with [] => True | x :: r => leaves_full x /\ go r end) cs
  | _ => True
  end.

Lemma leaves_full_node sel o cs : leaves_full (PNode sel o cs) <-> Forall leaves_full cs.
Proof.
  cbn [leaves_full]. induction cs as [|c r IH]; [split; auto|].
  split.
  - intros (H1 & H2). constructor; [exact H1|apply IH, H2].
  - intros H. inversion H; subst. split; [assumption|apply IH; assumption].
Qed.

Theorem build_full p : leaves_full p -> full_shaped (build p).
Proof.
  induction p as [se|m| |sel o cs IH] using ptree_ind'; intros H; try exact I; [exact H|].
  apply leaves_full_node in H.
  assert (Hch : Forall full_shaped (map build cs)).
  { apply Forall_map. rewrite Forall_forall in *. auto. }
  cbn [build].
  assert (Hres : full_shaped (match sel with Some k => nth k (map build cs) SHNone | None => SHTree empty_meta end)).
  { destruct sel as [k|]; [|cbn; intros E; discriminate].
    destruct (Nat.lt_ge_cases k (length (map build cs))) as [Hk|Hk].
    - rewrite Forall_forall in Hch. apply Hch, nth_In, Hk.
    - rewrite nth_overflow by exact Hk. exact I. }
  destruct (match sel with Some k => nth k (map build cs) SHNone | None => SHTree empty_meta end) as [s e|m|];
    try exact I.
  cbn [full_shaped]. apply propagate_full; assumption.
Qed.

(* hence every PropagatePositions call of a callback tree runs the regenerated code without AttributeError
   and writes what the grouped model says *)
Corollary build_node_regenerated sel o cs m :
  leaves_full (PNode sel o cs) ->
  (match sel with Some k => nth k (map build cs) SHNone | None => SHTree empty_meta end) = SHTree m ->
  rpropagate all_kept (raw_meta m) (map raw_shaped (map build cs)) = Some (raw_meta (propagate m (map build cs))) /\
  build (PNode sel o cs) = SHTree (propagate m (map build cs)).
Proof.
  intros H E. apply leaves_full_node in H. split.
  - apply propagate_regenerated, Forall_map. eapply Forall_impl; [|exact H]. exact build_full.
  - cbn [build]. rewrite E. reflexivity.
Qed.
