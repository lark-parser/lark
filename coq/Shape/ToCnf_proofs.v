(* to_cnf = unit_loop (bin_step (term_step (init rules))) produces exactly the characterised rules:
   to_cnf fuel rules = Ok g -> unit_closure_spec rules g, and the rules of g are CNF-shaped when no
   rule of G is empty. *)
From Coq Require Import String Ascii List Bool Arith Lia.
From LV Require Import Base.Prelude Shape.Chain Shape.Spec Shape.Cnf Shape.CnfLink Shape.CykParse_proofs
  Shape.Cnf_proofs Shape.CnfLink_proofs Shape.CnfClosure_proofs.
Import ListNotations.

Lemma In_dedup x l : In x (dedup l) <-> In x l.
Proof.
  induction l as [|y l IH]; simpl; [tauto|].
  destruct (existsb (crule_eqb y) l) eqn:E.
  - rewrite IH. split; auto. intros [->|H]; auto. apply existsb_crule. exact E.
  - simpl. rewrite IH. tauto.
Qed.

(* _remove_unit_rule as a set: the other rules, and the unit rule merged into every rule of its target *)
Lemma in_remove_unit g u b r : c_rhs u = [CN b] ->
  In r (remove_unit g u) <->
  (In r g /\ crule_eqb r u = false) \/ exists t, In t g /\ c_lhs t = b /\ r = build_skip u t.
Proof.
  intros E. unfold remove_unit. rewrite E, In_dedup, in_app_iff, filter_In, negb_true_iff, in_map_iff.
  apply or_iff_compat_l. split.
  - intros (t & <- & H). apply filter_In in H. destruct H as [H1 H2]. apply cnt_eqb_eq in H2. eauto.
  - intros (t & H1 & <- & ->). exists t. split; [reflexivity|]. apply filter_In. split; [exact H1|apply cnt_eqb_refl].
Qed.

Section ToCnf.
  Variable rules : list rrec.
  Notation n := (length rules).
  Notation exp_of := (exp_of rules).
  Notation tf_of := (tf_of rules).
  Notation e_of := (e_of rules).
  Notation head_rhs := (head_rhs rules).
  Notation origin := (origin rules).
  Notation chain := (chain rules).
  Notation canon := (canon rules).

  (* partial chains: the last rule may still be a unit rule *)
  Inductive pchain : nat -> list (cnt * calias) -> nat -> Prop :=
  | pchain_nil rid : rid < n -> pchain rid [] rid
  | pchain_cons rid r1 sk f : rid < n -> exp_of rid = [CN (NOrig (origin r1))] -> pchain r1 sk f ->
      pchain rid ((NOrig (origin r1), ARule r1) :: sk) f.

  Definition phead (r0 : nat) (sk : list (cnt * calias)) (rk : nat) : crule :=
    mkC (NOrig (origin r0)) (head_rhs rk) (ARule r0) sk.

  Definition is_term_rule (r : crule) : Prop :=
    exists rid t, rid < n /\ tf_of rid = true /\ In (CT t) (exp_of rid) /\ r = term_rule t.
  Definition is_split_rule (r : crule) : Prop :=
    exists rid, rid < n /\ 3 <= length (e_of rid) /\ In r (split_tail rid 1 (tl (e_of rid))).

  Definition inv (g : list crule) : Prop :=
    (forall r, In r g -> is_term_rule r \/ is_split_rule r \/ exists r0 sk rk, pchain r0 sk rk /\ r = phead r0 sk rk) /\
    (forall r, is_term_rule r \/ is_split_rule r -> In r g) /\
    (forall r0 sk rk, chain r0 sk rk ->
       exists sk1 rj sk2, sk = sk1 ++ sk2 /\ pchain r0 sk1 rj /\ chain rj sk2 rk /\ In (phead r0 sk1 rj) g).

  Lemma pchain_app r0 sk1 rj s0 sk2 rm :
    pchain r0 sk1 rj -> exp_of rj = [CN (NOrig (origin s0))] -> pchain s0 sk2 rm ->
    pchain r0 (sk1 ++ (NOrig (origin s0), ARule s0) :: sk2) rm.
  Proof. induction 1; intros He Hp; simpl; constructor; auto. Qed.

  Lemma split_tail_rhs2 rid : forall l i r, In r (split_tail rid i l) -> exists a b, c_rhs r = [a; b].
  Proof.
    induction l as [|a l IH]; intros i r H; [destruct H|].
    destruct l as [|b [|c l2]]; [| |rewrite split_tail_3 in H];
      (destruct H as [<-|H]; [simpl; eauto|]); try destruct H.
    apply (IH (S i)). exact H.
  Qed.

  Lemma head_rhs_unit rid b : head_rhs rid = [CN b] -> exists b', b = NOrig b' /\ exp_of rid = [CN (NOrig b')].
  Proof.
    unfold CnfLink.head_rhs, CnfLink.e_of, CnfLink.tf_of, needs_term.
    destruct (exp_of rid) as [|x [|y l]] eqn:Ee; simpl.
    - discriminate.
    - intros H. injection H as Hx. subst x. unfold CnfLink.exp_of in Ee.
      destruct (r_exp (rule_n rules rid)) as [|s [|s2 l2]]; simpl in Ee; try discriminate.
      injection Ee as Ee. unfold of_sym in Ee. destruct (s_term s); [discriminate|]. injection Ee as <-. eauto.
    - destruct (is_ct x || (is_ct y || existsb is_ct l)); destruct l; simpl; intros H; discriminate.
  Qed.

  Lemma unit_head_rhs rid b : exp_of rid = [CN (NOrig b)] -> head_rhs rid = [CN (NOrig b)].
  Proof. intros E. unfold CnfLink.head_rhs, CnfLink.e_of, CnfLink.tf_of, needs_term. rewrite E. reflexivity. Qed.

  Lemma remove_unit_inv g u : inv g -> In u g -> is_unit u = true -> inv (remove_unit g u).
  Proof.
    intros (HS & HC1 & HC2) Hu Hun. unfold is_unit in Hun.
    destruct (c_rhs u) as [|[t|b] [|s l]] eqn:Er; try discriminate.
    assert (Hup : exists r0 sk1 rj b', pchain r0 sk1 rj /\ u = phead r0 sk1 rj /\ b = NOrig b' /\ exp_of rj = [CN (NOrig b')]).
    { destruct (HS u Hu) as [(rid & t & _ & _ & _ & ->)|[(rid & _ & _ & Hin)|(r0 & sk1 & rj & Hp & ->)]].
      - simpl in Er. discriminate.
      - apply split_tail_rhs2 in Hin. destruct Hin as (a & b0 & E). rewrite E in Er. discriminate.
      - simpl in Er. destruct (head_rhs_unit rj b Er) as (b' & -> & He). eauto 10. }
    destruct Hup as (r0 & sk1 & rj & b' & Hp & -> & -> & Hej).
    pose proof (fun r => in_remove_unit g _ _ r Er) as Hnew.
    split; [|split].
    - intros r Hr. apply Hnew in Hr. destruct Hr as [[Hr _]|(t & Ht & Hl & ->)]; [apply HS; exact Hr|].
      destruct (HS t Ht) as [(rid & t0 & _ & _ & _ & ->)|[(rid & _ & _ & Hin)|(s0 & sk3 & rm & Hp3 & ->)]].
      + discriminate.
      + apply split_tail_lhs in Hin. destruct Hin as (j & _ & E). congruence.
      + right. right. injection Hl as Hl.
        exists r0, (sk1 ++ (NOrig (origin s0), ARule s0) :: sk3), rm. split; [|reflexivity].
        apply (pchain_app r0 sk1 rj s0 sk3 rm); auto. rewrite Hej, Hl. reflexivity.
    - intros r Hr. apply Hnew. left. split; [apply HC1; exact Hr|].
      destruct (crule_eqb r (phead r0 sk1 rj)) eqn:E; auto. apply crule_eqb_eq in E. subst r.
      destruct Hr as [(rid & t & _ & _ & _ & E)|(rid & _ & _ & Hin)].
      + discriminate.
      + apply split_tail_lhs in Hin. destruct Hin as (j & _ & E). discriminate.
    - intros q0 sk qk Hch. destruct (HC2 q0 sk qk Hch) as (ska & qj & skb & -> & Hpa & Hcb & Hin).
      destruct (crule_eqb (phead q0 ska qj) (phead r0 sk1 rj)) eqn:E.
      + (* the chain's rule in g is the removed unit rule: it is merged into the next rule of the chain *)
        apply crule_eqb_eq in E. unfold phead in E. injection E as Eo Eh Eq Esk. subst ska.
        assert (Hej' : exp_of qj = [CN (NOrig b')]).
        { rewrite (unit_head_rhs rj b' Hej) in Eh. destruct (head_rhs_unit qj (NOrig b') Eh) as (b2 & Eb & He).
          injection Eb as <-. exact He. }
        inversion Hcb as [? ? Hnu|? s0 skb' ? ? He Hc']; subst; [exfalso; apply (Hnu b'); exact Hej'|].
        rewrite Hej' in He. injection He as Hb.
        destruct (HC2 s0 skb' qk Hc') as (sk3 & rm & sk4 & -> & Hp3 & Hc4 & Hin3).
        exists (sk1 ++ (NOrig (origin s0), ARule s0) :: sk3), rm, sk4. split; [|split; [|split]].
        * rewrite <- app_assoc. reflexivity.
        * apply (pchain_app r0 sk1 qj s0 sk3 rm); auto. rewrite Hej', Hb. reflexivity.
        * exact Hc4.
        * apply Hnew. right. exists (phead s0 sk3 rm). split; [exact Hin3|]. split; [simpl; congruence|reflexivity].
      + exists ska, qj, skb. repeat split; auto. apply Hnew. auto.
  Qed.

  Lemma unit_loop_inv : forall fuel g g', inv g -> unit_loop fuel g = Ok g' ->
    inv g' /\ forall r, In r g' -> is_unit r = false.
  Proof.
    induction fuel as [|f IH]; intros g g' Hi H; simpl in H.
    - destruct (find is_unit g) eqn:Ef; [discriminate|]. injection H as <-. split; auto.
      intros r Hr. apply (find_none _ _ Ef). exact Hr.
    - destruct (find is_unit g) as [u|] eqn:Ef.
      + apply find_some in Ef. destruct Ef as [Hu Hun]. apply (IH _ _ (remove_unit_inv g u Hi Hu Hun) H).
      + injection H as <-. split; auto. intros r Hr. apply (find_none _ _ Ef). exact Hr.
  Qed.

  Lemma inv_exit g : inv g -> (forall r, In r g -> is_unit r = false) -> unit_closure_spec rules g.
  Proof.
    intros (HS & HC1 & HC2) Hnu. split.
    - intros r Hr. destruct (HS r Hr) as [(rid & t & H1 & H2 & H3 & ->)|[(rid & H1 & H2 & H3)|(r0 & sk & rk & Hp & ->)]].
      + apply (canon_term rules rid t); auto.
      + apply (canon_split rules rid); auto.
      + apply canon_head. specialize (Hnu _ Hr). unfold is_unit, phead in Hnu. cbn [c_rhs] in Hnu.
        clear Hr. induction Hp as [rid Hlt|rid r1 sk f Hlt He Hp IHp].
        * constructor; auto. intros b Hb. rewrite (unit_head_rhs rid b Hb) in Hnu. discriminate.
        * constructor; auto.
    - intros r Hc. destruct Hc as [rid t H1 H2 H3|rid r H1 H2 H3|r0 sk rk Hch].
      + apply HC1. left. exists rid, t. auto.
      + apply HC1. right. exists rid. auto.
      + destruct (HC2 r0 sk rk Hch) as (sk1 & rj & sk2 & -> & Hp & Hc2 & Hin).
        pose proof (Hnu _ Hin) as Hn. unfold is_unit, phead in Hn. cbn [c_rhs] in Hn.
        inversion Hc2 as [? ? Hnu2|? s0 sk' ? ? He Hc']; subst.
        * rewrite app_nil_r. exact Hin.
        * rewrite (unit_head_rhs rj _ He) in Hn. discriminate.
  Qed.

  Definition R0 (rid : nat) : crule := mkC (NOrig (origin rid)) (exp_of rid) (ARule rid) [].
  Definition R1 (rid : nat) : crule := mkC (NOrig (origin rid)) (e_of rid) (ARule rid) [].

  Lemma in_init_from : forall rs i r,
    In r (init_from i rs) <->
    exists k rr, nth_error rs k = Some rr /\ r = mkC (NOrig (r_origin rr)) (map of_sym (r_exp rr)) (ARule (i + k)) [].
  Proof.
    induction rs as [|x rs IH]; intros i r; simpl.
    - split; [tauto|]. intros (k & rr & H & _). destruct k; discriminate.
    - rewrite IH. split.
      + intros [<-|(k & rr & H & ->)]; [exists 0, x; rewrite Nat.add_0_r; auto|].
        exists (S k), rr. split; auto. f_equal. f_equal. lia.
      + intros ([|k] & rr & H & ->); simpl in H.
        * injection H as ->. left. rewrite Nat.add_0_r. reflexivity.
        * right. exists k, rr. split; auto. f_equal. f_equal. lia.
  Qed.

  Lemma in_init r : In r (init_from 0 rules) <-> exists rid, rid < n /\ r = R0 rid.
  Proof.
    rewrite in_init_from. split.
    - intros (k & rr & H & ->). exists k. split; [apply nth_error_Some; congruence|].
      unfold R0, CnfLink.origin, CnfLink.exp_of, rule_n. rewrite (nth_error_nth _ _ _ H). reflexivity.
    - intros (rid & Hlt & ->). destruct (nth_error rules rid) as [rr|] eqn:E; [|apply nth_error_None in E; lia].
      exists rid, rr. split; auto. unfold R0, CnfLink.origin, CnfLink.exp_of, rule_n. rewrite (nth_error_nth _ _ _ E). reflexivity.
  Qed.

  Lemma in_term_step r :
    In r (term_step (init_from 0 rules)) <->
    (exists rid, rid < n /\ r = R1 rid) \/ (exists rid t, rid < n /\ tf_of rid = true /\ In (CT t) (exp_of rid) /\ r = term_rule t).
  Proof.
    unfold term_step. rewrite In_dedup, in_flat_map. split.
    - intros (r' & Hr' & H). apply in_init in Hr'. destruct Hr' as (rid & Hlt & ->). cbn [R0 c_rhs c_lhs c_alias c_skipped] in H.
      fold (tf_of rid) in H. destruct (tf_of rid) eqn:Et.
      + destruct H as [<-|H].
        * left. exists rid. split; auto. unfold R1, CnfLink.e_of. rewrite Et. reflexivity.
        * right. apply in_map_iff in H. destruct H as (t & <- & Ht). apply in_terms_of in Ht. exists rid, t. auto.
      + destruct H as [<-|[]]. left. exists rid. split; auto. unfold R1, R0, CnfLink.e_of. rewrite Et. reflexivity.
    - intros [(rid & Hlt & ->)|(rid & t & Hlt & Et & Hin & ->)]; exists (R0 rid); (split; [apply in_init; eauto|]);
        cbn [R0 c_rhs c_lhs c_alias c_skipped]; fold (tf_of rid).
      + unfold R1, CnfLink.e_of. destruct (tf_of rid); simpl; auto.
      + rewrite Et. right. apply in_map. apply in_terms_of. exact Hin.
  Qed.

  Lemma bin_of_R1 rid :
    (if Nat.ltb 2 (length (c_rhs (R1 rid))) then split (R1 rid) else [R1 rid]) =
    phead rid [] rid :: (if Nat.leb 3 (length (e_of rid)) then split_tail rid 1 (tl (e_of rid)) else []).
  Proof.
    unfold R1, phead, split, CnfLink.head_rhs. cbn [c_rhs c_lhs c_alias alias_rid].
    destruct (e_of rid) as [|x0 [|x1 [|x2 l]]]; reflexivity.
  Qed.

  Lemma in_g0 r :
    In r (bin_step (term_step (init_from 0 rules))) <->
    (exists rid, rid < n /\ r = phead rid [] rid) \/ is_term_rule r \/ is_split_rule r.
  Proof.
    unfold bin_step. rewrite In_dedup, in_flat_map. split.
    - intros (r' & Hr' & H). apply in_term_step in Hr'. destruct Hr' as [(rid & Hlt & ->)|(rid & t & Hlt & Et & Hin & ->)].
      + rewrite bin_of_R1 in H. destruct H as [<-|H]; [left; eauto|].
        destruct (Nat.leb 3 (length (e_of rid))) eqn:E3; [|destruct H]. apply Nat.leb_le in E3.
        right. right. exists rid. auto.
      + simpl in H. destruct H as [<-|[]]. right. left. exists rid, t. auto.
    - intros [(rid & Hlt & ->)|[(rid & t & Hlt & Et & Hin & ->)|(rid & Hlt & H3 & Hin)]].
      + exists (R1 rid). split; [apply in_term_step; left; eauto|]. rewrite bin_of_R1. left. reflexivity.
      + exists (term_rule t). split; [apply in_term_step; right; eauto 8|]. simpl. auto.
      + exists (R1 rid). split; [apply in_term_step; left; eauto|]. rewrite bin_of_R1. right.
        apply Nat.leb_le in H3. rewrite H3. exact Hin.
  Qed.

  Lemma inv_g0 : inv (bin_step (term_step (init_from 0 rules))).
  Proof.
    split; [|split].
    - intros r Hr. apply in_g0 in Hr. destruct Hr as [(rid & Hlt & ->)|[H|H]]; auto.
      right. right. exists rid, [], rid. split; [constructor; auto|reflexivity].
    - intros r Hr. apply in_g0. auto.
    - intros r0 sk rk Hch. exists [], r0, sk. split; [reflexivity|]. pose proof (chain_lt rules _ _ _ Hch) as Hlt.
      split; [constructor; auto|]. split; auto. apply in_g0. left. eauto.
  Qed.

  Theorem to_cnf_closure fuel g : to_cnf fuel rules = Ok g -> unit_closure_spec rules g.
  Proof.
    unfold to_cnf. intros H. destruct (unit_loop_inv fuel _ g inv_g0 H) as [Hi Hnu]. apply inv_exit; auto.
  Qed.

  Definition is_cn (s : csym) : bool := match s with CN _ => true | CT _ => false end.

  Lemma e_of_all_cn rid : 2 <= length (e_of rid) -> forallb is_cn (e_of rid) = true.
  Proof.
    unfold CnfLink.e_of, CnfLink.tf_of, needs_term. intros H2.
    destruct (Nat.ltb 1 (length (exp_of rid))) eqn:El.
    - simpl. destruct (existsb is_ct (exp_of rid)) eqn:Ec.
      + clear. induction (exp_of rid) as [|[t|x] l IH]; simpl; auto.
      + clear -Ec. induction (exp_of rid) as [|[t|x] l IH]; simpl in *; auto; discriminate.
    - simpl in H2. apply Nat.ltb_ge in El. lia.
  Qed.

  Lemma split_tail_shape rid : forall l, 2 <= length l -> forall i r,
    forallb is_cn l = true -> In r (split_tail rid i l) -> cnf_shape r = true.
  Proof.
    apply (list2_ind (fun l => forall i r, forallb is_cn l = true -> In r (split_tail rid i l) -> cnf_shape r = true)).
    - intros [|a] [|b] i r Hc [<-|[]]; try discriminate. reflexivity.
    - intros a b c l IH i r Hc H. rewrite split_tail_3 in H. simpl in Hc. apply andb_true_iff in Hc. destruct Hc as [Ha Hc].
      destruct H as [<-|H]; [destruct a; [discriminate|reflexivity]|]. apply (IH (S i)); auto.
  Qed.

  Theorem canon_cnf_shape r : (forall rid, rid < n -> exp_of rid <> []) -> canon r -> cnf_shape r = true.
  Proof.
    intros Hne Hc. destruct Hc as [rid t _ _ _|rid r Hlt H3 Hin|r0 sk rk Hch].
    - reflexivity.
    - pose proof (e_of_all_cn rid ltac:(lia)) as Hall. destruct (e_of rid) as [|x0 rest] eqn:Ee; [simpl in H3; lia|].
      simpl in Hall. apply andb_true_iff in Hall. destruct Hall as [_ Hall]. simpl in Hin, H3.
      apply (split_tail_shape rid rest ltac:(lia) 1 r Hall Hin).
    - destruct (chain_final rules _ _ _ Hch) as [Hlt Hnu]. unfold cnf_shape. cbn [c_rhs]. unfold CnfLink.head_rhs.
      destruct (e_of rk) as [|x0 [|x1 [|x2 l]]] eqn:Ee.
      + exfalso. apply (Hne rk Hlt). unfold CnfLink.e_of in Ee. destruct (tf_of rk); [|exact Ee].
        destruct (exp_of rk); [reflexivity|discriminate].
      + destruct x0 as [t|b]; auto. exfalso.
        destruct (head_rhs_unit rk b) as (b' & _ & He); [unfold CnfLink.head_rhs; rewrite Ee; reflexivity|].
        exact (Hnu _ He).
      + pose proof (e_of_all_cn rk ltac:(rewrite Ee; simpl; lia)) as Hall. rewrite Ee in Hall. simpl in Hall.
        destruct x0, x1; simpl in Hall; try discriminate. reflexivity.
      + pose proof (e_of_all_cn rk ltac:(rewrite Ee; simpl; lia)) as Hall. rewrite Ee in Hall. simpl in Hall.
        destruct x0; simpl in Hall; try discriminate. reflexivity.
  Qed.

  Theorem to_cnf_shape fuel g : to_cnf fuel rules = Ok g -> (forall rid, rid < n -> exp_of rid <> []) ->
    forall r, In r g -> cnf_shape r = true.
  Proof. intros H Hne r Hr. apply canon_cnf_shape; auto. apply (proj1 (to_cnf_closure fuel g H)). exact Hr. Qed.
End ToCnf.
