(* C13 - the heap driver simulates the driver on immutable trees as long as no child list
   is shared (which deep copies guarantee); control never depends on values. *)
From Coq Require Import List Arith Bool Lia ZArith.
From LV Require Pos.MetaSpan.
From LV Require Import Inst.ListFacts Inter.Heap Inter.IDriver Inter.Heap_proofs.
Import ListNotations.

Definition sub (F' F : list loc) (n : nat) : Prop := forall l, In l F' -> In l F \/ n <= l.
Definition frame (H H' : heap) (F : list loc) : Prop :=
  length H <= length H' /\ forall l, l < length H -> ~ In l F -> nth_error H' l = nth_error H l.

Lemma sub_refl F n : sub F F n.
Proof. intros l; auto. Qed.
Lemma frame_refl H F : frame H H F.
Proof. split; auto. Qed.
Lemma sub_trans F'' F' F n n' : sub F'' F' n' -> sub F' F n -> n <= n' -> sub F'' F n.
Proof. intros h1 h2 hn l hl. destruct (h1 l hl) as [h|h]; [auto|right; lia]. Qed.
Lemma frame_trans H H1 H2 F F1 :
  frame H H1 F -> frame H1 H2 F1 -> sub F1 F (length H) -> frame H H2 F.
Proof.
  intros [l1 f1] [l2 f2] hs. split; [lia|]. intros l hl hn.
  rewrite f2, f1; auto; [lia|]. intros hi. destruct (hs l hi); [auto|lia].
Qed.
Lemma frame_weaken H H' F G : frame H H' F -> incl F G -> frame H H' G.
Proof. intros [a b] h. split; auto. Qed.
Lemma frame_app H ext F : frame H (H ++ ext) F.
Proof. split; [rewrite app_length; lia|]. intros. apply nth_error_app1; auto. Qed.
Lemma frame_hset H l c : frame H (hset H l c) [l].
Proof.
  split; [rewrite hset_length; auto|]. intros x _ hx. apply hset_other. intros ->. apply hx. left; auto.
Qed.

Lemma own_framed H t v f H' F : own H t v f -> frame H H' F -> disjoint f F -> own H' t v f.
Proof.
  intros ho [_ hf] hd. apply (own_frame _ _ _ _ ho). intros l hl.
  apply hf; [eapply own_bound; eauto|]. intros hx. exact (hd l hl hx).
Qed.
Lemma owns_framed H ts vs f H' F : owns H ts vs f -> frame H H' F -> disjoint f F -> owns H' ts vs f.
Proof.
  intros ho [_ hf] hd. apply (owns_frame _ _ _ _ ho). intros l hl.
  apply hf; [eapply owns_bound; eauto|]. intros hx. exact (hd l hl hx).
Qed.

Lemma disjoint_sub F0 Fa f n :
  disjoint F0 Fa -> (forall l, In l F0 -> l < n) -> sub f Fa n -> disjoint F0 f.
Proof. intros hd hb hs l h0 hf. destruct (hs l hf) as [h|h]; [exact (hd l h0 h)|]. apply hb in h0. lia. Qed.

Definition within (H : heap) (F : list loc) (H' : heap) (F' : list loc) : Prop :=
  sub F' F (length H) /\ frame H H' F.

Lemma within_refl H F : within H F H F.
Proof. split; [apply sub_refl|apply frame_refl]. Qed.
Lemma within_trans H F H1 F1 H2 F2 : within H F H1 F1 -> within H1 F1 H2 F2 -> within H F H2 F2.
Proof.
  intros [s1 f1] [s2 f2]. split; [eapply sub_trans; eauto; apply f1|eapply frame_trans; eauto].
Qed.
Lemma within_frame H Fa H' f G g :
  within H Fa H' f -> incl Fa G -> (forall x, In x g -> In x f \/ In x G) -> within H G H' g.
Proof.
  intros [hs hf] hG hg. split; [|eapply frame_weaken; eauto].
  intros x hx. destruct (hg x hx) as [h|h]; [|auto]. destruct (hs x h); auto.
Qed.
Lemma within_frame_l F0 H Fa H' f : within H Fa H' f -> within H (F0 ++ Fa) H' (F0 ++ f).
Proof.
  intros W. apply (within_frame _ _ _ _ _ _ W); [apply incl_appr, incl_refl|].
  intros x hx. apply in_app_or in hx. destruct hx; [right; apply in_or_app|]; auto.
Qed.
Lemma within_frame_r F0 H Fa H' f : within H Fa H' f -> within H (Fa ++ F0) H' (f ++ F0).
Proof.
  intros W. apply (within_frame _ _ _ _ _ _ W); [apply incl_appl, incl_refl|].
  intros x hx. apply in_app_or in hx. destruct hx; [|right; apply in_or_app]; auto.
Qed.

Lemma owns_nones H n : owns H (repeat PNone n) (repeat VNone n) [].
Proof.
  induction n; simpl; [constructor|]. change (@nil loc) with (@nil loc ++ []).
  constructor; auto using disjoint_nil_l. constructor.
Qed.

Definition lown (H : heap) (ts : list ptree) (l : loc) (F : list loc) : Prop :=
  exists vs Fc, F = l :: Fc /\ nth_error H l = Some (CList vs) /\ owns H ts vs Fc /\ ~ In l Fc.

Lemma hext_hext H ts l F a b : lown H ts l F -> hext (hext H l a) l b = hext H l (a ++ b).
Proof.
  intros (vs & Fc & _ & hn & _). unfold hext. rewrite hn.
  rewrite hset_same by (eapply nth_error_lt; eauto). rewrite hset_hset, app_assoc. reflexivity.
Qed.

(* filtered += xs  on the list object l *)
Lemma lown_ext H l acc F xt xv Fx :
  lown H acc l F -> owns H xt xv Fx -> disjoint F Fx ->
  lown (hext H l xv) (acc ++ xt) l (F ++ Fx) /\ frame H (hext H l xv) F.
Proof.
  intros (cvs & Fc & -> & hn & ho & hni) hx hd. unfold hext. rewrite hn.
  pose proof (frame_hset H l (CList (cvs ++ xv))) as hfr.
  split; [|apply (frame_weaken _ _ _ _ hfr); intros x [<-|[]]; left; auto].
  apply disjoint_cons_l in hd. destruct hd as [hlx hd].
  exists (cvs ++ xv), (Fc ++ Fx). split; [reflexivity|].
  split; [apply hset_same; eapply nth_error_lt; eauto|]. split.
  - apply owns_app; auto; eapply owns_framed; eauto using disjoint_single_r.
  - intros hi. apply in_app_or in hi. destruct hi; auto.
Qed.

(* The filter loop, with G any region that holds the current list and the arguments: what `filtered`
   ends up bound to is a list object inside G that denotes what pfilter computes, and nothing outside
   G is written. *)
Lemma hfilter_sim G : forall args ds H cur acc F ats Fa,
  lown H acc cur F -> owns H ats args Fa -> disjoint F Fa -> incl F G -> incl Fa G ->
  exists F', lown (fst (hfilter H cur args ds)) (pfilter acc ats ds) (snd (hfilter H cur args ds)) F' /\
             incl F' G /\ frame H (fst (hfilter H cur args ds)) G.
Proof.
  induction args as [|c args IH]; intros ds H cur acc F ats Fa hl ha hd hF hA.
  { inversion ha; subst. exists F. simpl. auto using frame_refl. }
  inversion ha as [|t ats' c' args' f fs hoc hos hdf]; subst.
  destruct ds as [|d ds]; [exists F; simpl; auto using frame_refl|].
  apply disjoint_app_r in hd. destruct hd as [hd1 hd2].
  apply incl_app_inv in hA. destruct hA as [hf hfs].
  (* the rest of the loop, from any state reached by writing inside the current list *)
  assert (rest : forall H1 cur1 acc1 F1,
            frame H H1 F -> lown H1 acc1 cur1 F1 -> incl F1 G -> disjoint F1 fs ->
            exists F', lown (fst (hfilter H1 cur1 args ds)) (pfilter acc1 ats' ds) (snd (hfilter H1 cur1 args ds)) F' /\
                       incl F' G /\ frame H (fst (hfilter H1 cur1 args ds)) G).
  { intros H1 cur1 acc1 F1 fr1 hl1 hF1 hd1'.
    pose proof (owns_framed _ _ _ _ _ _ hos fr1 (disjoint_sym _ _ hd2)) as hos1.
    destruct (IH ds H1 cur1 acc1 F1 ats' fs hl1 hos1 hd1' hF1 hfs) as (F' & a & b & c0).
    exists F'. split; auto. split; auto. eapply frame_trans; eauto using sub_refl, frame_weaken. }
  destruct d as [|nn|nn]; simpl.
  - (* skip *)
    apply (rest H cur acc F); auto using frame_refl.
  - (* keep: one extension by the placeholders and the child *)
    rewrite (hext_hext _ _ _ _ _ _ hl).
    destruct (lown_ext H cur acc F (repeat PNone nn ++ [t]) _ f hl
                (owns_app _ _ _ _ (owns_nones H nn) _ _ _ (owns_one _ _ _ _ hoc) (disjoint_nil_l _)) hd1) as [hl1 fr1].
    apply (rest _ cur _ (F ++ f)); auto.
    + apply incl_app; auto.
    + apply disjoint_app_l; auto.
  - (* expand *)
    destruct (lown_ext H cur acc F _ _ [] hl (owns_nones H nn) (disjoint_nil_r _)) as [hl1 fr1].
    rewrite app_nil_r in hl1.
    set (H1 := hext H cur (repeat VNone nn)) in *.
    pose proof (own_framed _ _ _ _ _ _ hoc fr1 (disjoint_sym _ _ hd1)) as hoc1.
    inversion hoc1 as [a0 b0|hh|d0 lc mc lvs cmt cts fc hnl hml hcs hnc hmc hlm]; subst; simpl;
      [rewrite app_nil_r; apply (rest H1 cur _ F); auto ..|].
    (* a tree: its child list becomes `filtered` if that is still empty, else it is appended *)
    assert (hfc : incl (lc :: fc) (lc :: mc :: fc)) by (intros x [<-|hx]; simpl; auto).
    pose proof hl1 as (vs1 & Fc & -> & hn1 & ho1 & hni1).
    rewrite (hget_nth _ _ _ hn1). destruct vs1 as [|v1 vs1].
    + assert (hacc : acc ++ repeat PNone nn = []).
      { apply owns_length in ho1. destruct (acc ++ repeat PNone nn); [auto|discriminate]. }
      rewrite app_assoc, hacc. simpl.
      apply (rest H1 lc cts (lc :: fc)); auto.
      * exists lvs, fc. auto.
      * intros x hx. apply hf, hfc, hx.
      * intros x hx. apply hdf, hfc, hx.
    + rewrite (hget_nth _ _ _ hnl).
      destruct (lown_ext H1 cur _ _ cts lvs fc hl1 hcs) as [hl2 fr2].
      { intros x h1 h2. apply (hd1 x h1). right; right; exact h2. }
      rewrite app_assoc. apply (rest _ cur _ ((cur :: Fc) ++ fc)); auto.
      * exact (frame_trans _ _ _ _ _ fr1 fr2 (sub_refl _ _)).
      * apply incl_app; auto. intros x hx. apply hf. right; right; exact hx.
      * apply disjoint_app_l. split; auto. intros x hx. apply hdf. right; right; exact hx.
Qed.

(* node_builder never writes a Meta object *)
Lemma hext_meta H l vs m mt :
  nth_error H m = Some (CMeta mt) -> nth_error (hext H l vs) m = Some (CMeta mt).
Proof.
  intros h. unfold hext. destruct (nth_error H l) as [[old| |]|] eqn:E; auto.
  rewrite hset_other; auto. intros ->. congruence.
Qed.

Lemma hfilter_meta : forall args ds H cur m mt,
  nth_error H m = Some (CMeta mt) -> nth_error (fst (hfilter H cur args ds)) m = Some (CMeta mt).
Proof.
  induction args as [|c args IH]; intros ds H cur m mt h; simpl; auto.
  destruct ds as [|d ds]; simpl; auto.
  destruct d as [|nn|nn]; auto.
  - apply IH. repeat apply hext_meta. auto.
  - destruct c; try (apply IH; apply hext_meta; auto).
    destruct (hget (hext H cur (repeat VNone nn)) cur); apply IH; repeat apply hext_meta; auto.
Qed.

Lemma app_keeps (H ext : heap) m x : nth_error H m = Some x -> nth_error (H ++ ext) m = Some x.
Proof. intros h. rewrite nth_error_app1; auto. eapply nth_error_lt; eauto. Qed.

Lemma hbuild_keeps sh H l m x : nth_error H m = Some x -> nth_error (fst (hbuild sh H l)) m = Some x.
Proof.
  intros h. unfold hbuild. destruct (hget H l) as [|v [|]]; try destruct (cb_expand1 sh); simpl; auto using app_keeps.
Qed.

(* ExpandSingleChild . Tree *)
Lemma hbuild_sim sh H l acc F :
  lown H acc l F ->
  exists f, own (fst (hbuild sh H l)) (pbuild sh acc) (snd (hbuild sh H l)) f /\
            within H F (fst (hbuild sh H l)) f.
Proof.
  intros (cvs & Fc & -> & hn & ho & hni). unfold hbuild, pbuild. rewrite (hget_nth _ _ _ hn).
  (* a new Tree around the list object, with a new Meta *)
  assert (hnode : exists f, own (H ++ [CMeta empty_meta]) (PNode (cb_data sh) empty_meta acc)
                                (VTree (cb_data sh) l (length H)) f /\
                            within H (l :: Fc) (H ++ [CMeta empty_meta]) f).
  { exists (l :: length H :: Fc). split; [|split; [|apply frame_app]].
    - apply own_node with (vs := cvs).
      + apply app_keeps; auto.
      + rewrite nth_error_app2, Nat.sub_diag; auto.
      + apply owns_extend; auto.
      + auto.
      + intros hi. apply (owns_bound _ _ _ _ ho) in hi. lia.
      + apply nth_error_lt in hn. lia.
    - intros x [<-|[<-|hx]]; simpl; auto. }
  inversion ho as [|t ts v vs f fs h1 h2 h3]; subst; auto.
  inversion h2; subst; auto.
  destruct (cb_expand1 sh); auto.
  (* the only child itself *)
  exists f. split; [exact h1|]. rewrite app_nil_r. split; [|apply frame_refl].
  intros x hx. left. right. exact hx.
Qed.

(* ChildFilterLALR . ExpandSingleChild . Tree: the result denotes what the chain computes on immutable
   trees, reaches only locations of its arguments or new ones, writes only inside its arguments,
   and leaves every Meta object as it was *)
Lemma hcb_inner_sim sh H args ats Fa :
  owns H ats args Fa ->
  exists f, own (fst (hcb_inner sh H args)) (pcb_inner sh ats) (snd (hcb_inner sh H args)) f /\
            within H Fa (fst (hcb_inner sh H args)) f /\
            (forall m mt, nth_error H m = Some (CMeta mt) ->
                          nth_error (fst (hcb_inner sh H args)) m = Some (CMeta mt)).
Proof.
  intros ha. unfold hcb_inner, pcb_inner, halloc.
  (* the new list object, at l0, makes the region l0 :: Fa *)
  set (l0 := length H).
  assert (W0 : forall c, within H Fa (H ++ [c]) (l0 :: Fa)).
  { split; [|apply frame_app]. intros x [<-|hx]; auto. }
  assert (hn0 : forall vs, nth_error (H ++ [CList vs]) l0 = Some (CList vs)).
  { intros. unfold l0. rewrite nth_error_app2, Nat.sub_diag; auto. }
  assert (hni : ~ In l0 Fa).
  { intros hx. apply (owns_bound _ _ _ _ ha) in hx. unfold l0 in hx. lia. }
  destruct (cb_filter sh) as [[ds app]|].
  - set (H0 := H ++ [CList []]).
    destruct (hfilter_sim (l0 :: Fa) args ds H0 l0 [] [l0] ats Fa) as (F1 & hl1 & hF1 & fr1).
    { exists [], []. repeat split; auto. apply hn0. constructor. }
    { apply owns_extend; auto. }
    { intros x [<-|[]]; auto. }
    { intros x [<-|[]]; left; auto. }
    { apply incl_tl, incl_refl. }
    pose proof (hfilter_meta args ds H0 l0) as hmeta.
    destruct (hfilter H0 l0 args ds) as [H1 l]. simpl in *.
    destruct (lown_ext H1 l _ F1 _ _ [] hl1 (owns_nones H1 app) (disjoint_nil_r _)) as [hl2 fr2].
    pose proof (fun m mt => hext_meta H1 l (repeat VNone app) m mt) as hmeta2.
    set (H2 := hext H1 l (repeat VNone app)) in *.
    destruct (hbuild_sim sh H2 l _ _ hl2) as (f & hf & W3).
    pose proof (hbuild_keeps sh H2 l) as hmeta3.
    destruct (hbuild sh H2 l) as [H3 v]. simpl in *.
    exists f. split; auto. split.
    + eapply within_trans; [apply W0|]. eapply within_trans; [|eapply within_trans; [|exact W3]].
      * split; [|exact fr1]. intros x hx. left. exact (hF1 x hx).
      * split; [rewrite app_nil_r; apply sub_refl|exact fr2].
    + intros m mt hm. apply hmeta3, hmeta2, hmeta, app_keeps, hm.
  - destruct (hbuild_sim sh (H ++ [CList args]) l0 ats (l0 :: Fa)) as (f & hf & W3).
    { exists args, Fa. repeat split; auto. apply owns_extend; auto. }
    pose proof (hbuild_keeps sh (H ++ [CList args]) l0) as hmeta3.
    destruct (hbuild sh (H ++ [CList args]) l0) as [H3 v]. simpl in *.
    exists f. split; auto. split.
    + eapply within_trans; [apply W0|exact W3].
    + intros m mt hm. apply hmeta3, app_keeps, hm.
Qed.

(* the children as PropagatePositions sees them *)
Lemma owns_shapes tp H ts vs f : owns H ts vs f -> forall H1,
  (forall m mt, nth_error H m = Some (CMeta mt) -> nth_error H1 m = Some (CMeta mt)) ->
  map (hshape tp H1) vs = map (pshape tp) ts.
Proof.
  induction 1 as [|t ts v vs f fs Ho Hos IH Hdj]; intros H1 hm; simpl; auto.
  rewrite IH; auto. f_equal.
  inversion Ho; subst; simpl; auto.
  rewrite (mget_nth _ _ _ (hm _ _ H2)). auto.
Qed.

(* the in-place write of res.meta *)
Lemma hpp_sim tp H t v f args ats :
  own H t v f -> map (hshape tp H) args = map (pshape tp) ats ->
  own (hpp tp H v args) (ppp tp t ats) v f /\ within H f (hpp tp H v args) f.
Proof.
  intros ho hs. inversion ho as [a b|h0|d l m vs mt ts fp hn hmn hos hni hmi hlm]; subst; simpl;
    try (split; [assumption|apply within_refl]).
  unfold mset. rewrite hmn. rewrite (mget_nth _ _ _ hmn), hs.
  set (mt' := MetaSpan.propagate mt (map (pshape tp) ats)).
  pose proof (frame_hset H m (CMeta mt')) as hfr.
  split; [|split; [apply sub_refl|]].
  - apply own_node with (vs := vs); auto.
    + rewrite hset_other; auto.
    + apply hset_same. eapply nth_error_lt; eauto.
    + apply (owns_framed _ _ _ _ _ _ hos hfr), disjoint_single_r, hmi.
  - apply (frame_weaken _ _ _ _ hfr). intros x [<-|[]]. simpl; auto.
Qed.

(* one rule callback (with or without PropagatePositions) *)
Lemma hcb_sim E r H args ats Fa :
  owns H ats args Fa ->
  exists f, own (fst (hcb E r H args)) (pcb E r ats) (snd (hcb E r H args)) f /\
            within H Fa (fst (hcb E r H args)) f.
Proof.
  intros ha. unfold hcb, pcb.
  destruct (hcb_inner_sim (ce_cb E r) H args ats Fa ha) as (f & ho & W & hmeta).
  destruct (hcb_inner (ce_cb E r) H args) as [H1 res]. simpl in *.
  destruct (ce_pp E); [|exists f; auto].
  destruct (hpp_sim (ce_tp E) H1 _ _ _ args ats ho (owns_shapes (ce_tp E) _ _ _ _ ha H1 hmeta)) as (ho2 & W2).
  exists f. split; auto. eapply within_trans; eauto.
Qed.

Definition rH (r : heap * list nat * list value * kind) := fst (fst (fst r)).
Definition rss (r : heap * list nat * list value * kind) := snd (fst (fst r)).
Definition rkd (r : heap * list nat * list value * kind) := snd r.
Definition qss (r : list nat * list ptree * kind) := fst (fst r).
Definition qkd (r : list nat * list ptree * kind) := snd r.

Definition sim_res (H : heap) (F : list loc)
           (r : heap * list nat * list value * kind) (q : list nat * list ptree * kind) : Prop :=
  exists H' ss vs ts kd F', r = (H', ss, vs, kd) /\ q = (ss, ts, kd) /\ owns H' ts vs F' /\ within H F H' F'.

Lemma sim_res_intro H F H' ss vs ts kd F' :
  owns H' ts vs F' -> within H F H' F' -> sim_res H F (H', ss, vs, kd) (ss, ts, kd).
Proof. intros ho W. exists H', ss, vs, ts, kd, F'. auto. Qed.

Lemma sim_res_within H F H1 F1 r q : within H F H1 F1 -> sim_res H1 F1 r q -> sim_res H F r q.
Proof.
  intros W (H' & ss & vs & ts & kd & F' & -> & -> & o & W').
  apply sim_res_intro with F'; [exact o|eapply within_trans; eauto].
Qed.

Lemma lastn_droplast {A} n (l : list A) : droplast n l ++ lastn n l = l.
Proof. unfold droplast, lastn. apply firstn_skipn. Qed.

Lemma hfeed_sim T E k : forall H ss vs ts F ty id e,
  owns H ts vs F ->
  sim_res H F (hfeed k T E H ss vs ty id e) (pfeed k T E ss ts ty id e).
Proof.
  induction k as [|k IH]; intros H ss vs ts F ty id e ho;
    assert (stay : forall ss kd, sim_res H F (H, ss, vs, kd) (ss, ts, kd))
      by (intros; apply sim_res_intro with F; auto using within_refl);
    simpl; [apply stay|].
  destruct ss as [|s ss']; [apply stay|].
  destruct (action T s ty) as [[s'|r]|]; [| |apply stay].
  - destruct e; [apply stay|]. apply sim_res_intro with (F ++ []).
    + apply owns_app; auto using disjoint_nil_r. apply owns_one. constructor.
    + rewrite app_nil_r. apply within_refl.
  - set (n := rarity T r).
    destruct (owns_lastn _ _ _ _ n ho) as (F0 & Fa & -> & hd & h0 & ha).
    destruct (hcb_sim E r H _ _ _ ha) as (f & hv & W).
    destruct (hcb E r H (lastn n vs)) as [H1 v]. simpl in hv, W.
    (* what stays on the stack is untouched; the new value is apart from it *)
    pose proof (owns_framed _ _ _ _ _ _ h0 (proj2 W) hd) as h01.
    pose proof (disjoint_sub _ _ _ _ hd (owns_bound _ _ _ _ h0) (proj1 W)) as hdf.
    pose proof (owns_app _ _ _ _ h01 _ _ _ (owns_one _ _ _ _ hv) hdf) as h1.
    apply (within_frame_l F0) in W.
    assert (drop : forall ss kd, sim_res H (F0 ++ Fa) (H1, ss, droplast n vs, kd) (ss, droplast n ts, kd)).
    { intros. apply sim_res_intro with F0; auto. apply (within_frame _ _ _ _ _ _ W); [apply incl_refl|].
      intros x hx. left. apply in_or_app; auto. }
    destruct (skipn n (s :: ss')) as [|s0 ss0]; [apply drop|].
    destruct (goto T s0 (rlhs T r)) as [s1|]; [|apply drop].
    destruct (e && (s1 =? end_state T)); [apply sim_res_intro with (F0 ++ f); auto|].
    eapply sim_res_within; [exact W|]. apply IH, h1.
Qed.

Lemma hparse_from_sim T E k toks : forall H ss vs ts F,
  owns H ts vs F ->
  sim_res H F (hparse_from k T E H ss vs toks) (pparse_from k T E ss ts toks).
Proof.
  induction toks as [|[ty id] rest IH]; intros H ss vs ts F ho; simpl.
  - apply hfeed_sim; auto.
  - destruct (hfeed_sim T E k H ss vs ts F ty id false ho) as (H1 & ss1 & vs1 & ts1 & kd1 & F' & -> & -> & o' & W).
    destruct kd1; try (apply sim_res_intro with F'; assumption).
    eapply sim_res_within; [exact W|]. apply IH, o'.
Qed.

Lemma hfeed_ctrl T E k : forall H ss vs ty id e,
  (rss (hfeed k T E H ss vs ty id e), rkd (hfeed k T E H ss vs ty id e)) = cfeed k T ss ty e.
Proof.
  induction k as [|k IH]; intros; simpl; auto.
  destruct ss as [|s ss']; auto.
  destruct (action T s ty) as [[s'|r]|]; auto.
  - destruct e; auto.
  - destruct (hcb E r H (lastn (rarity T r) vs)) as [H1 v].
    destruct (skipn (rarity T r) (s :: ss')) as [|s0 ss0]; auto.
    destruct (goto T s0 (rlhs T r)) as [s1|]; auto.
    destruct (e && (s1 =? end_state T)); auto.
Qed.

Lemma pfeed_ctrl T E k : forall ss ts ty id e,
  (qss (pfeed k T E ss ts ty id e), qkd (pfeed k T E ss ts ty id e)) = cfeed k T ss ty e.
Proof.
  induction k as [|k IH]; intros; simpl; auto.
  destruct ss as [|s ss']; auto.
  destruct (action T s ty) as [[s'|r]|]; auto.
  - destruct e; auto.
  - destruct (skipn (rarity T r) (s :: ss')) as [|s0 ss0]; auto.
    destruct (goto T s0 (rlhs T r)) as [s1|]; auto.
    destruct (e && (s1 =? end_state T)); auto.
Qed.

(* feeds with callbacks = {} write nothing *)
Definition plain_env (E : cbenv) : Prop := (forall r, cb_filter (ce_cb E r) = None) /\ ce_pp E = false.

Lemma hcb_pure E r H args : plain_env E -> exists ext, fst (hcb E r H args) = H ++ ext.
Proof.
  intros [hc hp]. unfold hcb, hcb_inner. rewrite hc, hp. unfold halloc, hbuild.
  destruct (hget (H ++ [CList args]) (length H)) as [|x [|y l]]; simpl;
    try destruct (cb_expand1 (ce_cb E r)); simpl; try rewrite <- app_assoc; eauto.
Qed.

Lemma hfeed_pure T E k : plain_env E ->
  forall H ss vs ty id e, exists ext, rH (hfeed k T E H ss vs ty id e) = H ++ ext.
Proof.
  intros hc. induction k as [|k IH]; intros; simpl.
  - exists []. unfold rH; simpl. rewrite app_nil_r; auto.
  - assert (h0 : exists ext, H = H ++ ext) by (exists []; rewrite app_nil_r; auto).
    destruct ss as [|s ss']; auto.
    destruct (action T s ty) as [[s'|r]|]; auto.
    + destruct e; auto.
    + destruct (hcb_pure E r H (lastn (rarity T r) vs) hc) as [ext1 hx1].
      destruct (hcb E r H (lastn (rarity T r) vs)) as [H1 v]. simpl in hx1. subst H1.
      assert (h1 : exists ext, H ++ ext1 = H ++ ext) by eauto.
      destruct (skipn (rarity T r) (s :: ss')) as [|s0 ss0]; auto.
      destruct (goto T s0 (rlhs T r)) as [s1|]; auto.
      destruct (e && (s1 =? end_state T)); auto.
      edestruct (IH (H ++ ext1)) as [ext hx]. rewrite hx, <- app_assoc. eauto.
Qed.

Lemma env_none_plain : plain_env env_none.
Proof. split; auto. Qed.

(* lark as repaired: copies deep by default, Meta objects copied (F25), lexer thread rebound (F26) *)
Definition impl_fixed : impl := {| im_deep := true; im_meta := true; im_lex := true |}.

(* parser p denotes the immutable parser pp: same stacks (values with their metas read off the
   heap), both lexer references are one thread of its own standing at pp's position; f = that
   thread and everything the values reach *)
Definition prel (H : heap) (pp : pparser) (p : parser) (f : list loc) : Prop :=
  p_imm p = pp_imm pp /\ p_ss p = pp_ss pp /\ p_sl p = p_lt p /\
  nth_error H (p_lt p) = Some (CLex (pp_pos pp)) /\
  exists fv, f = p_lt p :: fv /\ ~ In (p_lt p) fv /\ owns H (pp_ts pp) (p_vs p) fv.

Lemma prel_bound H pp p f : prel H pp p f -> forall l, In l f -> l < length H.
Proof.
  intros (_ & _ & _ & hl & fv & -> & _ & ho) l [<-|h].
  - eapply nth_error_lt; eauto.
  - eapply owns_bound; eauto.
Qed.

Lemma prel_framed H pp p f H' F : prel H pp p f -> frame H H' F -> disjoint f F -> prel H' pp p f.
Proof.
  intros hp hf hd. pose proof (prel_bound _ _ _ _ hp) as hb.
  destruct hp as (a & b & c & hl & fv & -> & hni & ho). apply disjoint_cons_l in hd.
  repeat split; auto.
  - rewrite (proj2 hf); [exact hl|apply hb; left; auto|tauto].
  - exists fv. repeat split; auto. apply (owns_framed _ _ _ _ _ _ ho hf). tauto.
Qed.

Inductive wowns (H : heap) : list pparser -> list parser -> list loc -> Prop :=
| wo_nil : wowns H [] [] []
| wo_cons pp pps p ps f fs :
    prel H pp p f -> wowns H pps ps fs -> disjoint f fs ->
    wowns H (pp :: pps) (p :: ps) (f ++ fs).

Lemma wowns_bound H pps ps F : wowns H pps ps F -> forall l, In l F -> l < length H.
Proof.
  induction 1 as [|pp pps p ps f fs hp hw IH hd]; simpl; [tauto|].
  intros l hl. apply in_app_or in hl. destruct hl; auto. eapply prel_bound; eauto.
Qed.

Lemma wowns_framed H pps ps Fs H' F : wowns H pps ps Fs -> frame H H' F -> disjoint Fs F -> wowns H' pps ps Fs.
Proof.
  induction 1 as [|pp pps p ps f fs hp hw IH hd]; intros hf hdj; constructor; auto;
    apply disjoint_app_l in hdj; destruct hdj; eauto using prel_framed.
Qed.

Lemma wowns_length H pps ps F : wowns H pps ps F -> length pps = length ps.
Proof. induction 1; simpl; auto. Qed.

Lemma wowns_snoc H pps ps F : wowns H pps ps F -> forall pp p f,
  prel H pp p f -> disjoint F f -> wowns H (pps ++ [pp]) (ps ++ [p]) (F ++ f).
Proof.
  induction 1 as [|pp0 pps p0 ps f0 fs hp hw IH hd]; intros pp p f hpr hdj; simpl.
  - rewrite <- (app_nil_r f). constructor; auto using disjoint_nil_r. constructor.
  - rewrite <- app_assoc. apply disjoint_app_l in hdj. destruct hdj.
    constructor; auto. apply disjoint_app_r; auto.
Qed.

Lemma wowns_set H pps ps F : wowns H pps ps F -> forall i p, nth_error ps i = Some p ->
  exists pp f, nth_error pps i = Some pp /\ prel H pp p f /\
    forall H' pp' p' f', prel H' pp' p' f' -> within H f H' f' ->
      exists F', wowns H' (set_nth pps i pp') (set_nth ps i p') F' /\ within H F H' F'.
Proof.
  induction 1 as [|pp0 pps p0 ps f0 fs hp hw IH hd]; intros i p hn.
  - destruct i; discriminate.
  - destruct i as [|i]; simpl in hn.
    + injection hn as ->. exists pp0, f0. split; [reflexivity|]. split; [exact hp|].
      intros H' pp' p' f' hp' W. exists (f' ++ fs). split; [|apply within_frame_r, W].
      simpl. constructor; auto.
      * apply (wowns_framed _ _ _ _ _ _ hw (proj2 W)), disjoint_sym, hd.
      * apply disjoint_sym, (disjoint_sub _ _ _ _ (disjoint_sym _ _ hd) (wowns_bound _ _ _ _ hw) (proj1 W)).
    + destruct (IH i p hn) as (pp & f & a & b & d).
      exists pp, f. split; [exact a|]. split; [exact b|].
      intros H' pp' p' f' hp' W.
      destruct (d H' pp' p' f' hp' W) as (F' & hw' & W').
      exists (f0 ++ F'). split; [|apply within_frame_l, W'].
      simpl. constructor; auto.
      * apply (prel_framed _ _ _ _ _ _ hp (proj2 W')), hd.
      * apply (disjoint_sub _ _ _ _ hd (prel_bound _ _ _ _ hp) (proj1 W')).
Qed.

Lemma wowns_none H pps ps F i : wowns H pps ps F -> nth_error ps i = None -> nth_error pps i = None.
Proof.
  intros hw hn. apply nth_error_None. apply nth_error_None in hn.
  rewrite (wowns_length _ _ _ _ hw). auto.
Qed.

Lemma copy_parser_deep_spec H pp p f : prel H pp p f ->
  exists ext f', fst (copy_parser impl_fixed true H p) = H ++ ext /\
    prel (H ++ ext) pp (snd (copy_parser impl_fixed true H p)) f' /\ fresh_above (length H) f'.
Proof.
  intros (a & b & c & hl & fv & -> & hni & ho).
  unfold copy_parser, halloc. simpl im_meta. simpl im_lex. cbv iota.
  rewrite (lget_nth _ _ _ hl).
  set (H0 := H ++ [CLex (pp_pos pp)]).
  destruct (deepcopy_spec H0 _ _ _ (owns_extend _ _ _ _ [CLex (pp_pos pp)] ho)) as (ext & f' & e1 & o1 & fr).
  destruct (deepcopy true H0 (p_vs p)) as [H1 vs1]. simpl in *. subst H1.
  exists ([CLex (pp_pos pp)] ++ ext), (length H :: f'). unfold H0 in *. rewrite <- app_assoc in *.
  repeat split; simpl; auto.
  - rewrite nth_error_app2, Nat.sub_diag; auto.
  - exists f'. repeat split; auto. intros hi. apply fr in hi. rewrite app_length in hi. simpl in hi. lia.
  - intros l [<-|hx]; auto. apply fr in hx. rewrite app_length in hx. lia.
Qed.

Lemma wowns_fork H pps ps F pp p f :
  wowns H pps ps F -> prel H pp p f ->
  exists H1 c f1, copy_parser impl_fixed true H p = (H1, c) /\ prel H1 pp c f1 /\
    forall H' pp' p' f', prel H' pp' p' f' -> within H1 f1 H' f' ->
      exists F', wowns H' (pps ++ [pp']) (ps ++ [p']) F'.
Proof.
  intros hw hp. destruct (copy_parser_deep_spec H pp p f hp) as (ext & f1 & e1 & hp1 & fr1).
  destruct (copy_parser impl_fixed true H p) as [H1 c]. simpl in e1, hp1. subst H1.
  exists (H ++ ext), c, f1. split; [reflexivity|]. split; [exact hp1|].
  intros H' pp' p' f' hp' W. exists (F ++ f'). apply wowns_snoc; auto.
  - apply (wowns_framed _ _ _ _ _ [] hw); [|apply disjoint_nil_r].
    apply (frame_trans _ _ _ _ _ (frame_app H ext []) (proj2 W)). intros l hl. right. apply fr1, hl.
  - intros l h1 h2. apply (wowns_bound _ _ _ _ hw) in h1.
    destruct (proj1 W l h2) as [h|h]; [apply fr1 in h|rewrite app_length in h]; lia.
Qed.

Lemma copy_parser_ext deep H p ts fv : owns H ts (p_vs p) fv ->
  exists ext fv', fst (copy_parser impl_fixed deep H p) = H ++ ext /\
    p_ss (snd (copy_parser impl_fixed deep H p)) = p_ss p /\
    owns (H ++ ext) ts (p_vs (snd (copy_parser impl_fixed deep H p))) fv'.
Proof.
  intros ho. unfold copy_parser, halloc. simpl im_meta. simpl im_lex. cbv iota.
  set (c := CLex (lget H (p_lt p))).
  destruct deep.
  - destruct (deepcopy_spec (H ++ [c]) _ _ _ (owns_extend _ _ _ _ [c] ho)) as (ext & f' & e1 & o1 & fr).
    destruct (deepcopy true (H ++ [c]) (p_vs p)) as [H1 vs1]. simpl in *. subst H1.
    exists ([c] ++ ext), f'. rewrite <- app_assoc in *. auto.
  - exists [c], fv. simpl. repeat split; auto. apply owns_extend; auto.
Qed.

Lemma trial_spec k T H p t ts f : owns H ts (p_vs p) f ->
  (exists ext, fst (trial impl_fixed k T H p t) = H ++ ext) /\
  snd (trial impl_fixed k T H p t) = snd (cfeed k T (p_ss p) t (t =? END)).
Proof.
  intros ho. unfold trial. change (im_deep impl_fixed) with true.
  destruct (copy_parser_ext false H p ts f ho) as (e0 & f0 & a0 & b0 & o0).
  destruct (copy_parser impl_fixed false H p) as [H0 p0]. simpl in a0, b0, o0. subst H0.
  (* an immutable cursor is copied once more by feed_token *)
  set (c1 := if p_imm p0 then _ else _).
  assert (hh : exists ext, fst c1 = H ++ ext /\ p_ss (snd c1) = p_ss p).
  { unfold c1. destruct (p_imm p0); [|exists e0; split; [reflexivity|exact b0]].
    destruct (copy_parser_ext true (H ++ e0) p0 ts f0 o0) as (e1 & f1 & a1 & b1 & _).
    exists (e0 ++ e1). rewrite a1, b1, app_assoc. auto. }
  destruct hh as (ext & a & b). clearbody c1. destruct c1 as [H1 p1].
  simpl in a, b. subst H1.
  unfold hifeed.
  pose proof (hfeed_ctrl T env_none k (H ++ ext) (p_ss p1) (p_vs p1) t 0 (t =? END)) as hc.
  destruct (hfeed_pure T env_none k env_none_plain (H ++ ext) (p_ss p1) (p_vs p1) t 0 (t =? END)) as [ext2 hx].
  destruct (hfeed k T env_none (H ++ ext) (p_ss p1) (p_vs p1) t 0 (t =? END)) as [[[H2 ss2] vs2] kd].
  unfold rH, rss, rkd in *. simpl in *. subst H2. rewrite b in hc. rewrite <- hc. simpl.
  split; auto. rewrite <- app_assoc. eauto.
Qed.

Lemma accepts_loop_spec k T p ts f tl : forall H, owns H ts (p_vs p) f ->
  (exists ext, fst (accepts_loop impl_fixed k T H p tl) = H ++ ext) /\
  snd (accepts_loop impl_fixed k T H p tl) =
    filter (fun t => kind_ok (snd (cfeed k T (p_ss p) t (t =? END)))) tl.
Proof.
  induction tl as [|t tl IH]; intros H ho; simpl.
  - split; auto. exists []. rewrite app_nil_r; auto.
  - destruct (trial_spec k T H p t ts f ho) as [[e1 h1] h2].
    destruct (trial impl_fixed k T H p t) as [H1 kd]. simpl in h1, h2. subst H1 kd.
    destruct (IH (H ++ e1) (owns_extend _ _ _ _ _ ho)) as [[e2 h3] h4].
    destruct (accepts_loop impl_fixed k T (H ++ e1) p tl) as [H2 acc]. simpl in *. subst H2 acc.
    split; auto. rewrite <- app_assoc. eauto.
Qed.

Lemma prel_valop H pp p f r q :
  prel H pp p f ->
  (forall fv, owns H (pp_ts pp) (p_vs p) fv -> sim_res H fv r q) ->
  exists H' ss vs ts kd f',
    r = (H', ss, vs, kd) /\ q = (ss, ts, kd) /\
    prel H' {| pp_imm := p_imm p; pp_ss := ss; pp_ts := ts; pp_pos := pp_pos pp |} (with_state p ss vs) f' /\
    within H f H' f'.
Proof.
  intros (a & b & c & hl & fv & -> & hni & ho) hsim.
  destruct (hsim fv ho) as (H' & ss & vs & ts & kd & F' & -> & -> & o' & W).
  exists H', ss, vs, ts, kd, (p_lt p :: F'). split; [reflexivity|]. split; [reflexivity|].
  split; [|apply (within_frame_l [p_lt p]), W].
  pose proof (nth_error_lt _ _ _ hl) as hlt.
  repeat split; simpl; auto.
  - rewrite (proj2 (proj2 W)); auto.
  - exists F'. repeat split; auto. intros hi. destruct (proj1 W _ hi); [auto|lia].
Qed.

Lemma prel_feed k T E H pp p f ty id :
  prel H pp p f ->
  exists H' ss vs ts kd f',
    hifeed k T E H (p_ss p) (p_vs p) ty id = (H', ss, vs, kd) /\
    pifeed k T E (pp_ss pp) (pp_ts pp) ty id = (ss, ts, kd) /\
    prel H' {| pp_imm := p_imm p; pp_ss := ss; pp_ts := ts; pp_pos := pp_pos pp |} (with_state p ss vs) f' /\
    within H f H' f'.
Proof.
  intros hp. apply prel_valop; auto. intros fv ho.
  destruct hp as (_ & -> & _). apply hfeed_sim, ho.
Qed.

Lemma prel_lset H pp p f n :
  prel H pp p f ->
  prel (lset H (p_lt p) n) {| pp_imm := pp_imm pp; pp_ss := pp_ss pp; pp_ts := pp_ts pp; pp_pos := n |} p f /\
  within H f (lset H (p_lt p) n) f.
Proof.
  intros (a & b & c & hl & fv & -> & hni & ho). unfold lset. rewrite hl.
  pose proof (frame_hset H (p_lt p) (CLex n)) as hfr.
  split; [|split; [apply sub_refl|apply (frame_weaken _ _ _ _ hfr); intros x [<-|[]]; left; auto]].
  repeat split; simpl; auto.
  - apply hset_same. eapply nth_error_lt; eauto.
  - exists fv. repeat split; auto. apply (owns_framed _ _ _ _ _ _ ho hfr), disjoint_single_r, hni.
Qed.

Lemma prel_with_imm H pp p f b :
  prel H pp p f ->
  prel H {| pp_imm := b; pp_ss := pp_ss pp; pp_ts := pp_ts pp; pp_pos := pp_pos pp |} (with_imm p b) f.
Proof. intros (a & b0 & c & hl & fv & -> & hni & ho). repeat split; simpl; auto. exists fv. auto. Qed.

Lemma pp_eta pp : {| pp_imm := pp_imm pp; pp_ss := pp_ss pp; pp_ts := pp_ts pp; pp_pos := pp_pos pp |} = pp.
Proof. destruct pp; auto. Qed.

Lemma hparse_from_cons k T E H ss vs ty id rest :
  hparse_from k T E H ss vs ((ty, id) :: rest) =
  let '(H1, ss1, vs1, kd) := hfeed k T E H ss vs ty id false in
  match kd with KShift => hparse_from k T E H1 ss1 vs1 rest | _ => (H1, ss1, vs1, kd) end.
Proof. reflexivity. Qed.
Lemma hparse_from_nil k T E H ss vs : hparse_from k T E H ss vs [] = hfeed k T E H ss vs END 0 true.
Proof. reflexivity. Qed.
Lemma pparse_from_cons k T E ss ts ty id rest :
  pparse_from k T E ss ts ((ty, id) :: rest) =
  let '(ss1, ts1, kd) := pfeed k T E ss ts ty id false in
  match kd with KShift => pparse_from k T E ss1 ts1 rest | _ => (ss1, ts1, kd) end.
Proof. reflexivity. Qed.
Lemma pparse_from_nil k T E ss ts : pparse_from k T E ss ts [] = pfeed k T E ss ts END 0 true.
Proof. reflexivity. Qed.

Arguments copy_parser : simpl never.
Arguments hifeed : simpl never.
Arguments pifeed : simpl never.
Arguments accepts_loop : simpl never.
Arguments hparse_from : simpl never.
Arguments pparse_from : simpl never.
Arguments cparse_cnt : simpl never.
Arguments lset : simpl never.
Arguments lget : simpl never.

Definition wsim {O} (r : world * O) (q : list pparser * O) : Prop :=
  (exists F, wowns (w_heap (fst r)) (fst q) (w_ps (fst r)) F) /\ snd r = snd q.

Lemma wsim_intro {O} H ps pps F (ob : O) :
  wowns H pps ps F -> wsim ({| w_heap := H; w_ps := ps |}, ob) (pps, ob).
Proof. split; simpl; eauto. Qed.

Definition all_deep (o : op) : Prop := match o with OCopy _ false => False | _ => True end.

(* Every operation either works inside the footprint of the parser it is called on (wowns_set), or
   appends what became of a deep copy of that parser (wowns_fork), or only allocates. *)
Lemma wstep_sim k T E input w pps o F :
  wowns (w_heap w) pps (w_ps w) F -> all_deep o ->
  wsim (wstep impl_fixed k T E input w o) (pstep k T E input pps o).
Proof.
  intros hw hdeep. destruct w as [H ps]. simpl in hw.
  pose proof (wowns_length _ _ _ _ hw) as hlen.
  destruct o as [i ty id|i|i deep|i|i|i|i]; simpl;
    (destruct (nth_error ps i) as [p|] eqn:En;
     [|rewrite (wowns_none _ _ _ _ _ hw En); apply wsim_intro with F, hw]);
    destruct (wowns_set _ _ _ _ hw i p En) as (pp & f & a & hp & d);
    pose proof hp as (hi & hs & hsl & hlx & fv & ef & hnf & ho);
    rewrite a.
  - (* feed *)
    rewrite <- hi. destruct (p_imm p) eqn:Eimm.
    + change (im_deep impl_fixed) with true.
      destruct (wowns_fork _ _ _ _ _ _ _ hw hp) as (H1 & c0 & f1 & -> & hp1 & add).
      destruct (prel_feed k T E H1 pp c0 f1 ty id hp1) as (H2 & ss2 & vs2 & ts2 & kd & f2 & -> & -> & hp2 & W).
      rewrite (proj1 hp1), <- hi in hp2. rewrite hlen.
      destruct (add _ _ _ _ hp2 W) as [F' hw']. apply wsim_intro with F', hw'.
    + destruct (prel_feed k T E H pp p f ty id hp) as (H2 & ss2 & vs2 & ts2 & kd & f2 & -> & -> & hp2 & W).
      rewrite Eimm in hp2. destruct (d _ _ _ _ hp2 W) as (F' & hw' & _). apply wsim_intro with F', hw'.
  - (* step *)
    rewrite <- hi. destruct (p_imm p) eqn:Eimm; [apply wsim_intro with F, hw|].
    rewrite (lget_nth _ _ _ hlx).
    destruct (nth_error input (pp_pos pp)) as [[ty id]|] eqn:Ein; [|apply wsim_intro with F, hw].
    destruct (prel_lset H pp p f (S (pp_pos pp)) hp) as (hp0 & W0).
    destruct (prel_feed k T E _ _ p f ty id hp0) as (H2 & ss2 & vs2 & ts2 & kd & f2 & e1 & e2 & hp2 & W).
    simpl in e2, hp2. rewrite e1, e2. rewrite Eimm in hp2.
    destruct (d _ _ _ _ hp2 (within_trans _ _ _ _ _ _ W0 W)) as (F' & hw' & _). apply wsim_intro with F', hw'.
  - (* copy *)
    destruct deep; [|contradiction].
    destruct (wowns_fork _ _ _ _ _ _ _ hw hp) as (H1 & c0 & f1 & -> & hp1 & add). rewrite hlen.
    destruct (add _ _ _ _ hp1 (within_refl _ _)) as [F' hw']. apply wsim_intro with F', hw'.
  - (* as_immutable *)
    change (im_deep impl_fixed) with true.
    destruct (wowns_fork _ _ _ _ _ _ _ hw hp) as (H1 & c0 & f1 & -> & hp1 & add). rewrite hlen.
    destruct (add _ _ _ _ (prel_with_imm _ _ _ _ true hp1) (within_refl _ _)) as [F' hw']. apply wsim_intro with F', hw'.
  - (* as_mutable *)
    change (im_deep impl_fixed) with true.
    destruct (wowns_fork _ _ _ _ _ _ _ hw hp) as (H1 & c0 & f1 & -> & hp1 & add). rewrite hlen.
    destruct (add _ _ _ _ (prel_with_imm _ _ _ _ false hp1) (within_refl _ _)) as [F' hw']. apply wsim_intro with F', hw'.
  - (* accepts *)
    destruct (accepts_loop_spec k T p _ _ (choices T p) H ho) as [[ext e1] e2].
    destruct (accepts_loop impl_fixed k T H p (choices T p)) as [H1 acc]. simpl in e1, e2. subst H1 acc.
    unfold paccepts, choices. rewrite hs. apply wsim_intro with F.
    apply (wowns_framed _ _ _ _ _ _ hw (frame_app H ext [])), disjoint_nil_r.
  - (* resume_parse *)
    rewrite hsl, (lget_nth _ _ _ hlx), <- hs.
    set (rest := skipn (pp_pos pp) input).
    destruct (prel_valop H pp p f (hparse_from k T E H (p_ss p) (p_vs p) rest)
                (pparse_from k T E (p_ss p) (pp_ts pp) rest) hp)
      as (H2 & ss2 & vs2 & ts2 & kd & f2 & -> & -> & hp2 & W).
    { intros fv0 h0. apply hparse_from_sim; auto. }
    destruct (prel_lset H2 _ (with_state p ss2 vs2) f2 (pp_pos pp + cparse_cnt k T (p_ss p) rest) hp2) as (hp3 & W3).
    simpl in hp3, W3. rewrite hi in hp3.
    destruct (d _ _ _ _ hp3 (within_trans _ _ _ _ _ _ W W3)) as (F' & hw' & _). apply wsim_intro with F', hw'.
Qed.

Lemma wrun_sim k T E input os : forall w pps F,
  wowns (w_heap w) pps (w_ps w) F -> Forall all_deep os ->
  wsim (wrun impl_fixed k T E input w os) (prun k T E input pps os).
Proof.
  induction os as [|o os IH]; intros w pps F hw hd; simpl.
  - destruct w. apply wsim_intro with F, hw.
  - destruct (wstep_sim k T E input w pps o F hw (Forall_inv hd)) as [[F1 h1] h2].
    destruct (wstep impl_fixed k T E input w o) as [w1 ob]. destruct (pstep k T E input pps o) as [pps1 pob].
    simpl in h1, h2. subst pob.
    destruct (IH w1 pps1 F1 h1 (Forall_inv_tail hd)) as [[F2 h3] h4].
    destruct (wrun impl_fixed k T E input w1 os) as [w2 obs]. destruct (prun k T E input pps1 os) as [pps2 pobs].
    simpl in h3, h4. subst pobs. destruct w2. apply wsim_intro with F2, h3.
Qed.

Definition hrel k T E input (pp : pparser) (h : lineage) : Prop :=
  pp_imm pp = fst h /\ (pp_ss pp, pp_ts pp, pp_pos pp) = preplay k T E input (snd h).

Lemma preplay_snoc k T E input ev e :
  preplay k T E input (ev ++ [e]) = preplay1 k T E input (preplay k T E input ev) e.
Proof. unfold preplay. rewrite fold_left_app. auto. Qed.

(* IDriver's list update is the set_at of Inst/ListFacts *)
Lemma set_nth_set_at {A} : @set_nth A = @set_at A.
Proof. reflexivity. Qed.

Lemma pstep_lineage k T E input pps hs o :
  Forall2 (hrel k T E input) pps hs ->
  Forall2 (hrel k T E input) (fst (pstep k T E input pps o)) (lstep hs o).
Proof.
  intros hf. destruct o as [i ty id|i|i deep|i|i|i|i]; simpl;
    (destruct (nth_error pps i) as [pp|] eqn:En;
     [|rewrite ?(Forall2_nth_none _ _ _ _ hf En); auto]);
    try (destruct (Forall2_nth_l _ _ _ _ _ hf En) as ([imm ev] & a & b & c); rewrite a; simpl in b, c).
  - destruct (pifeed k T E (pp_ss pp) (pp_ts pp) ty id) as [[ss2 ts2] kd] eqn:Ef.
    rewrite b. destruct imm; simpl.
    + apply Forall2_snoc; auto. split; auto. simpl. rewrite preplay_snoc, <- c. simpl. rewrite Ef. auto.
    + rewrite !set_nth_set_at. apply Forall2_set_at; auto. split; auto. simpl. rewrite preplay_snoc, <- c. simpl. rewrite Ef. auto.
  - rewrite b. destruct imm; simpl; auto.
    destruct (nth_error input (pp_pos pp)) as [[ty id]|] eqn:Ein.
    + destruct (pifeed k T E (pp_ss pp) (pp_ts pp) ty id) as [[ss2 ts2] kd] eqn:Ef. simpl.
      rewrite !set_nth_set_at. apply Forall2_set_at; auto. split; auto. simpl. rewrite preplay_snoc, <- c. simpl. rewrite Ein, Ef. auto.
    + simpl. rewrite set_nth_set_at. eapply Forall2_set_at_r; eauto. split; auto. simpl.
      rewrite preplay_snoc, <- c. simpl. rewrite Ein. auto.
  - apply Forall2_snoc; auto. split; auto.
  - apply Forall2_snoc; auto. split; auto.
  - apply Forall2_snoc; auto. split; auto.
  - auto.
  - destruct (pparse_from k T E (pp_ss pp) (pp_ts pp) (skipn (pp_pos pp) input)) as [[ss2 ts2] kd] eqn:Ef. simpl.
    rewrite !set_nth_set_at. apply Forall2_set_at; auto. split; auto. simpl. rewrite preplay_snoc, <- c. simpl. rewrite Ef. auto.
Qed.

Lemma prun_lineage k T E input os : forall pps hs,
  Forall2 (hrel k T E input) pps hs ->
  Forall2 (hrel k T E input) (fst (prun k T E input pps os)) (fold_left lstep os hs).
Proof.
  induction os as [|o os IH]; intros pps hs hf; simpl; auto.
  pose proof (pstep_lineage k T E input pps hs o hf) as h1.
  destruct (pstep k T E input pps o) as [pps1 ob]. simpl in h1.
  specialize (IH pps1 _ h1).
  destruct (prun k T E input pps1 os) as [pps2 obs]. simpl in *. auto.
Qed.

Definition read_stack (H : heap) (p : parser) : list ptree := map (read (S (length H)) H) (p_vs p).

Lemma world0_owned T : wowns (w_heap (world0 T)) (pworld0 T) (w_ps (world0 T)) [0].
Proof.
  unfold world0, pworld0. cbn [w_heap w_ps].
  apply (wo_cons [CLex 0] _ [] _ [] [0] []); auto using disjoint_nil_r.
  - repeat split; simpl; auto. exists []. repeat split; auto. constructor.
  - constructor.
Qed.

Lemma lineage0 k T E input : Forall2 (hrel k T E input) (pworld0 T) [(false, [])].
Proof. constructor; auto. split; auto. Qed.

(* fork_separation: after any sequence of feed / step / copy / as_immutable / as_mutable / accepts /
   resume_parse operations in which every copy is deep, (1) every observation made on the way is the
   one made on immutable trees, (2) no two parsers reach a common child list, Meta object or lexer
   thread, and (3) each parser's stacks - trees *with their metas* - and the position of its lexer
   are exactly those of a fresh parser that went through that parser's own history, whatever was
   done to any other fork in between. *)
Theorem fork_separation k T E input os :
  Forall all_deep os ->
  let w := fst (wrun impl_fixed k T E input (world0 T) os) in
  snd (wrun impl_fixed k T E input (world0 T) os) = snd (prun k T E input (pworld0 T) os) /\
  exists pps F,
    wowns (w_heap w) pps (w_ps w) F /\
    forall j p, nth_error (w_ps w) j = Some p ->
      exists h, nth_error (lineages os) j = Some h /\
                p_imm p = fst h /\ p_sl p = p_lt p /\
                (p_ss p, read_stack (w_heap w) p, lget (w_heap w) (p_lt p)) = preplay k T E input (snd h).
Proof.
  intros hd w.
  destruct (wrun_sim k T E input os (world0 T) (pworld0 T) _ (world0_owned T) hd) as [[F hw] hobs].
  split; auto. fold w in hw.
  exists (fst (prun k T E input (pworld0 T) os)), F. split; auto.
  intros j p hj.
  destruct (wowns_set _ _ _ _ hw j p hj) as (pp & f & a & (hi & hs & hsl & hlx & fv & ef & hnf & ho) & _).
  pose proof (prun_lineage k T E input os _ _ (lineage0 k T E input)) as hf.
  destruct (Forall2_nth_l _ _ _ _ _ hf a) as (h & b & him & hst).
  exists h. split; auto. split; [congruence|]. split; auto.
  unfold read_stack. rewrite (reads_own _ _ _ _ ho).
  - rewrite hs, (lget_nth _ _ _ hlx). auto.
  - pose proof (owns_fp_le _ _ _ _ ho). lia.
Qed.

(* resume_parse() on any fork: it continues from the fork's own lexer position and behaves as
   parse_from_state on what that lexer still holds, started from the stacks of the fork's own history *)
Theorem fork_resume k T E input os j p h :
  Forall all_deep os ->
  let w := fst (wrun impl_fixed k T E input (world0 T) os) in
  nth_error (w_ps w) j = Some p -> nth_error (lineages os) j = Some h ->
  let '(ss, ts, pos) := preplay k T E input (snd h) in
  snd (wstep impl_fixed k T E input w (OResume j)) =
  ObsFeed j (qkd (pparse_from k T E ss ts (skipn pos input))) (qss (pparse_from k T E ss ts (skipn pos input))).
Proof.
  intros hd w hj hh.
  destruct (wrun_sim k T E input os (world0 T) (pworld0 T) _ (world0_owned T) hd) as [[F hw] _].
  fold w in hw.
  destruct (wstep_sim k T E input w _ (OResume j) F hw I) as [_ ->].
  destruct (wowns_set _ _ _ _ hw j p hj) as (pp & f & a & _).
  pose proof (prun_lineage k T E input os _ _ (lineage0 k T E input)) as hf.
  destruct (Forall2_nth_l _ _ _ _ _ hf a) as (h' & b & him & hst).
  unfold lineages in hh. rewrite hh in b. inversion b; subst h'.
  rewrite <- hst. simpl. rewrite a.
  destruct (pparse_from k T E (pp_ss pp) (pp_ts pp) (skipn (pp_pos pp) input)) as [[ss2 ts2] kd]. auto.
Qed.

(* trial_feed_pure: a feed with callbacks = {} only allocates; every existing list object, Meta object
   and lexer thread keeps its content (so accepts() cannot disturb the parser it is asked on, nor any other) *)
Theorem trial_feed_pure k T H ss vs ty id e :
  exists ext, rH (hfeed k T env_none H ss vs ty id e) = H ++ ext.
Proof. apply hfeed_pure. apply env_none_plain. Qed.

Definition table_wf (T : table) : Prop :=
  forall s t, In t (terms T s) <-> action T s t <> None.

Lemma cfeed_ok_action k T s ss t e : kind_ok (snd (cfeed k T (s :: ss) t e)) = true -> action T s t <> None.
Proof. destruct k; simpl; [discriminate|]. destruct (action T s t); [discriminate|simpl; discriminate]. Qed.

Theorem accepts_exact k T E H p ts f t id :
  table_wf T -> owns H ts (p_vs p) f ->
  let c := copy_parser impl_fixed true H p in
  In t (snd (accepts_loop impl_fixed k T H p (choices T p))) <->
  kind_ok (rkd (hifeed k T E (fst c) (p_ss (snd c)) (p_vs (snd c)) t id)) = true.
Proof.
  intros hwf ho c.
  destruct (accepts_loop_spec k T p ts f (choices T p) H ho) as [_ ->].
  destruct (copy_parser_ext true H p ts f ho) as (ext & f' & a & c1 & e).
  fold c in c1. rewrite c1.
  pose proof (hfeed_ctrl T E k (fst c) (p_ss p) (p_vs (snd c)) t id (t =? END)) as hc.
  unfold hifeed.
  destruct (cfeed k T (p_ss p) t (t =? END)) as [ss2 kd] eqn:Ec.
  inversion hc as [[h1 h2]]. rewrite h2.
  rewrite filter_In. rewrite Ec. simpl. split; [tauto|].
  intros hk. split; auto. unfold choices.
  destruct (p_ss p) as [|s ss].
  - destruct k; simpl in Ec; inversion Ec; subst; discriminate.
  - apply hwf. apply (cfeed_ok_action k T s ss t (t =? END)). rewrite Ec. auto.
Qed.

(* feed_eq_parse: feeding the tokens one at a time and then $END is parse_from_state *)
Theorem feed_eq_parse k T E toks : forall H ss vs,
  Forall (fun t => fst t <> END) toks ->
  hfeed_all k T E H ss vs toks = hparse_from k T E H ss vs toks.
Proof.
  induction toks as [|[ty id] rest IH]; intros H ss vs hf; simpl; auto.
  rewrite hparse_from_cons.
  inversion hf; subst. simpl in H2. unfold hifeed at 1.
  destruct (Nat.eqb_spec ty END); [contradiction|].
  destruct (hfeed k T E H ss vs ty id false) as [[[H1 ss1] vs1] kd].
  destruct kd; auto.
Qed.

Lemma pfeed_false_not_result k T E : forall ss ts ty id, qkd (pfeed k T E ss ts ty id false) <> KResult.
Proof.
  induction k as [|k IH]; intros; simpl; try discriminate.
  destruct ss as [|s ss']; try discriminate.
  destruct (action T s ty) as [[s'|r]|]; try discriminate.
  destruct (skipn (rarity T r) (s :: ss')) as [|s0 ss0]; try discriminate.
  destruct (goto T s0 (rlhs T r)) as [s1|]; try discriminate.
  simpl. apply IH.
Qed.

(* ... and on immutable trees: a fork whose own history is "tokens, then $END" and whose parse
   succeeds ends with the stacks, hence the result tree and all its metas, of Lark.parse on those tokens *)
Lemma preplay_feeds k T E input toks : forall ss ts pos ss' ts',
  Forall (fun t => fst t <> END) toks ->
  pparse_from k T E ss ts toks = (ss', ts', KResult) ->
  fold_left (preplay1 k T E input) (map (fun t => EFeed (fst t) (snd t)) toks ++ [EFeed END 0]) (ss, ts, pos)
  = (ss', ts', pos).
Proof.
  induction toks as [|[ty id] rest IH]; intros ss ts pos ss' ts' hf hp; simpl in *.
  - unfold pifeed. simpl. rewrite pparse_from_nil in hp. rewrite hp. auto.
  - rewrite pparse_from_cons in hp.
    inversion hf; subst. simpl in H1. unfold pifeed.
    destruct (Nat.eqb_spec ty END); [contradiction|].
    pose proof (pfeed_false_not_result k T E ss ts ty id) as hnr.
    destruct (pfeed k T E ss ts ty id false) as [[ss1 ts1] kd].
    destruct kd; try discriminate; [apply IH; auto|]. elim hnr. reflexivity.
Qed.

Theorem fork_result_eq_parse k T E input toks ss ts :
  Forall (fun t => fst t <> END) toks ->
  pparse k T E toks = (ss, ts, KResult) ->
  preplay k T E input (map (fun t => EFeed (fst t) (snd t)) toks ++ [EFeed END 0]) = (ss, ts, 0).
Proof. intros. apply preplay_feeds; auto. Qed.

Definition hstep k T E (st : heap * list nat * list value * kind) (t : nat * nat) :=
  match st with
  | (H, ss, vs, KShift) => hfeed k T E H ss vs (fst t) (snd t) false
  | _ => st
  end.
Definition hfeeds k T E H ss vs pre := fold_left (hstep k T E) pre (H, ss, vs, KShift).

Lemma hstep_stop k T E pre : forall H ss vs kd, kd <> KShift ->
  fold_left (hstep k T E) pre (H, ss, vs, kd) = (H, ss, vs, kd).
Proof. induction pre; simpl; auto. intros. destruct kd; try congruence; apply IHpre; auto. Qed.

Lemma hparse_from_app k T E pre : forall H ss vs rest,
  hparse_from k T E H ss vs (pre ++ rest) =
  match hfeeds k T E H ss vs pre with
  | (H1, ss1, vs1, KShift) => hparse_from k T E H1 ss1 vs1 rest
  | r => r
  end.
Proof.
  unfold hfeeds. induction pre as [|[ty id] pre IH]; intros; simpl; auto.
  rewrite hparse_from_cons.
  destruct (hfeed k T E H ss vs ty id false) as [[[H1 ss1] vs1] kd].
  destruct kd; try (rewrite IH; auto; fail); rewrite hstep_stop; auto; discriminate.
Qed.

(* parse stops at the unexpected token with the parser state st_e exposed to the error handler;
   resume_parse() from st_e on the rest of the input is exactly "feed the rest one by one from
   st_e, then $END" - i.e. a parse of the remaining input from that configuration *)
Theorem resume_eq_parse_rest k T E pre bad rest H ss vs H1 ss1 vs1 He sse vse :
  Forall (fun t => fst t <> END) rest ->
  hfeeds k T E H ss vs pre = (H1, ss1, vs1, KShift) ->
  hfeed k T E H1 ss1 vs1 (fst bad) (snd bad) false = (He, sse, vse, KError) ->
  hparse_from k T E H ss vs (pre ++ bad :: rest) = (He, sse, vse, KError) /\
  hparse_from k T E He sse vse rest = hfeed_all k T E He sse vse rest.
Proof.
  intros hf h1 h2. split.
  - rewrite hparse_from_app. rewrite h1. destruct bad as [ty id]. rewrite hparse_from_cons. simpl in *. rewrite h2. auto.
  - symmetry. apply feed_eq_parse. auto.
Qed.

Lemma assoc_in {A} k (l : list (nat * A)) : In k (map fst l) <-> assoc k l <> None.
Proof.
  induction l as [|[k' v] l IH]; simpl.
  - split; [tauto|congruence].
  - destruct (Nat.eqb_spec k' k).
    + split; [discriminate|auto].
    + rewrite <- IH. split; [intros [h|h]; [contradiction|auto]|auto].
Qed.

Lemma mk_table_wf acts gotos rules s0 e0 : table_wf (mk_table acts gotos rules s0 e0).
Proof.
  intros s t. simpl. destruct (assoc s acts) as [row|].
  - apply assoc_in.
  - simpl. split; [tauto|congruence].
Qed.
