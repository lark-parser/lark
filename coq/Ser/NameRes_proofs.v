(* C11, stand-alone clause - the check of Ser/NameRes.v is sound: if every statement's certificate passes [phase_ok],
   no run of the name-resolution machine reaches [NameErr], and every unit that ever runs is in the certificate of
   the statement being executed.  [run_inc] is a cheaper check that implies it ([run_check_inc_sound]), for a long
   program whose certificates list their root last and mostly differ in that root only: what was established for the
   shared units is carried over ([shared_ok_frame]). *)
From Coq Require Import List String Bool Arith.
From LV Require Import Ser.StandaloneModel Ser.Standalone_proofs Ser.NameRes.
Import ListNotations.
Local Open Scope string_scope.
Local Open Scope list_scope.

Lemma flat_map_incl {A B} (f : A -> list B) l l' : incl l l' -> incl (flat_map f l) (flat_map f l').
Proof.
  intros H x Hx. apply in_flat_map in Hx. destruct Hx as (a & Ha & Hx). apply in_flat_map. exists a. split; auto.
Qed.

Lemma flat_map_ext_in {A B} (f g : A -> list B) l : (forall a, In a l -> f a = g a) -> flat_map f l = flat_map g l.
Proof. intros H. rewrite !flat_map_concat_map. f_equal. apply map_ext_in, H. Qed.
Lemma forallb_imp {A} (f g : A -> bool) l : (forall x, In x l -> f x = true -> g x = true) -> forallb f l = true -> forallb g l = true.
Proof. rewrite !forallb_forall. auto. Qed.

Section Sound.
  Variable P : list tstmt.
  Variable Bi : list string.
  Variable flags : list (string * string).
  Variable data NR : list string.
  Variable ancT descT : list (string * list string).

  Notation unit_of := (unit_of P).
  Notation calls_of := (calls_of P Bi flags data ancT descT).
  Notation flows_of := (flows_of P Bi flags data).
  Notation knows_of := (knows_of P Bi flags data ancT descT).
  Notation load_fails := (load_fails P Bi flags data).
  Notation phase_ok := (phase_ok P Bi flags data NR ancT descT).
  Notation step := (step P Bi flags data NR ancT descT).
  Notation steps := (steps P Bi flags data NR ancT descT).
  Notation tgt_ok := (tgt_ok P NR).
  Notation static_calls := (static_calls P Bi flags data ancT descT).
  Notation flow_calls := (flow_calls P ancT).
  Notation members := (members P).

  Lemma incl_b_sound l m : incl_b l m = true -> incl l m.
  Proof. unfold incl_b. rewrite forallb_forall. intros H x Hx. apply mem_In. apply H. exact Hx. Qed.

  Lemma tgt_ok_sound C k : tgt_ok C k = true -> ~ In k NR -> is_unit P k = true -> In k (c_R C).
  Proof.
    unfold NameRes.tgt_ok. intros H Hn Hu.
    destruct (mem k (c_R C)) eqn:A; [apply mem_In; exact A|].
    destruct (mem k NR) eqn:B; [exfalso; apply Hn; apply mem_In; exact B|].
    rewrite Hu in H. discriminate.
  Qed.

  Record unit_safe (b : list string) (C : cert) (u : cunit) : Prop := {
    us_calls : forall F K k', incl F (c_F C) -> incl K (c_K C) ->
                 In k' (calls_of b u F K) -> ~ In k' NR -> is_unit P k' = true -> In k' (c_R C);
    us_flows : forall n, In n (flows_of b u) -> In n (c_F C);
    us_knows : forall x, In x (knows_of b u) -> In x (c_K C);
    us_loads : forall l, In l (u_loads u) -> load_fails b l = false }.

  Lemma phase_ok_units b F0 K0 root C :
    phase_ok b F0 K0 root C = true ->
    In root (c_R C) /\ incl F0 (c_F C) /\ incl K0 (c_K C) /\
    forall k u, In k (c_R C) -> unit_of k = Some u -> unit_safe b C u.
  Proof.
    unfold NameRes.phase_ok. rewrite !andb_true_iff. intros (((((Hroot & HF) & HK) & Hdun) & Hflow) & Hunits).
    split; [apply mem_In; exact Hroot|]. split; [apply incl_b_sound; exact HF|]. split; [apply incl_b_sound; exact HK|].
    intros k u Hk Hu. rewrite forallb_forall in Hunits. specialize (Hunits k Hk). rewrite Hu in Hunits.
    unfold unit_closed in Hunits. rewrite !andb_true_iff in Hunits. destruct Hunits as ((((Hst & Hob) & Hfl) & Hkn) & Hld).
    rewrite forallb_forall in Hst, Hob, Hdun, Hld.
    constructor.
    - intros F K k' HF' HK' Hin Hnr Hisu. apply (tgt_ok_sound C k'); auto.
      unfold NameRes.calls_of in Hin. rewrite !in_app_iff in Hin. destruct Hin as [Hin|[Hin|[Hin|Hin]]].
      + exact (Hst _ Hin).
      + apply Hob. revert Hin. apply flat_map_incl, HK'.
      + apply Hdun. revert Hin. apply flat_map_incl, HK'.
      + destruct (u_indirect u) eqn:Hi; [|contradiction].
        assert (Hsome : some_indirect P (c_R C) = true).
        { unfold some_indirect. apply existsb_exists. exists k. split; [exact Hk|]. rewrite Hu. exact Hi. }
        rewrite Hsome, forallb_forall in Hflow. apply Hflow. revert Hin. apply flat_map_incl, HF'.
    - apply incl_b_sound. exact Hfl.
    - apply incl_b_sound. exact Hkn.
    - intros l Hl. specialize (Hld l Hl). apply negb_true_iff in Hld. exact Hld.
  Qed.

  Section WithCert.
    Variable pc : list string -> list string -> list string -> string -> cert.
    Notation run_check := (run_check_with P Bi flags data NR ancT descT pc).
    Notation certs := (certs_with pc).
    Definition all_certs := certs [] [] [] P.

    Definition within (C : cert) (F K stack : list string) : Prop :=
      incl F (c_F C) /\ incl K (c_K C) /\ Forall (fun k => In k (c_R C)) stack.

    (* between statements F', K' are the sets the checker carries on with (c_F, c_K of the certificate of the statement
       that ended at s_end); the machine's own F, K are subsets of them *)
    Definition inv (s : mstate) : Prop :=
      match s with
      | NameErr _ _ => False
      | Run b F K todo stack None =>
          stack = [] /\ exists F' K', incl F F' /\ incl K K' /\ run_check b F' K' todo = true /\
                                      exists pre, all_certs = pre ++ certs b F' K' todo
      | Run b F K todo stack (Some t) =>
          exists C F0 K0, phase_ok b F0 K0 (u_key (t_eager t)) C = true /\ within C F K stack /\
                          run_check (t_binds t ++ b) (c_F C) (c_K C) todo = true /\
                          exists pre, all_certs = pre ++ (t_label t, C) :: certs (t_binds t ++ b) (c_F C) (c_K C) todo
      end.

    Lemma inv_running b F K r k st c :
      inv (Run b F K r (k :: st) c) ->
      exists C, within C F K (k :: st) /\ (forall u, unit_of k = Some u -> unit_safe b C u) /\
                forall F' K' st', within C F' K' st' -> inv (Run b F' K' r st' c).
    Proof.
      destruct c as [t|]; cbn; [|intros (Hnil & _); discriminate].
      intros (C & F0 & K0 & Hph & Hw & Hrest). exists C. split; [exact Hw|]. split.
      - intros u Hu. destruct Hw as (_ & _ & Hst). inversion Hst; subst.
        destruct (phase_ok_units _ _ _ _ _ Hph) as (_ & _ & _ & Hsafe). eauto.
      - intros F' K' st' Hw'. exists C, F0, K0. auto.
    Qed.

    Lemma inv_step s s' : inv s -> step s s' -> inv s'.
    Proof.
      intros Hi Hs. destruct Hs.
      1: { (* begin *)
        cbn in Hi. destruct Hi as (_ & F' & K' & HF & HK & Hrc & pre & Hpre). cbn in Hrc.
        apply andb_true_iff in Hrc. destruct Hrc as (Hph & Hrest).
        cbn. exists (pc b F' K' (u_key (t_eager t))), F', K'.
        destruct (phase_ok_units _ _ _ _ _ Hph) as (Hroot & HF0 & HK0 & _).
        split; [exact Hph|]. split; [|split; [exact Hrest|exists pre; exact Hpre]].
        split; [intros x Hx; apply HF0, HF, Hx|]. split; [intros x Hx; apply HK0, HK, Hx|].
        constructor; [exact Hroot|constructor]. }
      1: { (* end *)
        cbn in Hi. destruct Hi as (C & F0 & K0 & Hph & (HF & HK & _) & Hrest & pre & Hpre).
        cbn. split; [reflexivity|]. exists (c_F C), (c_K C). repeat split; auto.
        exists (pre ++ [(t_label t, C)]). rewrite <- app_assoc. exact Hpre. }
      (* the other steps are taken by the unit on top of the stack *)
      all: destruct (inv_running _ _ _ _ _ _ _ Hi) as (C & (HF & HK & Hst) & Hsafe & Hkeep).
      all: inversion Hst as [|? ? Hk Hst']; subst.
      - (* call *) apply Hkeep. repeat split; auto. constructor; [|exact Hst].
        apply (us_calls _ _ _ (Hsafe u H) F K k' HF HK H0 H1 H2).
      - (* flow *) apply Hkeep. repeat split; auto.
        intros x [<-|Hx]; [apply (us_flows _ _ _ (Hsafe u H) n H0)|apply HF, Hx].
      - (* know *) apply Hkeep. repeat split; auto.
        intros y [<-|Hy]; [apply (us_knows _ _ _ (Hsafe u H) x H0)|apply HK, Hy].
      - (* return *) apply Hkeep. repeat split; auto.
      - (* NameError: impossible *) rewrite (us_loads _ _ _ (Hsafe u H) l H0) in H1. discriminate.
    Qed.

    Lemma inv_steps s s' : inv s -> steps s s' -> inv s'.
    Proof. intros Hi Hs. induction Hs; [exact Hi|]. apply (inv_step t u); auto. Qed.

    Lemma inv_reachable s : run_check [] [] [] P = true -> steps (initial P) s -> inv s.
    Proof.
      intros Hrc. apply inv_steps. cbn. split; [reflexivity|]. exists [], []. repeat split; auto using incl_refl.
      exists []. reflexivity.
    Qed.

    Theorem no_name_error :
      run_check [] [] [] P = true -> forall s, steps (initial P) s -> forall u n, s <> NameErr u n.
    Proof. intros Hrc s Hs u n ->. exact (inv_reachable _ Hrc Hs). Qed.

    (* in particular the certificate of the client statement lists everything that may ever run after import *)
    Theorem running_units_in_cert :
      run_check [] [] [] P = true ->
      forall b F K todo stack t, steps (initial P) (Run b F K todo stack (Some t)) ->
      exists C, In (t_label t, C) all_certs /\ forall k, In k stack -> In k (c_R C).
    Proof.
      intros Hrc b F K todo stack t Hs.
      destruct (inv_reachable _ Hrc Hs) as (C & F0 & K0 & _ & (_ & _ & Hst) & _ & pre & Hpre). exists C. split.
      - rewrite Hpre. apply in_or_app. right. left. reflexivity.
      - rewrite Forall_forall in Hst. exact Hst.
    Qed.
  End WithCert.

  Lemma certs_with_const (pc1 : string -> cert) todo : forall b F K l C,
    In (l, C) (certs_with (fun _ _ _ r => pc1 r) b F K todo) ->
    exists t, In t todo /\ l = t_label t /\ C = pc1 (u_key (t_eager t)).
  Proof.
    induction todo as [|t r IH]; cbn; intros b F K l C H; [contradiction|].
    destruct H as [H|H]; [inversion H; subst; exists t; auto|].
    destruct (IH _ _ _ _ _ H) as (t' & Ht & E1 & E2). exists t'. auto.
  Qed.

  Theorem stmt_runs_in_cert (pc1 : string -> cert) (t0 : tstmt) :
    run_check_with P Bi flags data NR ancT descT (fun _ _ _ r => pc1 r) [] [] [] P = true ->
    (forall t, In t P -> t_label t = t_label t0 -> t = t0) ->
    forall b F K todo stack, steps (initial P) (Run b F K todo stack (Some t0)) ->
    forall k, In k stack -> In k (c_R (pc1 (u_key (t_eager t0)))).
  Proof.
    intros Hrc Huniq b F K todo stack Hs k Hk.
    destruct (running_units_in_cert (fun _ _ _ r => pc1 r) Hrc b F K todo stack t0 Hs) as (C & HC & Hst).
    specialize (Hst k Hk). unfold all_certs in HC.
    destruct (certs_with_const pc1 P [] [] [] _ _ HC) as (t & Ht & E1 & E2).
    symmetry in E1. rewrite (Huniq t Ht E1) in E2. subst C. exact Hst.
  Qed.

  Definition obj_calls_t (u : cunit) (KM : list (string * list string)) : list string :=
    flat_map (fun cm => map (qual (fst cm)) (filter (fun m => mem m (u_attrs u)) (snd cm))
                        ++ (if in_dyn ancT descT u (fst cm) then map (qual (fst cm)) (snd cm) else [])) KM.
  Definition km (K : list string) : list (string * list string) := map (fun c => (c, members c)) K.
  Lemma obj_calls_km u K : obj_calls_t u (km K) = obj_calls P ancT descT u K.
  Proof. unfold obj_calls_t, km. rewrite flat_map_concat_map, map_map, <- flat_map_concat_map. reflexivity. Qed.

  Definition unit_closed_t KM (b : list string) (C : cert) (u : cunit) : bool :=
    forallb (tgt_ok C) (static_calls b u) && forallb (tgt_ok C) (obj_calls_t u KM)
    && incl_b (flows_of b u) (c_F C) && incl_b (knows_of b u) (c_K C)
    && forallb (fun l => negb (load_fails b l)) (u_loads u).
  Definition units_ok KM b C L : bool :=
    (if some_indirect P L then forallb (tgt_ok C) (flow_calls b (c_F C)) else true)
    && forallb (fun k => match unit_of k with Some u => unit_closed_t KM b C u | None => true end) L.
  Definition shared_ok KM b C : bool := forallb (tgt_ok C) (dunder_calls P (c_K C)) && units_ok KM b C (c_R C).

  Lemma units_ok_app KM b C L1 L2 : units_ok KM b C L1 = true -> units_ok KM b C L2 = true -> units_ok KM b C (L1 ++ L2) = true.
  Proof.
    unfold units_ok, some_indirect. rewrite existsb_app, forallb_app, !andb_true_iff. intros (A1 & B1) (A2 & B2).
    split; [|split; assumption]. destruct (existsb _ L1); [exact A1|exact A2].
  Qed.

  Lemma tgt_ok_mono C C' k : incl (c_R C) (c_R C') -> tgt_ok C k = true -> tgt_ok C' k = true.
  Proof.
    unfold NameRes.tgt_ok. intros H. destruct (mem k (c_R C)) eqn:E; [|destruct (mem k (c_R C')); auto].
    apply mem_In, H, mem_In in E. rewrite E. reflexivity.
  Qed.

  Lemma units_ok_mono KM b R R' F K L : incl R R' -> units_ok KM b (mkCert R F K) L = true -> units_ok KM b (mkCert R' F K) L = true.
  Proof.
    intros HR.
    assert (Ht : forall l, forallb (tgt_ok (mkCert R F K)) l = true -> forallb (tgt_ok (mkCert R' F K)) l = true).
    { intros l. apply forallb_imp. intros k _. apply tgt_ok_mono, HR. }
    unfold units_ok. rewrite !andb_true_iff. intros (A & B). split; [destruct (some_indirect P L); auto|].
    revert B. apply forallb_imp. intros k _. destruct (unit_of k); [|auto].
    unfold unit_closed_t. rewrite !andb_true_iff. intros ((((S1 & S2) & S3) & S4) & S5). auto 8.
  Qed.

  Definition qnames (u : cunit) : list string :=
    map l_name (u_loads u) ++ (if u_selfcall u || u_selfalloc u then descendants descT (u_cls u) else []).
  Definition queried (C : cert) : list string :=
    c_F C ++ flat_map (fun k => match unit_of k with Some u => qnames u | None => [] end) (c_R C).

  Lemma call_name_ext b b' n : mem n b' = mem n b -> call_name P ancT b' n = call_name P ancT b n.
  Proof. unfold call_name. intros ->. reflexivity. Qed.

  Lemma unit_closed_ext KM b b' C u :
    (forall n, In n (qnames u) -> mem n b' = mem n b) -> unit_closed_t KM b' C u = unit_closed_t KM b C u.
  Proof.
    unfold qnames. intros H.
    assert (Hl : forall l, In l (u_loads u) -> mem (l_name l) b' = mem (l_name l) b).
    { intros l Hi. apply H, in_or_app. left. apply in_map, Hi. }
    assert (Hd : forall n, u_selfcall u || u_selfalloc u = true -> In n (descendants descT (u_cls u)) -> mem n b' = mem n b).
    { intros n E Hn. apply H, in_or_app. right. rewrite E. exact Hn. }
    assert (E1 : static_calls b' u = static_calls b u).
    { unfold NameRes.static_calls. f_equal; [|f_equal].
      - apply flat_map_ext_in. intros l Hi. unfold load_calls. rewrite (call_name_ext b b'), (Hl l); auto.
      - destruct (u_selfcall u) eqn:E; [|reflexivity]. apply flat_map_ext_in. intros n Hn. apply call_name_ext, Hd; auto. }
    assert (E2 : flows_of b' u = flows_of b u).
    { apply flat_map_ext_in. intros l Hi. rewrite (Hl l); auto. }
    assert (E3 : knows_of b' u = knows_of b u).
    { unfold NameRes.knows_of. f_equal.
      - apply flat_map_ext_in. intros l Hi. unfold touch. rewrite (Hl l); auto.
      - destruct (u_selfcall u || u_selfalloc u) eqn:E; [|reflexivity]. apply flat_map_ext_in. intros n Hn.
        unfold touch. rewrite (Hd n); auto. }
    unfold unit_closed_t. rewrite E1, E2, E3. f_equal.
    apply forallb_ext_in. intros l Hi. unfold NameRes.load_fails. rewrite (Hl l Hi). reflexivity.
  Qed.

  Lemma shared_ok_frame KM b b' C :
    (forall n, In n (queried C) -> mem n b' = mem n b) -> shared_ok KM b' C = shared_ok KM b C.
  Proof.
    unfold shared_ok, units_ok, queried. intros H. do 2 f_equal.
    - destruct (some_indirect P (c_R C)); [|reflexivity]. f_equal.
      apply flat_map_ext_in. intros n Hn. apply call_name_ext, H, in_or_app. left. exact Hn.
    - apply forallb_ext_in. intros k Hk. destruct (unit_of k) as [u|] eqn:E; [|reflexivity].
      apply unit_closed_ext. intros n Hn. apply H, in_or_app. right. apply in_flat_map. exists k. rewrite E. auto.
  Qed.

  Lemma phase_ok_split b F0 K0 root C S :
    c_R C = S ++ [root] -> incl_b F0 (c_F C) = true -> incl_b K0 (c_K C) = true ->
    shared_ok (km (c_K C)) b (mkCert S (c_F C) (c_K C)) = true -> units_ok (km (c_K C)) b C [root] = true ->
    phase_ok b F0 K0 root C = true.
  Proof.
    destruct C as [R F K]. cbn. intros -> HF HK Hs Hr. apply andb_true_iff in Hs. destruct Hs as (Hd & Hs).
    assert (Hi : incl S (S ++ [root])) by (apply incl_appl, incl_refl).
    pose proof (units_ok_app _ _ _ _ _ (units_ok_mono _ _ _ _ _ _ _ Hi Hs) Hr) as Hu.
    apply andb_true_iff in Hu. destruct Hu as (Hu1 & Hu2).
    unfold NameRes.phase_ok. cbn [c_R c_F c_K] in *. rewrite HF, HK, Hu1. repeat (apply andb_true_iff; split); auto.
    - apply mem_In, in_or_app. right. left. reflexivity.
    - revert Hd. apply forallb_imp. intros k _. apply tgt_ok_mono, Hi.
    - revert Hu2. apply forallb_imp. intros k _. destruct (unit_of k); [|auto].
      unfold unit_closed_t, unit_closed. rewrite obj_calls_km. auto.
  Qed.

  Lemma frame_mem bs b Q n :
    forallb (fun x => mem x b || negb (mem x Q)) bs = true -> In n Q -> mem n (bs ++ b) = mem n b.
  Proof.
    intros H Hn. rewrite forallb_forall in H. destruct (mem n b) eqn:E.
    - apply mem_In, in_or_app. right. apply mem_In, E.
    - destruct (mem n (bs ++ b)) eqn:E'; [|reflexivity]. apply mem_In, in_app_or in E'.
      destruct E' as [E'|E']; [|apply mem_In in E'; congruence].
      specialize (H n E'). apply mem_In in Hn. rewrite E, Hn in H. discriminate.
  Qed.

  Fixpoint leqb (l m : list string) : bool :=
    match l, m with [], [] => true | x :: l', y :: m' => (x =? y) && leqb l' m' | _, _ => false end.
  Definition cert_eqb (C D : cert) : bool := leqb (c_R C) (c_R D) && leqb (c_F C) (c_F D) && leqb (c_K C) (c_K D).
  Lemma leqb_eq l : forall m, leqb l m = true -> l = m.
  Proof.
    induction l as [|x l IH]; intros [|y m] H; try discriminate; [reflexivity|].
    apply andb_true_iff in H. destruct H as (H1 & H2). apply String.eqb_eq in H1. f_equal; auto.
  Qed.
  Lemma cert_eqb_eq C D : cert_eqb C D = true -> C = D.
  Proof.
    destruct C, D. unfold cert_eqb. cbn. rewrite !andb_true_iff. intros ((A & B) & E).
    apply leqb_eq in A, B, E. subst. reflexivity.
  Qed.
  Lemma incl_b_refl l : incl_b l l = true.
  Proof. apply forallb_forall. intros x Hx. apply mem_In, Hx. Qed.

  Section Incremental.
    Variable pc : list string -> list string -> list string -> string -> cert.
    (* [run_check_with], not repeating work: the root of a certificate is its last unit; while the rest [C0] of the
       certificate stays the same from one statement to the next and the names just bound are not among those its units
       ask about ([Q]), only the root is checked *)
    Fixpoint run_inc (b : list string) (C0 : cert) (KM : list (string * list string)) (Q : list string) (ok : bool)
                     (todo : list tstmt) : bool :=
      match todo with
      | [] => true
      | t :: r =>
          let root := u_key (t_eager t) in
          let C := pc b (c_F C0) (c_K C0) root in
          match rev (c_R C) with
          | [] => false
          | k :: R =>
              let C1 := mkCert (rev R) (c_F C) (c_K C) in
              let same := ok && cert_eqb C1 C0 in
              let KM1 := if same then KM else km (c_K C) in
              let Q1 := if same then Q else queried C1 in
              (k =? root)
              && (if same then true else incl_b (c_F C0) (c_F C) && incl_b (c_K C0) (c_K C) && shared_ok KM1 b C1)
              && units_ok KM1 b C [root]
              && run_inc (t_binds t ++ b) C1 KM1 Q1 (forallb (fun n => mem n b || negb (mem n Q1)) (t_binds t)) r
          end
      end.

    Lemma run_inc_sound todo : forall b C0 KM Q ok,
      (ok = true -> shared_ok KM b C0 = true /\ Q = queried C0 /\ KM = km (c_K C0)) ->
      run_inc b C0 KM Q ok todo = true -> run_check_with P Bi flags data NR ancT descT pc b (c_F C0) (c_K C0) todo = true.
    Proof.
      induction todo as [|t r IH]; intros b C0 KM Q ok Hinv H; [reflexivity|]. cbn [run_inc run_check_with] in H |- *.
      set (C := pc b (c_F C0) (c_K C0) (u_key (t_eager t))) in *.
      destruct (rev (c_R C)) as [|k R] eqn:ER; [discriminate|].
      set (C1 := mkCert (rev R) (c_F C) (c_K C)) in *.
      rewrite !andb_true_iff in H. destruct H as (((Hk & Hsh) & Hroot) & Hrec). apply String.eqb_eq in Hk. subst k.
      assert (HR : c_R C = rev R ++ [u_key (t_eager t)]) by (rewrite <- (rev_involutive (c_R C)), ER; reflexivity).
      set (same := ok && cert_eqb C1 C0) in *.
      assert (X : incl_b (c_F C0) (c_F C) = true /\ incl_b (c_K C0) (c_K C) = true /\
                  shared_ok (if same then KM else km (c_K C)) b C1 = true /\
                  (if same then Q else queried C1) = queried C1 /\ (if same then KM else km (c_K C)) = km (c_K C)).
      { destruct same eqn:Es.
        - apply andb_true_iff in Es. destruct Es as (Eo & E). apply cert_eqb_eq in E.
          destruct (Hinv Eo) as (I1 & I2 & I3). rewrite <- E in *. auto using incl_b_refl.
        - rewrite !andb_true_iff in Hsh. tauto. }
      destruct X as (X1 & X2 & X3 & X4 & X5). rewrite X4, X5 in *.
      apply andb_true_iff. split.
      - apply (phase_ok_split _ _ _ _ _ _ HR X1 X2 X3 Hroot).
      - apply (IH _ C1 _ _ _) in Hrec; [exact Hrec|]. intros Hf. split; [|auto].
        rewrite <- X3. apply shared_ok_frame. intros n. apply frame_mem, Hf.
    Qed.

    Definition run_check_inc : bool := run_inc [] (mkCert [] [] []) [] [] false P.
    Theorem run_check_inc_sound :
      run_check_inc = true -> run_check_with P Bi flags data NR ancT descT pc [] [] [] P = true.
    Proof. apply run_inc_sound. discriminate. Qed.
  End Incremental.

  Lemma exec_top_inv s f s' :
    exec_top P s f = Some s' ->
    exists b F K r k st c u, s = Run b F K r (k :: st) c /\ unit_of k = Some u /\ f b F K r k st c u = Some s'.
  Proof.
    destruct s as [b F K r [|k st] c|]; cbn; try discriminate. destruct (unit_of k) as [u|] eqn:Hu; [|discriminate].
    intros H. exists b, F, K, r, k, st, c, u. auto.
  Qed.

  Lemma exec1_step a s s' : exec1 P Bi flags data NR ancT descT a s = Some s' -> step s s'.
  Proof.
    destruct a; cbn; intros H.
    - destruct s as [b F K todo stack cur|]; [|discriminate].
      destruct todo as [|t r]; [discriminate|]. destruct stack; [|discriminate]. destruct cur; [discriminate|].
      inversion H; subst. constructor.
    - destruct s as [b F K todo stack cur|]; [|discriminate].
      destruct stack; [|discriminate]. destruct cur as [t|]; [|discriminate]. inversion H; subst. constructor.
    - apply exec_top_inv in H as (b & F & K & r & k0 & st & c & u & -> & Hu & H).
      destruct (mem k (calls_of b u F K)) eqn:A; [|discriminate].
      destruct (mem k NR) eqn:B; [discriminate|]. destruct (is_unit P k) eqn:D; [|discriminate].
      inversion H; subst. apply (s_call _ _ _ _ _ _ _ b F K r k0 st c u k); auto.
      + apply mem_In. exact A.
      + intros X. apply mem_In in X. congruence.
    - apply exec_top_inv in H as (b & F & K & r & k0 & st & c & u & -> & Hu & H).
      destruct (mem n (flows_of b u)) eqn:A; [|discriminate].
      inversion H; subst. apply (s_flow _ _ _ _ _ _ _ b F K r k0 st c u n); auto. apply mem_In. exact A.
    - apply exec_top_inv in H as (b & F & K & r & k0 & st & c & u & -> & Hu & H).
      destruct (mem x (knows_of b u)) eqn:A; [|discriminate].
      inversion H; subst. apply (s_know _ _ _ _ _ _ _ b F K r k0 st c u x); auto. apply mem_In. exact A.
    - destruct s as [b F K todo stack cur|]; [|discriminate].
      destruct stack as [|k0 st]; [discriminate|]. inversion H; subst. constructor.
    - apply exec_top_inv in H as (b & F & K & r & k0 & st & c & u & -> & Hu & H).
      destruct (existsb (fun l => (l_name l =? n) && load_fails b l) (u_loads u)) eqn:A; [|discriminate].
      inversion H; subst. apply existsb_exists in A. destruct A as (l & Hl & A).
      apply andb_true_iff in A. destruct A as (A1 & A2). apply String.eqb_eq in A1. subst n.
      apply (s_err _ _ _ _ _ _ _ b F K r k0 st c u l); auto.
  Qed.

  Lemma steps_head s t u : step s t -> steps t u -> steps s u.
  Proof.
    intros H1 H. induction H as [|t v u _ IH Hs]; [econstructor; [constructor|exact H1]|].
    econstructor; [exact (IH H1)|exact Hs].
  Qed.

  Lemma exec_steps acts : forall s s', exec P Bi flags data NR ancT descT acts s = Some s' -> steps s s'.
  Proof.
    induction acts as [|a r IH]; cbn; intros s s' H.
    - inversion H; subst. constructor.
    - destruct (exec1 P Bi flags data NR ancT descT a s) as [s1|] eqn:E; [|discriminate].
      exact (steps_head _ _ _ (exec1_step _ _ _ E) (IH _ _ H)).
  Qed.
End Sound.
