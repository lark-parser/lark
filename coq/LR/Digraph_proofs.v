(* The as-coded digraph()/traverse() (LR/Digraph.v) against the least
   solution of  F x = G x  U  U { F y | y in R x }.
   * digraph_coded_acyclic: for every ACYCLIC relation (a rank strictly decreasing along edges),
     with one set object per node (the first call of compute_lookaheads), the coded algorithm
     terminates within its fuel, no assert fails, and F x is exactly the least solution
     (sound and complete); the stack discipline degenerates: every node is its own SCC.
   * digraph_twice_aliasing_refuted: with two calls as in compute_lookaheads and a cycle in the
     first relation, the coded result is strictly larger than the least solution (3 nodes). *)
From Coq Require Import List Arith Bool ZArith Lia.
From LV Require Import LR.Automaton LR.Automaton_proofs LR.Digraph.
Import ListNotations.

Lemma nth_repeat' {A} (a d : A) m i : nth i (repeat a m) d = a \/ nth i (repeat a m) d = d.
Proof. revert i; induction m; destruct i; simpl; auto. Qed.

Lemma upd_length {A} (l : list A) i v : length (upd l i v) = length l.
Proof. revert i; induction l; destruct i; simpl; auto. Qed.

Lemma nth_upd_eq {A} (l : list A) i v d : i < length l -> nth i (upd l i v) d = v.
Proof. revert i; induction l; destruct i; simpl; intros; try lia; auto. apply IHl. lia. Qed.

Lemma nth_upd_neq {A} (l : list A) i j v d : i <> j -> nth j (upd l i v) d = nth j l d.
Proof. revert i j; induction l; destruct i, j; simpl; intros; try congruence; auto. Qed.

Lemma union_In t a b : In t (union a b) <-> In t a \/ In t b.
Proof.
  unfold union. rewrite in_app_iff, filter_In. split.
  - intros [H|(H & _)]; auto.
  - intros [H|H]; auto. destruct (in_dec Nat.eq_dec t a); auto. right. split; auto.
    destruct (mem_nat t a) eqn:E; auto. apply mem_nat_In in E. contradiction.
Qed.

Section LS.
  Variable R : list (list nat).
  Variable G : list (list nat).
  Inductive ls : nat -> nat -> Prop :=
  | ls_base x t : In t (nth x G []) -> ls x t
  | ls_step x y t : In y (nth x R []) -> ls y t -> ls x t.
End LS.

Section Acyclic.
  Variable n : nat.
  Variable R : list (list nat).
  Variable G : list (list nat).
  Variable rk : nat -> nat.
  Hypothesis HG : length G = n.
  Hypothesis Hrange : forall x y, In y (nth x R []) -> y < n.
  Hypothesis Hrank : forall x y, In y (nth x R []) -> rk y < rk x.

  Notation ls := (ls R G).
  Notation gc := (seq 0 n).
  Local Open Scope Z_scope.

  Record ok (st : dstate) : Prop := {
    ok_lN : length (dN st) = n;
    ok_lF : length (dF st) = n;
    ok_lH : length (dH st) = n;
    ok_vals : forall v, (v < n)%nat -> getN st v = 0 \/ getN st v = -1 \/ 0 < getN st v;
    ok_unv : forall v, (v < n)%nat -> getN st v = 0 -> forall t, In t (cell st v) <-> In t (nth v G []);
    ok_done : forall v, (v < n)%nat -> getN st v = -1 ->
              getF st v = Some v /\ forall t, In t (cell st v) <-> ls v t }.

  (* what a call of traverse leaves untouched *)
  Definition frame (st st' : dstate) : Prop :=
    forall v, (v < n)%nat ->
      (getN st v <> 0 -> getN st' v = getN st v /\ getF st' v = getF st v /\ cell st' v = cell st v) /\
      (getN st v = 0 -> getN st' v = 0 \/ getN st' v = -1).

  Definition frame_but (x : nat) (st st' : dstate) : Prop :=
    forall v, (v < n)%nat -> v <> x ->
      (getN st v <> 0 -> getN st' v = getN st v /\ getF st' v = getF st v /\ cell st' v = cell st v) /\
      (getN st v = 0 -> getN st' v = 0 \/ getN st' v = -1).

  Lemma frame_to_but x st st' : frame st st' -> frame_but x st st'.
  Proof. intros H v Hv _. now apply H. Qed.

  Lemma frame_but_refl x st : frame_but x st st.
  Proof. intros v Hv _. split; auto. Qed.

  Lemma frame_but_trans x a b c : frame_but x a b -> frame_but x b c -> frame_but x a c.
  Proof.
    intros H1 H2 v Hv Hvx. destruct (H1 v Hv Hvx) as (A1 & A2). destruct (H2 v Hv Hvx) as (B1 & B2). split.
    - intros Hn. destruct (A1 Hn) as (E1 & E2 & E3). rewrite <- E1 in Hn.
      destruct (B1 Hn) as (F1 & F2 & F3). repeat split; congruence.
    - intros H0. destruct (A2 H0) as [E|E]; auto.
      assert (Hn : getN b v <> 0) by lia. destruct (B1 Hn) as (F1 & _). right. congruence.
  Qed.

  Lemma gc_nth x : (x < n)%nat -> nth x gc O = x.
  Proof. intros. rewrite seq_nth; auto. Qed.

  Lemma ls_inv x t : ls x t -> In t (nth x G []) \/ exists y, In y (nth x R []) /\ ls y t.
  Proof. destruct 1; eauto. Qed.

  (* N[x] = z; F[x] = (the cell of x): what traverse does to x on entry (z = d) and in the pop (z = -1) *)
  Definition mark (st : dstate) (S' : list nat) (x : nat) (z : Z) : dstate :=
    mkD S' (upd (dN st) x z) (upd (dF st) x (Some x)) (dH st).

  Lemma mark_get st S' x z : ok st -> (x < n)%nat ->
    getN (mark st S' x z) x = z /\ getF (mark st S' x z) x = Some x /\
    forall v, v <> x -> getN (mark st S' x z) v = getN st v /\ getF (mark st S' x z) v = getF st v.
  Proof.
    intros [l1 l2 _ _ _ _] Hx. unfold getN, getF, mark. simpl.
    repeat split; try (apply nth_upd_eq; lia); apply nth_upd_neq; auto.
  Qed.

  Lemma mark_ok st S' x z : ok st -> (x < n)%nat -> z = -1 \/ 0 < z ->
    (z = -1 -> forall t, In t (cell st x) <-> ls x t) -> ok (mark st S' x z).
  Proof.
    intros Hok Hx Hz Hdone. destruct (mark_get st S' x z Hok Hx) as (Nx & Fx & Ho).
    destruct Hok as [l1 l2 l3 v1 u1 d1]. constructor; simpl; rewrite ?upd_length; auto.
    - intros v Hv. destruct (Nat.eq_dec v x) as [->|Hvx]; [rewrite Nx; lia|]. rewrite (proj1 (Ho v Hvx)); auto.
    - intros v Hv H0. destruct (Nat.eq_dec v x) as [->|Hvx]; [rewrite Nx in H0; lia|].
      rewrite (proj1 (Ho v Hvx)) in H0. now apply u1.
    - intros v Hv H1. destruct (Nat.eq_dec v x) as [->|Hvx].
      + rewrite Nx in H1. split; [exact Fx|exact (Hdone H1)].
      + destruct (Ho v Hvx) as (EN & EF). rewrite EN in H1. rewrite EF. now apply d1.
  Qed.

  Lemma mark_frame_but st S' x z : ok st -> (x < n)%nat -> frame_but x st (mark st S' x z).
  Proof.
    intros Hok Hx v Hv Hvx. destruct (mark_get st S' x z Hok Hx) as (_ & _ & Ho).
    destruct (Ho v Hvx) as (-> & ->). split; auto.
  Qed.

  (* the loop  for y in R[x]  of traverse, for a node x whose successors all have smaller rank *)
  Section Loop.
    Variable f : nat.
    Variable x : nat.
    Variable S0 : list nat.
    Variable d : Z.
    Hypothesis Hx : (x < n)%nat.
    Hypothesis Hd : 0 < d.
    Hypothesis Hf : (rk x <= f)%nat.
    Hypothesis IHt : forall y st, ok st -> (y < n)%nat -> getN st y = 0 -> (rk y < f)%nat ->
      (forall s, (s < n)%nat -> 0 < getN st s -> (rk y < rk s)%nat) ->
      exists st', traverse R gc f y st = Some st' /\ ok st' /\ dS st' = dS st /\ getN st' y = -1 /\ frame st st'.

    Record linv (done : list nat) (st : dstate) : Prop := {
      li_ok : ok st;
      li_N : getN st x = d;
      li_F : getF st x = Some x;
      li_S : dS st = x :: S0;
      li_sound : forall t, In t (cell st x) -> ls x t;
      li_G : forall t, In t (nth x G []) -> In t (cell st x);
      li_done : forall y t, In y done -> ls y t -> In t (cell st x);
      li_rank : forall s, (s < n)%nat -> 0 < getN st s -> s = x \/ (rk x < rk s)%nat }.

    (* the body of  for y in R[x]  for one y; k is the rest of the loop *)
    Definition loop_step (y : nat) (st : dstate) (k : dstate -> option dstate) : option dstate :=
      match (if getN st y =? 0 then traverse R gc f y st else Some st) with
      | None => None
      | Some st' =>
        let n_x := getN st' x in
        let n_y := getN st' y in
        if negb (0 <? n_x) then None
        else if n_y =? 0 then None
        else
          let N'' := if (0 <? n_y) && (n_y <? n_x) then upd (dN st') x n_y else dN st' in
          match getF st' x, getF st' y with
          | Some cx, Some cy =>
              k (mkD (dS st') N'' (dF st') (upd (dH st') cx (union (cell st' cx) (cell st' cy))))
          | _, _ => None
          end
      end.

    Fixpoint loop (ys : list nat) (st : dstate) : option dstate :=
      match ys with
      | [] => Some st
      | y :: ys' => loop_step y st (loop ys')
      end.

    (* a call that respects the frame keeps the invariant: x is on the stack, so nothing of x changes *)
    Lemma linv_frame done st st' : linv done st -> ok st' -> dS st' = dS st -> frame st st' -> linv done st'.
    Proof.
      intros Hinv Hok' HS' Hfr'.
      assert (Hxn : getN st x <> 0) by (rewrite (li_N _ _ Hinv); lia).
      destruct (proj1 (Hfr' x Hx) Hxn) as (E1 & E2 & E3).
      constructor; auto.
      - rewrite E1. apply (li_N _ _ Hinv).
      - rewrite E2. apply (li_F _ _ Hinv).
      - rewrite HS'. apply (li_S _ _ Hinv).
      - rewrite E3. apply (li_sound _ _ Hinv).
      - rewrite E3. apply (li_G _ _ Hinv).
      - rewrite E3. apply (li_done _ _ Hinv).
      - intros s Hs Hpos. destruct (Hfr' s Hs) as (A1 & A2).
        destruct (Z.eq_dec (getN st s) 0) as [Z0|Z0].
        + destruct (A2 Z0); lia.
        + destruct (A1 Z0) as (E & _). rewrite E in Hpos. apply (li_rank _ _ Hinv s Hs Hpos).
    Qed.

    (* F[x].update(F[y]) for a finished successor y *)
    Lemma linv_union done y st : linv done st -> In y (nth x R []) -> getN st y = -1 ->
      let st2 := mkD (dS st) (dN st) (dF st) (upd (dH st) x (union (cell st x) (cell st y))) in
      linv (done ++ [y]) st2 /\ frame_but x st st2.
    Proof.
      intros Hinv Hyin HNy st2.
      destruct (ok_done _ (li_ok _ _ Hinv) y (Hrange x y Hyin) HNy) as (_ & Hcy).
      assert (Hcx2 : cell st2 x = union (cell st x) (cell st y)).
      { unfold cell, st2. simpl. apply nth_upd_eq. rewrite (ok_lH _ (li_ok _ _ Hinv)). exact Hx. }
      assert (Hco : forall v, v <> x -> cell st2 v = cell st v).
      { intros v Hv. unfold cell, st2. simpl. apply nth_upd_neq. auto. }
      split; [|intros v Hv Hvx; split; auto].
      destruct Hinv as [Hok' HN' HF' HS' Hso' HG' Hdo' Hra']. constructor; auto.
      - destruct Hok' as [l1 l2 l3 v1 u1 d1]. constructor; auto.
        + unfold st2. simpl. now rewrite upd_length.
        + intros v Hv H0 t. rewrite Hco; [now apply u1|]. intros ->. unfold getN in *. simpl in H0. lia.
        + intros v Hv H1. rewrite Hco; [now apply d1|]. intros ->. unfold getN in *. simpl in H1. lia.
      - intros t Ht. rewrite Hcx2 in Ht. apply union_In in Ht. destruct Ht as [Ht|Ht]; auto.
        apply ls_step with y; auto. now apply Hcy.
      - intros t Ht. rewrite Hcx2. apply union_In. left. auto.
      - intros y' t Hy' Hls. rewrite Hcx2. apply union_In. apply in_app_iff in Hy'.
        destruct Hy' as [Hy'|[<-|[]]]; [left; eauto|right; now apply Hcy].
    Qed.

    Lemma loop_ok : forall ys done st0 st, done ++ ys = nth x R [] -> linv done st -> frame_but x st0 st ->
      exists st', loop ys st = Some st' /\ linv (nth x R []) st' /\ frame_but x st0 st'.
    Proof.
      induction ys as [|y ys IH]; intros done st0 st Hsplit Hinv Hfr.
      - rewrite app_nil_r in Hsplit. subst done. exists st. auto.
      - assert (Hyin : In y (nth x R [])) by (rewrite <- Hsplit; apply in_app_iff; right; now left).
        pose proof (Hrange x y Hyin) as Hy. pose proof (Hrank x y Hyin) as Hrk.
        assert (Hcall : exists st', (if getN st y =? 0 then traverse R gc f y st else Some st) = Some st' /\
                                   linv done st' /\ getN st' y = -1 /\ frame st st').
        { destruct (Z.eqb_spec (getN st y) 0) as [E0|E0].
          - destruct (IHt y st (li_ok _ _ Hinv) Hy E0) as (st' & Ht & Hok' & HS' & HNy & Hfr'); [lia| |].
            + intros s Hs Hpos. destruct (li_rank _ _ Hinv s Hs Hpos) as [->|]; lia.
            + exists st'. eauto using linv_frame.
          - exists st. split; auto. split; auto. split; [|intros v Hv; split; auto].
            destruct (ok_vals _ (li_ok _ _ Hinv) y Hy) as [H0|[H1|Hp]]; auto; try contradiction.
            destruct (li_rank _ _ Hinv y Hy Hp) as [->|]; lia. }
        destruct Hcall as (st' & Hc & Hinv' & HNy & Hfr').
        cbn [loop]. unfold loop_step. rewrite Hc. cbv zeta. rewrite (li_N _ _ Hinv'), HNy.
        destruct (Z.ltb_spec 0 d); [|lia]. simpl negb. cbv iota.
        change (-1 =? 0) with false. cbv iota.
        change (0 <? -1) with false. simpl andb. cbv iota.
        rewrite (li_F _ _ Hinv'), (proj1 (ok_done _ (li_ok _ _ Hinv') y Hy HNy)).
        destruct (linv_union done y st' Hinv' Hyin HNy) as (Hinv2 & Hfr2).
        apply (IH (done ++ [y]) st0 _); eauto using frame_but_trans, frame_to_but.
        rewrite <- app_assoc. exact Hsplit.
    Qed.
  End Loop.

  Lemma traverse_S f x st :
    traverse R gc (S f) x st =
    let S1 := x :: dS st in
    let d := Z.of_nat (length S1) in
    let st1 := mkD S1 (upd (dN st) x d) (upd (dF st) x (Some (nth x gc O))) (dH st) in
    match loop f x (nth x R []) st1 with
    | None => None
    | Some st2 =>
        if getN st2 x =? d then
          match getF st2 x with
          | Some fx => match pop_until x fx (dS st2) (dN st2) (dF st2) with
                       | Some (S', N', F') => Some (mkD S' N' F' (dH st2))
                       | None => None
                       end
          | None => None
          end
        else Some st2
    end.
  Proof. reflexivity. Qed.

  Lemma traverse_ok f : forall x st, ok st -> (x < n)%nat -> getN st x = 0 -> (rk x < f)%nat ->
    (forall s, (s < n)%nat -> 0 < getN st s -> (rk x < rk s)%nat) ->
    exists st', traverse R gc f x st = Some st' /\ ok st' /\ dS st' = dS st /\ getN st' x = -1 /\ frame st st'.
  Proof.
    induction f as [|f IHf]; intros x st Hok Hx HN0 Hrkf Hstack; [lia|].
    rewrite traverse_S. cbv zeta. rewrite gc_nth by exact Hx.
    set (d := Z.of_nat (length (x :: dS st))). fold (mark st (x :: dS st) x d).
    assert (Hd : 0 < d) by (unfold d; simpl length; lia).
    destruct (mark_get st (x :: dS st) x d Hok Hx) as (HN1x & HF1x & H1o).
    assert (Hinv1 : linv x (dS st) d [] (mark st (x :: dS st) x d)).
    { constructor; auto.
      - apply mark_ok; auto. intros; lia.
      - intros t Ht. apply ls_base. now apply (ok_unv _ Hok x Hx HN0).
      - intros t Ht. now apply (ok_unv _ Hok x Hx HN0).
      - intros y t [].
      - intros s Hs Hp. destruct (Nat.eq_dec s x) as [->|Hsx]; auto. right.
        rewrite (proj1 (H1o s Hsx)) in Hp. auto. }
    destruct (loop_ok f x (dS st) d Hx Hd ltac:(lia)
                (fun y st' Ho Hy H0 Hr Hs => IHf y st' Ho Hy H0 Hr Hs)
                (nth x R []) [] st _ eq_refl Hinv1 (mark_frame_but _ _ _ _ Hok Hx)) as (st2 & Hl & Hinv2 & Hfr2).
    rewrite Hl. destruct Hinv2 as [Hok2 HN2 HF2 HS2 Hso2 HG2 Hdo2 Hra2].
    rewrite HN2, Z.eqb_refl, HF2, HS2. simpl pop_until. rewrite Nat.eqb_refl.
    destruct (mark_get st2 (dS st) x (-1) Hok2 Hx) as (HN3x & HF3x & H3o).
    exists (mark st2 (dS st) x (-1)). split; [reflexivity|]. split; [|split; [reflexivity|split; [exact HN3x|]]].
    - apply mark_ok; auto. intros _ t. split; auto.
      intros Hls. destruct (ls_inv _ _ Hls) as [Hg|(y & Hy & Hly)]; eauto.
    - intros v Hv. destruct (Nat.eq_dec v x) as [->|Hvx].
      + split; [intros Hn; contradiction|]. intros _. right. exact HN3x.
      + destruct (H3o v Hvx) as (-> & ->). now apply Hfr2.
  Qed.

  Hypothesis Hrkb : forall x, (x < n)%nat -> (rk x < S n)%nat.

  Definition quiet (st : dstate) : Prop :=
    ok st /\ dS st = [] /\ forall v, (v < n)%nat -> getN st v = 0 \/ getN st v = -1.

  Lemma outer_ok : forall xs st, quiet st -> (forall x, In x xs -> (x < n)%nat) ->
    exists st', outer R gc (S n) xs st = Some st' /\ quiet st' /\
                (forall v, (v < n)%nat -> getN st v = -1 -> getN st' v = -1) /\
                (forall x, In x xs -> getN st' x = -1).
  Proof.
    induction xs as [|x xs IH]; intros st (Hok & HS & Hq) Hxs; cbn [outer].
    - exists st. split; [reflexivity|]. split; [exact (conj Hok (conj HS Hq))|]. split; auto. intros x [].
    - assert (Hx : (x < n)%nat) by (apply Hxs; now left).
      destruct (Z.eqb_spec (getN st x) 0) as [E0|E0].
      + destruct (traverse_ok (S n) x st Hok Hx E0 (Hrkb x Hx)) as (st1 & Ht & Hok1 & HS1 & HN1 & Hfr1).
        { intros s Hs Hp. destruct (Hq s Hs); lia. }
        rewrite Ht.
        assert (Hq1 : quiet st1).
        { split; auto. split; [congruence|]. intros v Hv. destruct (Hfr1 v Hv) as (A1 & A2).
          destruct (Hq v Hv) as [Z0|Z1]; auto. right. destruct A1 as (E & _); [lia|]. congruence. }
        destruct (IH st1 Hq1 (fun y Hy => Hxs y (or_intror Hy))) as (st' & Ho & Hq' & Hk & Hall).
        exists st'. split; auto. split; auto. split.
        * intros v Hv H1. apply Hk; auto. destruct (Hfr1 v Hv) as (A1 & _). destruct A1 as (E & _); [lia|]. congruence.
        * intros y [<-|Hy]; auto.
      + destruct (IH st (conj Hok (conj HS Hq)) (fun y Hy => Hxs y (or_intror Hy))) as (st' & Ho & Hq' & Hk & Hall).
        exists st'. split; auto. split; auto. split; auto.
        intros y [<-|Hy]; auto. apply Hk; auto. destruct (Hq x Hx); [contradiction|auto].
  Qed.

  Theorem digraph_coded_acyclic :
    exists F H, digraph_coded n R gc G = Some (F, H) /\
                length F = n /\ length H = n /\
                (forall x, (x < n)%nat -> nth x F None = Some x) /\
                forall x, (x < n)%nat -> forall t, In t (fset F H x) <-> ls x t.
  Proof.
    unfold digraph_coded.
    set (st0 := mkD [] (repeat 0 n) (repeat None n) G).
    assert (HN0 : forall v, (v < n)%nat -> getN st0 v = 0).
    { intros v Hv. unfold getN, st0. simpl. apply nth_repeat. }
    assert (Hq0 : quiet st0).
    { split; [|split; auto].
      - constructor; simpl; rewrite ?repeat_length; auto.
        + intros v Hv H0 t. reflexivity.
        + intros v Hv H1. rewrite HN0 in H1 by auto. lia. }
    destruct (outer_ok (seq 0 n) st0 Hq0) as (st' & Ho & (Hok' & _ & _) & _ & Hall).
    { intros x Hx. apply in_seq in Hx. lia. }
    rewrite Ho. exists (dF st'), (dH st'). split; auto.
    split; [apply (ok_lF _ Hok')|]. split; [apply (ok_lH _ Hok')|].
    assert (Hd : forall x, (x < n)%nat -> getF st' x = Some x /\ forall t, In t (cell st' x) <-> ls x t).
    { intros x Hx. apply (ok_done _ Hok' x Hx). apply Hall. apply in_seq. lia. }
    split.
    - intros x Hx. apply (Hd x Hx).
    - intros x Hx t. destruct (Hd x Hx) as (HF & Hc). unfold fset. unfold getF in HF. rewrite HF. exact (Hc t).
  Qed.
End Acyclic.

Lemma cells_identity n F : length F = n -> (forall x, x < n -> nth x F None = Some x) ->
  map (fun c : option nat => match c with Some c => c | None => O end) F = seq 0 n.
Proof.
  intros HL HF. apply (nth_ext _ _ O O).
  - now rewrite map_length, seq_length.
  - intros i Hi. rewrite map_length, HL in Hi. rewrite seq_nth by exact Hi. simpl.
    set (f := fun c : option nat => match c with Some c => c | None => O end).
    rewrite (nth_indep _ O (f None)) by (rewrite map_length; lia).
    rewrite map_nth. now rewrite (HF i Hi).
Qed.

(* both calls of compute_lookaheads, both relations acyclic: the second result is the least solution
   of the second system over the first result (whose cells hold the least solution of the first) *)
Theorem digraph_twice_acyclic n R1 R2 G rk1 rk2 :
  length G = n ->
  (forall x y, In y (nth x R1 []) -> y < n) -> (forall x y, In y (nth x R1 []) -> rk1 y < rk1 x) ->
  (forall x, x < n -> rk1 x < S n) ->
  (forall x y, In y (nth x R2 []) -> y < n) -> (forall x y, In y (nth x R2 []) -> rk2 y < rk2 x) ->
  (forall x, x < n -> rk2 x < S n) ->
  exists H1 F1' F2,
    digraph_twice n R1 R2 G = Some (F1', F2) /\ length H1 = n /\
    (forall x, x < n -> forall t, In t (nth x H1 []) <-> ls R1 G x t) /\
    (forall x, x < n -> forall t, In t (nth x F2 []) <-> ls R2 H1 x t).
Proof.
  intros HG Hr1 Hk1 Hb1 Hr2 Hk2 Hb2. unfold digraph_twice.
  destruct (digraph_coded_acyclic n R1 G rk1 HG Hr1 Hk1 Hb1) as (F1 & H1 & E1 & LF1 & LH1 & Hid1 & Hs1).
  rewrite E1. rewrite (cells_identity n F1 LF1 Hid1).
  destruct (digraph_coded_acyclic n R2 H1 rk2 LH1 Hr2 Hk2 Hb2) as (F2 & H2 & E2 & LF2 & LH2 & Hid2 & Hs2).
  rewrite E2. exists H1. eexists. eexists. split; [reflexivity|]. split; auto. split.
  - intros x Hx t. specialize (Hs1 x Hx t). unfold fset in Hs1. rewrite (Hid1 x Hx) in Hs1. exact Hs1.
  - intros x Hx t.
    assert (E : nth x (map (fset F2 H2) (seq 0 n)) [] = fset F2 H2 x).
    { rewrite (nth_indep _ [] (fset F2 H2 O)) by (rewrite map_length, seq_length; exact Hx).
      rewrite map_nth. now rewrite seq_nth. }
    rewrite E. apply Hs2. exact Hx.
Qed.

(* nodes 0,1 form a cycle of the first relation (their Read sets become ONE object); in the second
   relation only 0 -> 2.  The coded result gives node 1 the element 2 as well; the least solution of
   the second system over the least solution of the first does not.  (lark computes the same as the
   coded model: harness stream digraph-coded-twice.) *)
Example digraph_twice_aliasing_refuted :
  digraph_twice 3 [[1]; [0]; []] [[2]; []; []] [[0]; [1]; [2]]
  = Some ([[0; 1; 2]; [0; 1; 2]; [2]], [[0; 1; 2]; [0; 1; 2]; [2]]) /\
  ~ ls [[2]; []; []] [[0; 1]; [0; 1]; [2]] 1 2.
Proof.
  split; [vm_compute; reflexivity|].
  intros H. inversion H as [x t Hin | x y t Hy Hl]; subst; simpl in *.
  - destruct Hin as [E|[E|[]]]; discriminate.
  - contradiction.
Qed.
