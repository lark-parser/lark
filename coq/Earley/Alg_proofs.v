(* Proofs about Earley/Alg.v: the worklist algorithm computes exactly the chart of Earley/Spec.v
   (column i  U  to_scan i = chart i), never runs out of fuel, and therefore accepts exactly the
   sentences of the grammar. *)
From Coq Require Import List Arith Bool Lia.
From LV Require Import Cfg.Grammar Cfg.Analysis Cfg.Analysis_proofs Earley.Spec Earley.Alg.
Import ListNotations.

Lemma flat_map_map_length {A B C} (g : A -> B -> C) l1 l2 :
  length (flat_map (fun a => map (g a) l2) l1) = length l1 * length l2.
Proof. induction l1; simpl; auto. rewrite app_length, map_length, IHl1. auto. Qed.

Lemma syms_eqb_spec a b : syms_eqb a b = true <-> a = b.
Proof. revert a b. apply symbols_eqb_spec. intros [|x a] [|y b]; reflexivity. Qed.

Lemma rule_eqb_spec r1 r2 : rule_eqb r1 r2 = true <-> r1 = r2.
Proof.
  unfold rule_eqb. rewrite andb_true_iff, Nat.eqb_eq, syms_eqb_spec.
  destruct r1, r2; simpl. split; [intros [-> ->]; auto|intros H; inversion H; auto].
Qed.

Lemma item_eqb_spec x y : item_eqb x y = true <-> x = y.
Proof.
  unfold item_eqb. rewrite !andb_true_iff, !Nat.eqb_eq, rule_eqb_spec.
  destruct x, y; simpl. split; [intros [[-> ->] ->]; auto|intros H; inversion H; auto].
Qed.

Lemma memP x s : reflect (In x s) (mem x s).
Proof. apply iff_reflect. symmetry. apply existsb_eqb_In, item_eqb_spec. Qed.

Lemma nat_memP a s : reflect (In a s) (nat_mem a s).
Proof. apply iff_reflect. symmetry. apply existsb_eqb_In, Nat.eqb_eq. Qed.

Lemma set_add_In x y s : In y (set_add x s) <-> In y s \/ y = x.
Proof.
  unfold set_add. destruct (memP x s).
  - split; auto. intros [?| ->]; auto.
  - rewrite in_app_iff. simpl. intuition.
Qed.

Lemma nat_add_In a b s : In b (nat_add a s) <-> In b s \/ b = a.
Proof.
  unfold nat_add. destruct (nat_memP a s).
  - split; auto. intros [?| ->]; auto.
  - rewrite in_app_iff. simpl. intuition.
Qed.

Lemma set_add_nodup x s : NoDup s -> NoDup (set_add x s).
Proof. unfold set_add. destruct (memP x s); auto. intros. apply NoDup_snoc; auto. Qed.

(* The model sends a new item to to_scan when it expects a terminal and to the column otherwise, in three places
   (add_new, scan_step, init_step); the proofs speak of that test through is_term_item. *)
Definition is_term_item (x : item) : bool :=
  match expect x with Some (T _) => true | _ => false end.

Lemma term_item_T x t : expect x = Some (T t) -> is_term_item x = true.
Proof. unfold is_term_item. intros ->. auto. Qed.
Lemma term_item_NT x a : expect x = Some (NT a) -> is_term_item x = false.
Proof. unfold is_term_item. intros ->. auto. Qed.
Lemma term_item_None x : expect x = None -> is_term_item x = false.
Proof. unfold is_term_item. intros ->. auto. Qed.

Lemma add_new_eq st x :
  add_new st x =
  if is_term_item x then mkPC (pc_col st) (pc_work st) (set_add x (pc_scan st)) (pc_held st)
  else if mem x (pc_col st) then st
       else mkPC (pc_col st ++ [x]) (x :: pc_work st) (pc_scan st) (pc_held st).
Proof. unfold add_new, is_term_item. destruct (expect x) as [[?|?]|]; reflexivity. Qed.

Record ext (l : list item) (st st' : pc_state) : Prop := mkExt {
  ext_held : pc_held st' = pc_held st;
  ext_col : incl (pc_col st) (pc_col st');
  ext_work : incl (pc_work st) (pc_work st');
  ext_scan : incl (pc_scan st) (pc_scan st');
  ext_new_t : forall x, In x l -> is_term_item x = true -> In x (pc_scan st');
  ext_new_n : forall x, In x l -> is_term_item x = false -> In x (pc_col st');
  ext_col_inv : forall y, In y (pc_col st') ->
      In y (pc_col st) \/ (In y l /\ is_term_item y = false /\ In y (pc_work st'));
  ext_scan_inv : forall y, In y (pc_scan st') -> In y (pc_scan st) \/ (In y l /\ is_term_item y = true);
  ext_work_inv : forall y, In y (pc_work st') -> In y (pc_work st) \/ (In y l /\ is_term_item y = false);
  ext_nodup : NoDup (pc_col st) -> NoDup (pc_col st');
  ext_len : length (pc_col st') + length (pc_work st) = length (pc_col st) + length (pc_work st')
}.

Lemma ext_refl st : ext [] st st.
Proof. constructor; auto using incl_refl; try (intros ? []). Qed.

Lemma ext_one st x : ext [x] st (add_new st x).
Proof.
  rewrite add_new_eq. destruct (is_term_item x) eqn:Ht; [|destruct (memP x (pc_col st)) as [Hin|Hnin]].
  - constructor; cbn [pc_col pc_work pc_scan pc_held]; auto using incl_refl.
    + intros y Hy. apply set_add_In; auto.
    + intros y [<- |[]] _. apply set_add_In; auto.
    + intros y [<- |[]] H. congruence.
    + intros y Hy. apply set_add_In in Hy. destruct Hy as [?| ->]; auto.
      right; split; [left; auto|auto].
  - constructor; auto using incl_refl.
    + intros y [<- |[]] H. congruence.
    + intros y [<- |[]] _. auto.
  - constructor; cbn [pc_col pc_work pc_scan pc_held]; auto using incl_refl.
    + intros y Hy. apply in_or_app; auto.
    + intros y Hy. right; auto.
    + intros y [<- |[]] H. congruence.
    + intros y [<- |[]] _. apply in_or_app; right; left; auto.
    + intros y Hy. apply in_app_or in Hy. destruct Hy as [?|[<- |[]]]; auto.
      right. repeat split; auto; left; auto.
    + intros y [<- |Hy]; auto. right; split; auto. left; auto.
    + intros. apply NoDup_snoc; auto.
    + rewrite app_length. simpl. lia.
Qed.

Lemma ext_trans l1 l2 st st1 st2 : ext l1 st st1 -> ext l2 st1 st2 -> ext (l1 ++ l2) st st2.
Proof.
  intros A B. constructor.
  - rewrite (ext_held _ _ _ B). apply A.
  - eapply incl_tran; [apply A|apply B].
  - eapply incl_tran; [apply A|apply B].
  - eapply incl_tran; [apply A|apply B].
  - intros x Hx Ht. apply in_app_or in Hx. destruct Hx as [Hx|Hx].
    + apply (ext_scan _ _ _ B). apply (ext_new_t _ _ _ A); auto.
    + apply (ext_new_t _ _ _ B); auto.
  - intros x Hx Ht. apply in_app_or in Hx. destruct Hx as [Hx|Hx].
    + apply (ext_col _ _ _ B). apply (ext_new_n _ _ _ A); auto.
    + apply (ext_new_n _ _ _ B); auto.
  - intros y Hy. destruct (ext_col_inv _ _ _ B y Hy) as [H1|(H1 & H2 & H3)].
    + destruct (ext_col_inv _ _ _ A y H1) as [?|(H2 & H3 & H4)]; auto.
      right. repeat split; auto. apply in_or_app; auto. apply (ext_work _ _ _ B); auto.
    + right. repeat split; auto. apply in_or_app; auto.
  - intros y Hy. destruct (ext_scan_inv _ _ _ B y Hy) as [H1|(H1 & H2)].
    + destruct (ext_scan_inv _ _ _ A y H1) as [?|(H2 & H3)]; auto.
      right. split; auto. apply in_or_app; auto.
    + right. split; auto. apply in_or_app; auto.
  - intros y Hy. destruct (ext_work_inv _ _ _ B y Hy) as [H1|(H1 & H2)].
    + destruct (ext_work_inv _ _ _ A y H1) as [?|(H2 & H3)]; auto.
      right. split; auto. apply in_or_app; auto.
    + right. split; auto. apply in_or_app; auto.
  - intros. apply (ext_nodup _ _ _ B), (ext_nodup _ _ _ A); auto.
  - pose proof (ext_len _ _ _ A). pose proof (ext_len _ _ _ B). lia.
Qed.

Lemma ext_fold l : forall st, ext l st (fold_left add_new l st).
Proof.
  induction l as [|x l IH]; intros st; simpl.
  - apply ext_refl.
  - change (x :: l) with ([x] ++ l). eapply ext_trans; [apply ext_one|apply IH].
Qed.

Lemma solution_spec start x :
  is_solution start x = true <-> expect x = None /\ lhs (irule x) = start /\ orig x = 0.
Proof.
  unfold is_solution. destruct (expect x).
  - split; [discriminate|intros (F & _); discriminate].
  - rewrite andb_true_iff, !Nat.eqb_eq. tauto.
Qed.

Lemma expect_some_lt x s : expect x = Some s -> dot x < length (rhs (irule x)).
Proof. unfold expect. intros H. apply nth_error_Some. congruence. Qed.

Lemma expect_complete r i : expect (mkItem r (length (rhs r)) i) = None.
Proof. apply nth_error_None. auto. Qed.

(* the terminals a list of items expects (Alg.expected_terminals, Expected.expected_at, DynReport.scan_expected) *)
Lemma expected_In q t :
  In t (flat_map (fun x => match expect x with Some (T t) => [t] | _ => [] end) q) <->
  exists x, In x q /\ expect x = Some (T t).
Proof.
  rewrite in_flat_map. split; intros (x & Hx & H); exists x; split; auto.
  - destruct (expect x) as [[t'|a]|]; simpl in H; try contradiction. destruct H as [->|[]]. reflexivity.
  - rewrite H. left; reflexivity.
Qed.

(* scan and the initial items: both distribute new items over (next column, next to_scan) *)
Definition place (y : item) (acc : list item * list item) : list item * list item :=
  match expect y with
  | Some (T _) => (fst acc, set_add y (snd acc))
  | _ => (set_add y (fst acc), snd acc)
  end.
Definition opt_place (o : option item) (acc : list item * list item) :=
  match o with Some y => place y acc | None => acc end.

Lemma place_eq y acc :
  place y acc = if is_term_item y then (fst acc, set_add y (snd acc)) else (set_add y (fst acc), snd acc).
Proof. unfold place, is_term_item. destruct (expect y) as [[?|?]|]; reflexivity. Qed.

(* side true = to_scan, side false = the column: an item goes to the side named by is_term_item *)
Definition side (b : bool) (acc : list item * list item) : list item := if b then snd acc else fst acc.

Lemma opt_place_In b o acc z :
  In z (side b (opt_place o acc)) <-> In z (side b acc) \/ (o = Some z /\ is_term_item z = b).
Proof.
  destruct o as [y|]; cbn [opt_place]; [|intuition discriminate].
  rewrite place_eq. destruct (is_term_item y) eqn:Ht, b; cbn [side fst snd]; rewrite ?set_add_In;
    intuition congruence.
Qed.

Lemma places_In {A} (step : list item * list item -> A -> list item * list item) (f : A -> option item) :
  (forall acc x, step acc x = opt_place (f x) acc) ->
  forall b z l acc,
    In z (side b (fold_left step l acc)) <->
    In z (side b acc) \/ (is_term_item z = b /\ exists x, In x l /\ f x = Some z).
Proof.
  intros Hstep b z. induction l as [|a l IH]; intros acc; simpl.
  - split; auto. intros [?|(_ & x & [] & _)]; auto.
  - rewrite IH, Hstep, opt_place_In. split.
    + intros [[?|[Hf Ht]]|(Ht & x & Hx & Hf)]; auto; right; split; auto.
      * exists a. auto.
      * exists x. auto.
    + intros [?|(Ht & x & [<- |Hx] & Hf)]; auto. right; split; auto. exists x; auto.
Qed.

Lemma places_nodup {A} (step : list item * list item -> A -> list item * list item) (f : A -> option item) :
  (forall acc x, step acc x = opt_place (f x) acc) ->
  forall l acc, NoDup (fst acc) -> NoDup (fst (fold_left step l acc)).
Proof.
  intros Hstep l. apply (fold_left_inv (fun acc => NoDup (fst acc))). intros acc a _ ND. rewrite Hstep.
  destruct (f a) as [y|]; cbn [opt_place]; auto.
  rewrite place_eq. destruct (is_term_item y); cbn [fst]; auto using set_add_nodup.
Qed.

Lemma places_spec {A} (step : list item * list item -> A -> list item * list item) (f : A -> option item) :
  (forall acc x, step acc x = opt_place (f x) acc) ->
  forall l c q c' q', fold_left step l (c, q) = (c', q') ->
    incl c c' /\ incl q q' /\
    (forall x y, In x l -> f x = Some y -> In y c' \/ In y q') /\
    (forall z, In z c' -> In z c \/ (is_term_item z = false /\ exists x, In x l /\ f x = Some z)) /\
    (forall z, In z q' -> In z q \/ (is_term_item z = true /\ exists x, In x l /\ f x = Some z)) /\
    (NoDup c -> NoDup c').
Proof.
  intros Hstep l c q c' q' H.
  pose proof (fun z => places_In step f Hstep false z l (c, q)) as Pc.
  pose proof (fun z => places_In step f Hstep true z l (c, q)) as Pq.
  pose proof (places_nodup step f Hstep l (c, q)) as ND. rewrite H in *. cbn [side fst snd] in *.
  repeat split; auto; try (intros z Hz; apply Pc || apply Pq; auto).
  intros x y Hx Hf. destruct (is_term_item y) eqn:Ht; [right; apply Pq|left; apply Pc]; eauto.
Qed.


Lemma places_seeds {A} (step : list item * list item -> A -> list item * list item) (f : A -> option item) :
  (forall acc x, step acc x = opt_place (f x) acc) ->
  forall l c q, fold_left step l ([], []) = (c, q) ->
    NoDup c /\ (forall z, In z c -> is_term_item z = false) /\ (forall z, In z q -> is_term_item z = true) /\
    (forall x y, In x l -> f x = Some y -> In y c \/ In y q) /\
    (forall ch : item -> Prop, (forall x y, In x l -> f x = Some y -> ch y) -> forall z, In z c \/ In z q -> ch z).
Proof.
  intros Hstep l c q H.
  pose proof (fun z => places_In step f Hstep false z l ([], [])) as Pc.
  pose proof (fun z => places_In step f Hstep true z l ([], [])) as Pq.
  pose proof (places_nodup step f Hstep l ([], [])) as ND. rewrite H in *. cbn [side fst snd In] in *.
  split; [apply ND; constructor|]. split; [|split; [|split]].
  - intros z Hz. apply Pc in Hz. tauto.
  - intros z Hz. apply Pq in Hz. tauto.
  - intros x y Hx Hf. destruct (is_term_item y) eqn:Ht; [right; apply Pq|left; apply Pc]; eauto.
  - intros ch Hch z [Hz|Hz]; [apply Pc in Hz|apply Pq in Hz]; destruct Hz as [[]|(_ & x & Hx & Hf)]; eauto.
Qed.

Lemma pred_lc_closed G (ch : nat -> item -> Prop) k a :
  (forall x a r, ch k x -> expect x = Some (NT a) -> In r G -> lhs r = a -> ch k (mkItem r 0 k)) ->
  (forall r, In r G -> lhs r = a -> ch k (mkItem r 0 k)) ->
  forall b, lc_reach G a b -> forall r, In r G -> lhs r = b -> ch k (mkItem r 0 k).
Proof.
  intros Hp H0. induction 1 as [|b r' c rest Hb IH Hr' Hl Hrhs]; intros r Hr Hlr; auto.
  apply (Hp (mkItem r' 0 k) c); auto. unfold expect; cbn [irule dot]. rewrite Hrhs. reflexivity.
Qed.

(* the items a column i can hold; item_space counts them *)
Definition all_items (G : grammar) (i : nat) : list item :=
  flat_map (fun r => flat_map (fun d => map (fun j => mkItem r d j) (seq 0 (S i)))
                              (seq 0 (S (length (rhs r))))) G.

Lemma all_items_length G i : length (all_items G i) = item_space G i.
Proof.
  unfold all_items, item_space. induction G as [|r G IH]; [simpl; lia|]. cbn [flat_map map list_sum fold_right].
  rewrite app_length, IH, flat_map_map_length, !seq_length. unfold list_sum. lia.
Qed.

Section ChartRules.
  Variable G : grammar.
  Variable tok : Type.
  Variable tmatch : nat -> tok -> bool.
  Variable start : nat.
  Variable w : list tok.

  Notation chart := (chart G tok tmatch w start).

  Lemma chart_pred' k x a r :
    chart k x -> expect x = Some (NT a) -> In r G -> lhs r = a -> chart k (mkItem r 0 k).
  Proof. destruct x as [r0 d j]. unfold expect; cbn [irule dot]. intros. eapply c_pred; eauto. Qed.

  Lemma chart_scan' k x t tk :
    chart k x -> expect x = Some (T t) -> nth_error w k = Some tk -> tmatch t tk = true ->
    chart (S k) (advance x).
  Proof. destruct x as [r d j]. unfold expect, advance; cbn [irule dot orig]. intros. eapply c_scan; eauto. Qed.

  Lemma expect_none_complete k x : chart k x -> expect x = None -> dot x = length (rhs (irule x)).
  Proof.
    intros Hc He. apply chart_wf in Hc. destruct Hc as (_ & Hd & _).
    unfold expect in He. apply nth_error_None in He. lia.
  Qed.

  Lemma chart_comp' i k y x a :
    chart i y -> expect y = Some (NT a) -> chart k x -> expect x = None -> orig x = i ->
    lhs (irule x) = a -> chart k (advance y).
  Proof.
    intros Hy Hey Hx Hex Ho Hl. pose proof (expect_none_complete _ _ Hx Hex) as Hd.
    destruct y as [r d j]. destruct x as [r' d' i']. unfold expect, advance in *; cbn [irule dot orig] in *.
    subst. eapply c_comp; eauto.
  Qed.

  Lemma chart_scanned m z : chart m z -> forall k, k < m ->
    exists x t tk, chart k x /\ expect x = Some (T t) /\ nth_error w k = Some tk /\ tmatch t tk = true.
  Proof.
    induction 1 as [r Hin Hl | k r d j a r' Hc IH Hn Hin Hl | k r d j t x Hc IH Hn Hw Hm
                   | k r d j a r' i Hc1 IH1 Hn Hc2 IH2 Hl]; intros k' Hk'; auto; [lia|].
    destruct (Nat.eq_dec k' k) as [->|Hne]; [|apply IH; lia].
    exists (mkItem r d j), t, x. auto.
  Qed.
End ChartRules.

Section Proofs.
  Variable G : grammar.
  Variable predictions : nat -> list rule.
  Variable tok : Type.
  Variable tmatch : nat -> tok -> bool.
  Variable start : nat.
  Variable w : list tok.
  (* what the proofs need from the prediction table (both hold for Analysis.predictions) *)
  Hypothesis pred_sound : forall a r, In r (predictions a) -> In r G /\ lc_reach G a (lhs r).
  Hypothesis pred_direct : forall a r, In r G -> lhs r = a -> In r (predictions a).

  Notation chart := (chart G tok tmatch w start).
  Notation pc_step := (pc_step predictions).
  Notation pc_loop := (pc_loop predictions).

  Lemma chart_pred_lc k x a : chart k x -> expect x = Some (NT a) ->
    forall b, lc_reach G a b -> forall r, In r G -> lhs r = b -> chart k (mkItem r 0 k).
  Proof.
    intros Hc He. apply (pred_lc_closed G chart k a (chart_pred' G tok tmatch start w k)). intros r. apply (chart_pred' _ _ _ _ _ k x a r Hc He).
  Qed.

  Lemma chart_init_lc : forall b, lc_reach G start b -> forall r, In r G -> lhs r = b -> chart 0 (mkItem r 0 0).
  Proof. apply (pred_lc_closed G chart 0 start (chart_pred' G tok tmatch start w 0)). intros; constructor; auto. Qed.

  (* one predict_and_complete call at column i, given the finished earlier columns *)
  Section Column.
    (* ch: the chart the columns are compared with; only its closure under prediction and completion and the
       well-formedness of its items are used (instantiated with Spec.chart here and with the position-graph
       chart of the dynamic lexer in Dyn_proofs.v) *)
    Variable ch : nat -> item -> Prop.
    Hypothesis ch_wf : forall k x, ch k x ->
      In (irule x) G /\ dot x <= length (rhs (irule x)) /\ orig x <= k.
    Hypothesis ch_pred : forall k x a r,
      ch k x -> expect x = Some (NT a) -> In r G -> lhs r = a -> ch k (mkItem r 0 k).
    Hypothesis ch_comp : forall i k y x a,
      ch i y -> expect y = Some (NT a) -> ch k x -> expect x = None -> orig x = i ->
      lhs (irule x) = a -> ch k (advance y).
    Variable i : nat.
    Variable cols : list (list item).
    Hypothesis cols_sound : forall j x, In x (nth j cols []) -> ch j x.

    Definition inq (st : pc_state) (z : item) : Prop := In z (pc_col st) \/ In z (pc_scan st).

    Lemma inq_ext l st st' z : ext l st st' -> inq st z -> inq st' z.
    Proof. intros E [H|H]; [left; apply (ext_col _ _ _ E)|right; apply (ext_scan _ _ _ E)]; auto. Qed.

    Lemma inq_new l st st' z : ext l st st' -> In z l -> inq st' z.
    Proof.
      intros E H. case_eq (is_term_item z); intros Ht.
      - right. apply (ext_new_t _ _ _ E); auto.
      - left. apply (ext_new_n _ _ _ E); auto.
    Qed.

    Definition step_items (x : item) (st : pc_state) : list item :=
      match expect x with
      | None => map advance (filter (expects_nt (lhs (irule x)))
                               (if Nat.eqb (orig x) i then pc_col st else nth (orig x) cols []))
      | Some (NT a) => map (fun r => mkItem r 0 i) (predictions a)
                       ++ (if nat_mem a (pc_held st) then [advance x] else [])
      | Some (T _) => []
      end.
    Definition step_base (x : item) (st : pc_state) : pc_state :=
      match expect x with
      | None => if Nat.eqb (orig x) i
                then mkPC (pc_col st) (pc_work st) (pc_scan st) (nat_add (lhs (irule x)) (pc_held st)) else st
      | _ => st
      end.

    Lemma pc_step_eq x st : pc_step i cols x st = fold_left add_new (step_items x st) (step_base x st).
    Proof.
      unfold pc_step, step_items, step_base. destruct (expect x) as [[t|a]|]; auto.
    Qed.

    Lemma step_base_same x st :
      pc_col (step_base x st) = pc_col st /\ pc_work (step_base x st) = pc_work st /\
      pc_scan (step_base x st) = pc_scan st /\ incl (pc_held st) (pc_held (step_base x st)).
    Proof.
      unfold step_base. destruct (expect x) as [[t|a]|]; auto using incl_refl.
      destruct (Nat.eqb (orig x) i); cbn; auto using incl_refl.
      repeat split; auto. intros b Hb. apply nat_add_In; auto.
    Qed.

    Lemma step_ext x st : ext (step_items x st) (step_base x st) (pc_step i cols x st).
    Proof. rewrite pc_step_eq. apply ext_fold. Qed.

    Lemma step_grows x st :
      incl (pc_col st) (pc_col (pc_step i cols x st)) /\ incl (pc_scan st) (pc_scan (pc_step i cols x st)) /\
      (NoDup (pc_col st) -> NoDup (pc_col (pc_step i cols x st))) /\
      length (pc_col (pc_step i cols x st)) + length (pc_work st) =
      length (pc_col st) + length (pc_work (pc_step i cols x st)).
    Proof.
      pose proof (step_ext x st) as X. destruct (step_base_same x st) as (B1 & B2 & B3 & _).
      rewrite <- B1, <- B2, <- B3.
      exact (conj (ext_col _ _ _ X) (conj (ext_scan _ _ _ X) (conj (ext_nodup _ _ _ X) (ext_len _ _ _ X)))).
    Qed.

    Lemma expects_nt_spec a y : expects_nt a y = true <-> expect y = Some (NT a).
    Proof.
      unfold expects_nt. destruct (expect y) as [[t|b]|]; split; try discriminate.
      - intros H. apply Nat.eqb_eq in H. subst; auto.
      - intros H. inversion H. apply Nat.eqb_refl.
    Qed.

    Definition pc_sound (st : pc_state) : Prop :=
      (forall x, In x (pc_col st) -> ch i x) /\
      (forall x, In x (pc_scan st) -> ch i x) /\
      (forall x, In x (pc_work st) -> ch i x) /\
      (forall a, In a (pc_held st) ->
                 exists x, ch i x /\ expect x = None /\ orig x = i /\ lhs (irule x) = a).

    Lemma step_items_sound x st :
      pc_sound st -> ch i x -> forall y, In y (step_items x st) -> ch i y.
    Proof.
      intros (S1 & S2 & S3 & S4) Hx y Hy. unfold step_items in Hy.
      destruct (expect x) as [[t|a]|] eqn:E.
      - destruct Hy.
      - apply in_app_or in Hy. destruct Hy as [Hy|Hy].
        + apply in_map_iff in Hy. destruct Hy as (r & <- & Hr).
          destruct (pred_sound _ _ Hr) as (Hg & Hreach).
          apply (pred_lc_closed G ch i a (ch_pred i) (fun r' => ch_pred i x a r' Hx E) _ Hreach); auto.
        + destruct (nat_memP a (pc_held st)) as [Hin|]; [|destruct Hy].
          destruct Hy as [<- |[]]. destruct (S4 a Hin) as (z & Hz & Hez & Hoz & Hlz).
          eapply ch_comp; eauto.
      - apply in_map_iff in Hy. destruct Hy as (o & <- & Ho).
        apply filter_In in Ho. destruct Ho as (Ho & He). apply expects_nt_spec in He.
        destruct (Nat.eqb (orig x) i) eqn:Eo.
        + apply Nat.eqb_eq in Eo. eapply ch_comp; eauto.
        + eapply (ch_comp (orig x)); eauto.
    Qed.

    Lemma pc_sound_ext l st st' :
      pc_sound st -> (forall y, In y l -> ch i y) -> ext l st st' -> pc_sound st'.
    Proof.
      intros (S1 & S2 & S3 & S4) Hl E. repeat split.
      - intros x Hx. destruct (ext_col_inv _ _ _ E x Hx) as [?|(? & _)]; auto.
      - intros x Hx. destruct (ext_scan_inv _ _ _ E x Hx) as [?|(? & _)]; auto.
      - intros x Hx. destruct (ext_work_inv _ _ _ E x Hx) as [?|(? & _)]; auto.
      - rewrite (ext_held _ _ _ E). auto.
    Qed.

    Lemma step_sound x col work scan held :
      pc_sound (mkPC col (x :: work) scan held) ->
      pc_sound (pc_step i cols x (mkPC col work scan held)).
    Proof.
      intros S. assert (Hx : ch i x) by (apply S; left; auto).
      assert (S' : pc_sound (mkPC col work scan held)).
      { destruct S as (S1 & S2 & S3 & S4). repeat split; auto. intros y Hy. apply S3; right; auto. }
      rewrite pc_step_eq.
      eapply (pc_sound_ext (step_items x (mkPC col work scan held))); [| |apply ext_fold].
      - destruct S' as (S1 & S2 & S3 & S4). unfold step_base.
        destruct (expect x) as [[t|a]|] eqn:E; try (repeat split; auto; fail).
        destruct (Nat.eqb (orig x) i) eqn:Eo; [|repeat split; auto].
        apply Nat.eqb_eq in Eo. repeat split; auto. cbn [pc_held]. intros a Ha.
        apply nat_add_In in Ha. destruct Ha as [Ha| ->]; auto. exists x; auto.
      - apply step_items_sound; auto.
    Qed.
  
    (* completeness invariant; P = the items already popped from the work list *)
    Record pc_inv (P : list item) (st : pc_state) : Prop := mkInv {
      inv_col_n : forall x, In x (pc_col st) -> is_term_item x = false;
      inv_scan_t : forall x, In x (pc_scan st) -> is_term_item x = true;
      inv_P_col : incl P (pc_col st);
      inv_col_P : forall x, In x (pc_col st) -> In x P \/ In x (pc_work st);
      inv_work_col : incl (pc_work st) (pc_col st);
      inv_pred : forall x a r, In x P -> expect x = Some (NT a) -> In r G -> lhs r = a ->
                   inq st (mkItem r 0 i);
      inv_held : forall x, In x P -> expect x = None -> orig x = i -> In (lhs (irule x)) (pc_held st);
      inv_comp_old : forall x y, In x P -> expect x = None -> orig x <> i ->
                   In y (nth (orig x) cols []) -> expect y = Some (NT (lhs (irule x))) ->
                   inq st (advance y);
      inv_comp_here : forall x y, In x P -> In y P -> expect x = None -> orig x = i ->
                   expect y = Some (NT (lhs (irule x))) -> inq st (advance y)
    }.

    Lemma step_inv P x col work scan held :
      pc_inv P (mkPC col (x :: work) scan held) ->
      pc_inv (x :: P) (pc_step i cols x (mkPC col work scan held)).
    Proof.
      intros I. set (st := mkPC col work scan held).
      pose proof (step_ext x st) as E. destruct (step_base_same x st) as (B1 & B2 & B3 & B4).
      set (st' := pc_step i cols x st) in *.
      assert (Hcol : incl col (pc_col st')).
      { intros y Hy. apply (ext_col _ _ _ E). rewrite B1. exact Hy. }
      assert (Hmono : forall z, inq (mkPC col (x :: work) scan held) z -> inq st' z).
      { intros z [Hz|Hz]; [left; apply (ext_col _ _ _ E); rewrite B1|right; apply (ext_scan _ _ _ E); rewrite B3]; exact Hz. }
      assert (Hxcol : In x col) by (apply (inv_work_col _ _ I); left; auto).
      assert (Hterm : forall y, In y (step_items x st) -> is_term_item y = false -> In y (pc_col st')).
      { intros; apply (ext_new_n _ _ _ E); auto. }
      constructor.
      - intros y Hy. destruct (ext_col_inv _ _ _ E y Hy) as [Hy'|(_ & ? & _)]; auto.
        rewrite B1 in Hy'. apply (inv_col_n _ _ I y Hy').
      - intros y Hy. destruct (ext_scan_inv _ _ _ E y Hy) as [Hy'|(_ & ?)]; auto.
        rewrite B3 in Hy'. apply (inv_scan_t _ _ I y Hy').
      - intros y [<- |Hy]; apply Hcol; auto. apply (inv_P_col _ _ I); auto.
      - intros y Hy. destruct (ext_col_inv _ _ _ E y Hy) as [Hy'|(_ & _ & ?)]; auto.
        rewrite B1 in Hy'. destruct (inv_col_P _ _ I y Hy') as [?|[<- |Hw]].
        + left; right; auto.
        + left; left; auto.
        + right. apply (ext_work _ _ _ E). rewrite B2. exact Hw.
      - intros y Hy. destruct (ext_work_inv _ _ _ E y Hy) as [Hy'|(Hl & Ht)].
        + rewrite B2 in Hy'. apply Hcol. apply (inv_work_col _ _ I). right; exact Hy'.
        + apply Hterm; auto.
      - (* predictions *)
        intros z a r [<- |Hz] He Hr Hl.
        + eapply inq_new; [exact E|]. unfold step_items. rewrite He.
          apply in_or_app. left. apply in_map_iff. exists r. split; auto.
        + apply Hmono. eapply (inv_pred _ _ I); eauto.
      - (* held completions *)
        intros z [<- |Hz] He Ho.
        + rewrite (ext_held _ _ _ E). unfold step_base. rewrite He.
          rewrite (proj2 (Nat.eqb_eq _ _) Ho). cbn [pc_held]. apply nat_add_In; auto.
        + rewrite (ext_held _ _ _ E). apply B4. apply (inv_held _ _ I z Hz He Ho).
      - (* completions from earlier columns *)
        intros z y [<- |Hz] He Ho Hy Hey.
        + eapply inq_new; [exact E|]. unfold step_items. rewrite He.
          rewrite (proj2 (Nat.eqb_neq _ _) Ho).
          apply in_map. apply filter_In. split; auto. apply expects_nt_spec; auto.
        + apply Hmono. eapply (inv_comp_old _ _ I); eauto.
      - (* completions inside this column: whichever of the two is popped second finds the other *)
        intros z y [<- |Hz] [<- |Hy] He Ho Hey.
        + congruence.
        + eapply inq_new; [exact E|]. unfold step_items. rewrite He.
          rewrite (proj2 (Nat.eqb_eq _ _) Ho).
          apply in_map. apply filter_In. split; [|apply expects_nt_spec; auto].
          unfold st; cbn [pc_col]. apply (inv_P_col _ _ I); auto.
        + eapply inq_new; [exact E|]. unfold step_items. rewrite Hey.
          apply in_or_app. right.
          pose proof (inv_held _ _ I z Hz He Ho) as Hh. cbn [pc_held] in Hh.
          unfold st; cbn [pc_held].
          destruct (nat_memP (lhs (irule z)) held); [left; auto|contradiction].
        + apply Hmono. eapply (inv_comp_here _ _ I z y); eauto.
    Qed.

    Lemma all_items_In x : ch i x -> In x (all_items G i).
    Proof.
      intros H. apply ch_wf in H. destruct H as (A & B & C). destruct x as [r d j]. cbn [irule dot orig] in *.
      unfold all_items. apply in_flat_map. exists r. split; auto.
      apply in_flat_map. exists d. split; [apply in_seq; lia|].
      apply in_map_iff. exists j. split; auto. apply in_seq; lia.
    Qed.

    (* The loop empties the work list within its fuel: every pop is of a distinct item of the column, and the
       column lives in the finite space all_items.  Both invariants hold of the final state. *)
    Lemma pc_loop_spec fuel : forall P st,
      pc_inv P st -> pc_sound st -> NoDup (pc_col st) ->
      item_space G i + length (pc_work st) <= fuel + length (pc_col st) ->
      exists st' P', pc_loop fuel i cols st = Some st' /\ pc_work st' = [] /\
        incl (pc_col st) (pc_col st') /\ incl (pc_scan st) (pc_scan st') /\ pc_sound st' /\ pc_inv P' st'.
    Proof.
      induction fuel as [|f IH]; intros P st I Sd ND Hlen;
        assert (Hb : length (pc_col st) <= item_space G i)
          by (rewrite <- all_items_length; apply NoDup_incl_length; auto;
              intros y Hy; apply all_items_In; apply (proj1 Sd); auto);
        destruct st as [col work scan held]; cbn [Alg.pc_loop pc_work pc_col pc_scan pc_held] in *;
        destruct work as [|x work].
      1, 3: exists (mkPC col [] scan held), P; auto 8 using incl_refl.
      - exfalso. simpl in Hlen. lia.
      - destruct (step_grows x (mkPC col work scan held)) as (G1 & G2 & G3 & L). cbn [pc_col pc_scan pc_work] in *.
        destruct (IH _ _ (step_inv _ _ _ _ _ _ I) (step_sound _ _ _ _ _ Sd) (G3 ND)) as (st' & P' & E & W & A & B & R);
          [simpl in Hlen; lia|].
        exists st', P'. repeat split; auto; try apply R; eapply incl_tran; eauto.
    Qed.

    (* What a finished call has produced, in the shape of the closure rules of a trace; the completer's originators
       are read from any trace that continues the earlier columns with the finished one. *)
    Record pc_result (col0 scan0 : list item) (st : pc_state) : Prop := mkPR {
      pr_seed : forall z, In z col0 \/ In z scan0 -> inq st z;
      pr_sound : forall x, inq st x -> ch i x;
      pr_col_n : forall x, In x (pc_col st) -> is_term_item x = false;
      pr_scan_t : forall x, In x (pc_scan st) -> is_term_item x = true;
      pr_pred : forall x a r, In x (pc_col st) -> expect x = Some (NT a) -> In r G -> lhs r = a ->
                   inq st (mkItem r 0 i);
      pr_comp : forall cs x y, In x (pc_col st) -> expect x = None ->
                   In y (nth (orig x) (cols ++ pc_col st :: cs) []) -> expect y = Some (NT (lhs (irule x))) ->
                   inq st (advance y)
    }.

    Lemma pc_spec col0 scan0 :
      length cols = i -> NoDup col0 ->
      (forall x, In x col0 -> ch i x) -> (forall x, In x scan0 -> ch i x) ->
      (forall x, In x col0 -> is_term_item x = false) -> (forall x, In x scan0 -> is_term_item x = true) ->
      exists st, predict_and_complete predictions (pc_fuel G i) i cols col0 scan0 = Some st /\
                 pc_result col0 scan0 st.
    Proof.
      intros Hlc ND Sc Sq Dc Dq. unfold predict_and_complete.
      set (st0 := mkPC col0 (rev col0) scan0 []).
      assert (S0 : pc_sound st0).
      { repeat split; cbn; auto. intros x Hx. apply Sc. apply in_rev; auto. intros a []. }
      assert (I0 : pc_inv [] st0).
      { constructor; cbn; auto; try (intros; contradiction).
        - intros x F; destruct F.
        - intros x Hx. right. apply in_rev in Hx. exact Hx.
        - intros x Hx. apply in_rev; auto. }
      destruct (pc_loop_spec (pc_fuel G i) [] st0 I0 S0 ND) as (st & P & Hst & W & A & B & (Sd1 & Sd2 & _) & I).
      { cbn. rewrite rev_length. unfold pc_fuel. lia. }
      exists st. split; auto.
      assert (HP : forall x, In x (pc_col st) -> In x P).
      { intros x Hx. destruct (inv_col_P _ _ I x Hx) as [?|Hw]; auto. rewrite W in Hw. destruct Hw. }
      constructor.
      - intros z [Hz|Hz]; [left; apply A|right; apply B]; exact Hz.
      - intros x [Hx|Hx]; auto.
      - apply (inv_col_n _ _ I).
      - apply (inv_scan_t _ _ I).
      - intros. eapply (inv_pred _ _ I); eauto.
      - (* the originators are in this column or in an earlier one *)
        intros cs x y Hx He Hy Hey.
        assert (Ho : orig x <= i) by (apply Sd1, ch_wf in Hx; lia).
        destruct (Nat.eq_dec (orig x) i) as [Heq|Hne].
        + rewrite Heq, <- Hlc, nth_middle in Hy. apply (inv_comp_here _ _ I x y); auto.
        + rewrite app_nth1 in Hy by lia. apply (inv_comp_old _ _ I x y); auto.
    Qed.
  End Column.

  Definition scan_pick (tk : tok) (x : item) : option item :=
    match expect x with
    | Some (T t) => if tmatch t tk then Some (advance x) else None
    | _ => None
    end.

  Lemma scan_step_eq tk acc x : scan_step tok tmatch tk acc x = opt_place (scan_pick tk x) acc.
  Proof.
    unfold scan_step, scan_pick. destruct (expect x) as [[t|a]|]; auto.
    destruct (tmatch t tk); auto.
  Qed.

  Lemma init_step_eq acc r : init_step acc r = opt_place (Some (mkItem r 0 0)) acc.
  Proof. reflexivity. Qed.

  Lemma scan_pick_spec tk x y :
    scan_pick tk x = Some y <-> exists t, expect x = Some (T t) /\ tmatch t tk = true /\ y = advance x.
  Proof.
    unfold scan_pick. split.
    - destruct (expect x) as [[t|a]|]; try discriminate. destruct (tmatch t tk) eqn:M; try discriminate.
      intros H; inversion H. eauto.
    - intros (t & -> & -> & ->). reflexivity.
  Qed.

  Definition colf (l : list (list item)) (k : nat) : list item := nth k l [].

  Lemma colf_app_lt l r k : k < length l -> colf (l ++ r) k = colf l k.
  Proof. intros. unfold colf. apply app_nth1; auto. Qed.
  Lemma colf_app_eq l c r k : length l = k -> colf (l ++ c :: r) k = c.
  Proof. intros <-. apply nth_middle. Qed.
  Lemma colf_overflow l k : length l <= k -> colf l k = [].
  Proof. intros. unfold colf. apply nth_overflow; auto. Qed.

  Section Closed.
    Variables (C Q : nat -> list item).
    Definition inT (k : nat) (z : item) : Prop := In z (C k) \/ In z (Q k).

    Record closed (n : nat) : Prop := mkClosed {
      cl_col_n : forall k x, k < n -> In x (C k) -> is_term_item x = false;
      cl_scan_t : forall k x, k < n -> In x (Q k) -> is_term_item x = true;
      cl_sound : forall k x, k < n -> inT k x -> chart k x;
      cl_init : forall r, 0 < n -> In r G -> lhs r = start -> inT 0 (mkItem r 0 0);
      cl_pred : forall k x a r, k < n -> In x (C k) -> expect x = Some (NT a) -> In r G -> lhs r = a ->
                  inT k (mkItem r 0 k);
      cl_scan : forall k x t tk, S k < n -> In x (Q k) -> expect x = Some (T t) ->
                  nth_error w k = Some tk -> tmatch t tk = true -> inT (S k) (advance x);
      cl_comp : forall k x y, k < n -> In x (C k) -> expect x = None -> In y (C (orig x)) ->
                  expect y = Some (NT (lhs (irule x))) -> inT k (advance y)
    }.

    Lemma inT_C n k x : closed n -> k < n -> inT k x -> is_term_item x = false -> In x (C k).
    Proof. intros Cl Hk [H|H] Ht; auto. rewrite (cl_scan_t _ Cl k x Hk H) in Ht. discriminate. Qed.
    Lemma inT_Q n k x : closed n -> k < n -> inT k x -> is_term_item x = true -> In x (Q k).
    Proof. intros Cl Hk [H|H] Ht; auto. rewrite (cl_col_n _ Cl k x Hk H) in Ht. discriminate. Qed.

    Theorem closed_complete n : closed n -> forall k x, chart k x -> k < n -> inT k x.
    Proof.
      intros Cl. induction 1 as [r Hin Hl | k r d j a r' Hc IH Hn Hin Hl | k r d j t x Hc IH Hn Hw Hm
                                | k r d j a r' i Hc1 IH1 Hn Hc2 IH2 Hl]; intros Hk.
      - apply (cl_init _ Cl); auto.
      - apply (cl_pred _ Cl k (mkItem r d j) a); auto.
        apply (inT_C n); auto. apply (term_item_NT (mkItem r d j) a Hn).
      - assert (Hk' : k < n) by lia.
        apply (cl_scan _ Cl k (mkItem r d j) t x); auto.
        apply (inT_Q n); auto. apply (term_item_T (mkItem r d j) t Hn).
      - assert (Hik : i <= k) by (apply chart_wf in Hc2; cbn [orig] in Hc2; lia).
        assert (Hi : i < n) by lia.
        apply (cl_comp _ Cl k (mkItem r' (length (rhs r')) i) (mkItem r d j)); auto using expect_complete.
        + apply (inT_C n); auto. apply term_item_None, expect_complete.
        + apply (inT_C n); auto. apply (term_item_NT (mkItem r d j) a Hn).
        + cbn [irule]. rewrite Hl. exact Hn.
    Qed.
  End Closed.

  Lemma closed_snoc n C Q :
    closed C Q n ->
    (forall x, In x (C n) -> is_term_item x = false) ->
    (forall x, In x (Q n) -> is_term_item x = true) ->
    (forall x, inT C Q n x -> chart n x) ->
    (n = 0 -> forall r, In r G -> lhs r = start -> inT C Q n (mkItem r 0 0)) ->
    (forall x a r, In x (C n) -> expect x = Some (NT a) -> In r G -> lhs r = a -> inT C Q n (mkItem r 0 n)) ->
    (forall m x t tk, n = S m -> In x (Q m) -> expect x = Some (T t) -> nth_error w m = Some tk ->
                      tmatch t tk = true -> inT C Q n (advance x)) ->
    (forall x y, In x (C n) -> expect x = None -> In y (C (orig x)) ->
                 expect y = Some (NT (lhs (irule x))) -> inT C Q n (advance y)) ->
    closed C Q (S n).
  Proof.
    intros Cl Dn Dt Sd Hi Hp Hs Hc.
    assert (Cases : forall k, k < S n -> k < n \/ k = n) by (intros; lia).
    constructor.
    - intros k x Hk. destruct (Cases k Hk) as [Hlt| ->]; [apply (cl_col_n _ _ _ Cl k x Hlt)|apply Dn].
    - intros k x Hk. destruct (Cases k Hk) as [Hlt| ->]; [apply (cl_scan_t _ _ _ Cl k x Hlt)|apply Dt].
    - intros k x Hk. destruct (Cases k Hk) as [Hlt| ->]; [apply (cl_sound _ _ _ Cl k x Hlt)|apply Sd].
    - intros r _. destruct n as [|n']; [apply Hi; auto|apply (cl_init _ _ _ Cl); lia].
    - intros k x a r Hk. destruct (Cases k Hk) as [Hlt| ->]; [apply (cl_pred _ _ _ Cl k x a r Hlt)|apply Hp].
    - intros k x t tk Hk. assert (Hk' : S k < n \/ n = S k) by lia.
      destruct Hk' as [Hlt|Heq]; [apply (cl_scan _ _ _ Cl k x t tk Hlt)|rewrite <- Heq; apply Hs, Heq].
    - intros k x y Hk. destruct (Cases k Hk) as [Hlt| ->]; [apply (cl_comp _ _ _ Cl k x y Hlt)|apply Hc].
  Qed.

  Definition out_ok (res : result) : Prop :=
    exists n, length (r_cols res) = n /\ length (r_scans res) = n /\
      closed (colf (r_cols res)) (colf (r_scans res)) n /\
      match r_out res with
      | Accept => n = S (length w) /\ existsb (is_solution start) (colf (r_cols res) (length w)) = true
      | RejectEOF => n = S (length w) /\ existsb (is_solution start) (colf (r_cols res) (length w)) = false
      | RejectTok k => n = S k /\ exists tk, nth_error w k = Some tk /\
                                              scan tok tmatch tk (colf (r_scans res) k) = ([], [])
      | OutOfFuel _ => False
      end.

  (* The state of the main loop before column i is computed: the trace so far, and the seeds of column i.  Closedness is
     stated for every continuation of the trace (closedness up to i only looks at the columns below i), so that the trace
     with the finished column appended is one of those the invariant speaks of, and closed_snoc adds the column. *)
  Record linv (i : nat) (cols scans : list (list item)) (col scanq : list item) : Prop := mkLInv {
    li_lc : length cols = i;
    li_ls : length scans = i;
    li_closed : forall cs qs, closed (colf (cols ++ cs)) (colf (scans ++ qs)) i;
    li_nodup : NoDup col;
    li_sound_c : forall x, In x col -> chart i x;
    li_sound_q : forall x, In x scanq -> chart i x;
    li_col_n : forall x, In x col -> is_term_item x = false;
    li_scan_t : forall x, In x scanq -> is_term_item x = true;
    li_init : i = 0 -> forall r, In r G -> lhs r = start -> In (mkItem r 0 0) col \/ In (mkItem r 0 0) scanq;
    li_scan : forall m x t tk, i = S m -> In x (colf scans m) -> expect x = Some (T t) -> nth_error w m = Some tk ->
                tmatch t tk = true -> In (advance x) col \/ In (advance x) scanq
  }.

  Lemma column_step i cols scans col scanq :
    linv i cols scans col scanq ->
    exists st, predict_and_complete predictions (pc_fuel G i) i cols col scanq = Some st /\
               (forall cs qs, closed (colf ((cols ++ [pc_col st]) ++ cs)) (colf ((scans ++ [pc_scan st]) ++ qs)) (S i)) /\
               (forall x, In x (pc_scan st) -> chart i x).
  Proof.
    intros [Hlc Hls Cl ND Sc Sq Dc Dq Hi Hs].
    assert (cols_sound : forall j x, In x (nth j cols []) -> chart j x).
    { intros j x Hx; destruct (Nat.lt_ge_cases j i) as [Hlt|Hge].
      - apply (cl_sound _ _ _ (Cl [] []) j x Hlt); left. rewrite app_nil_r. exact Hx.
      - rewrite nth_overflow in Hx by lia; destruct Hx. }
    destruct (pc_spec chart (chart_wf G tok tmatch w start) (chart_pred' G tok tmatch start w) (chart_comp' G tok tmatch start w) i cols cols_sound col scanq Hlc ND Sc Sq Dc Dq)
      as (st & Est & R).
    exists st. split; auto. split; [|intros x Hx; apply (pr_sound _ _ _ _ _ _ R); right; exact Hx].
    intros cs qs. rewrite <- !app_assoc. cbn [app].
    pose proof (colf_app_eq cols (pc_col st) cs i Hlc) as Ec.
    pose proof (colf_app_eq scans (pc_scan st) qs i Hls) as Eq.
    apply closed_snoc; [apply Cl|..]; unfold inT; rewrite ?Ec, ?Eq.
    - apply (pr_col_n _ _ _ _ _ _ R).
    - apply (pr_scan_t _ _ _ _ _ _ R).
    - apply (pr_sound _ _ _ _ _ _ R).
    - intros Hi0 r Hr Hl. apply (pr_seed _ _ _ _ _ _ R), Hi; auto.
    - apply (pr_pred _ _ _ _ _ _ R).
    - intros m x t tk Hm Hx. rewrite colf_app_lt in Hx by lia. intros. apply (pr_seed _ _ _ _ _ _ R), (Hs m x t tk); auto.
    - apply (pr_comp _ _ _ _ _ _ R cs).
  Qed.

  Lemma parse_loop_spec : forall toks i cols scans col scanq pre,
    w = pre ++ toks -> length pre = i -> linv i cols scans col scanq ->
    out_ok (parse_loop G predictions tok tmatch start toks i cols scans col scanq).
  Proof.
    induction toks as [|tk rest IH]; intros i cols scans col scanq pre Hw Hpre I;
      destruct (column_step i cols scans col scanq I) as (st & Est & Cl' & Sq');
      pose proof (li_lc _ _ _ _ _ I) as Hlc; pose proof (li_ls _ _ _ _ _ I) as Hls;
      pose proof (Cl' [] []) as Cl0; rewrite !app_nil_r in Cl0;
      pose proof (colf_app_eq cols (pc_col st) [] i Hlc) as Ec;
      pose proof (colf_app_eq scans (pc_scan st) [] i Hls) as Eq.
    - (* end of input *)
      cbn [Alg.parse_loop]. rewrite Est.
      assert (Hlen : length w = i) by (rewrite Hw, app_nil_r; auto).
      exists (S i). cbn [r_cols r_scans r_out]. rewrite !app_length, Hlc, Hls. cbn [length].
      split; [lia|split; [lia|split; [exact Cl0|]]].
      rewrite Hlen, Ec.
      destruct (existsb (is_solution start) (pc_col st)) eqn:Ex; auto.
    - (* one more token *)
      cbn [Alg.parse_loop]. rewrite Est.
      assert (Hnth : nth_error w i = Some tk).
      { rewrite Hw, nth_error_app2 by lia. rewrite Hpre, Nat.sub_diag. reflexivity. }
      destruct (scan tok tmatch tk (pc_scan st)) as [nc nq] eqn:Escan. cbn [fst snd].
      destruct (places_seeds _ _ (scan_step_eq tk) _ _ _ Escan) as (ND' & Dc' & Dq' & Pin & Psd).
      assert (Hsrc : forall z, In z nc \/ In z nq -> chart (S i) z).
      { apply Psd. intros x z Hx Hp. apply scan_pick_spec in Hp. destruct Hp as (t & He & Hm & ->).
        eapply chart_scan'; eauto. }
      assert (Rec : out_ok (parse_loop G predictions tok tmatch start rest (S i)
                              (cols ++ [pc_col st]) (scans ++ [pc_scan st]) nc nq)).
      { apply (IH (S i) _ _ nc nq (pre ++ [tk])); [rewrite <- app_assoc; exact Hw|rewrite app_length; simpl; lia|].
        constructor; auto; try (rewrite app_length; simpl; lia).
        - discriminate.
        - intros m x t tk0 Hm Hx He Hn Hmt. inversion Hm; subst m. rewrite Eq in Hx.
          rewrite Hnth in Hn. inversion Hn; subst tk0.
          apply (Pin x); auto. apply scan_pick_spec. eauto. }
      destruct nc as [|z nc']; [destruct nq as [|z nq']|]; auto.
      exists (S i). cbn [r_cols r_scans r_out]. rewrite !app_length, Hlc, Hls. cbn [length].
      split; [lia|split; [lia|split; [exact Cl0|]]]. split; auto.
      exists tk. split; auto. rewrite Eq. exact Escan.
  Qed.

  Lemma initial_spec_gen (ch : item -> Prop) c0 q0 :
    (forall r, In r (predictions start) -> ch (mkItem r 0 0)) ->
    initial predictions start = (c0, q0) ->
    NoDup c0 /\ (forall x, In x c0 -> ch x) /\ (forall x, In x q0 -> ch x) /\
    (forall x, In x c0 -> is_term_item x = false) /\ (forall x, In x q0 -> is_term_item x = true) /\
    (forall r, In r G -> lhs r = start -> In (mkItem r 0 0) c0 \/ In (mkItem r 0 0) q0).
  Proof.
    intros Hinit H.
    destruct (places_seeds init_step (fun r => Some (mkItem r 0 0)) init_step_eq _ _ _ H) as (ND & Dc & Dq & Pin & Psd).
    assert (Hsrc : forall z, In z c0 \/ In z q0 -> ch z).
    { apply Psd. intros r z Hr Hz. inversion Hz; subst z. auto. }
    repeat split; auto. intros r Hr Hl. apply (Pin r); auto.
  Qed.

  Lemma initial_spec c0 q0 : initial predictions start = (c0, q0) ->
    NoDup c0 /\ (forall x, In x c0 -> chart 0 x) /\ (forall x, In x q0 -> chart 0 x) /\
    (forall x, In x c0 -> is_term_item x = false) /\ (forall x, In x q0 -> is_term_item x = true) /\
    (forall r, In r G -> lhs r = start -> In (mkItem r 0 0) c0 \/ In (mkItem r 0 0) q0).
  Proof.
    apply initial_spec_gen. intros r Hr. destruct (pred_sound _ _ Hr) as (Hg & Hreach).
    eapply chart_init_lc; eauto.
  Qed.

  Theorem parse_ok : out_ok (parse G predictions tok tmatch start w).
  Proof.
    unfold parse. destruct (initial predictions start) as [c0 q0] eqn:E. cbn [fst snd].
    destruct (initial_spec _ _ E) as (ND & Sc & Sq & Dc & Dq & Hi).
    apply (parse_loop_spec w 0 [] [] c0 q0 []); auto. constructor; auto.
    - intros cs qs. constructor; intros; lia.
    - intros m x t tk F; discriminate.
  Qed.

  Notation res := (parse G predictions tok tmatch start w).

  Theorem alg_sound k x : In x (colf (r_cols res) k) \/ In x (colf (r_scans res) k) -> chart k x.
  Proof.
    destruct parse_ok as (n & L1 & L2 & Cl & _). intros H.
    destruct (Nat.lt_ge_cases k n) as [Hlt|Hge].
    - apply (cl_sound _ _ _ Cl k x Hlt). exact H.
    - rewrite !colf_overflow in H by lia. destruct H as [[]|[]].
  Qed.

  Theorem alg_complete k x : chart k x -> k < length (r_cols res) ->
    In x (colf (r_cols res) k) \/ In x (colf (r_scans res) k).
  Proof.
    destruct parse_ok as (n & L1 & L2 & Cl & _). intros H Hk.
    apply (closed_complete _ _ n Cl k x H). lia.
  Qed.

  Theorem fuel_suffices i : r_out res <> OutOfFuel i.
  Proof. destruct parse_ok as (n & _ & _ & _ & H). intros E. rewrite E in H. exact H. Qed.

  Theorem accepts_iff_spec :
    accepts G predictions tok tmatch start w = true <-> accepts_spec G tok tmatch w start.
  Proof.
    unfold accepts. destruct parse_ok as (n & L1 & L2 & Cl & Hout). split.
    - destruct (r_out res); try discriminate. intros _. destruct Hout as (Hn & Hex).
      apply existsb_exists in Hex. destruct Hex as (x & Hx & Hsol).
      apply solution_spec in Hsol. destruct Hsol as (He & Hl & Ho).
      assert (Hc : chart (length w) x) by (apply (cl_sound _ _ _ Cl); [lia|left; auto]).
      pose proof (expect_none_complete _ _ _ _ _ _ _ Hc He) as Hd.
      pose proof (chart_in_G _ _ _ _ _ _ _ Hc) as Hg.
      exists (irule x). repeat split; auto.
      destruct x as [r d j]; cbn [irule dot orig] in *. subst. exact Hc.
    - intros (r & Hr & Hl & Hc).
      destruct (r_out res) as [| |k|k] eqn:Eo; auto; exfalso.
      + (* the completed start item is in the last column *)
        destruct Hout as (Hn & Hex).
        assert (Hin : In (mkItem r (length (rhs r)) 0) (colf (r_cols res) (length w))).
        { apply (inT_C (colf (r_cols res)) (colf (r_scans res)) n); auto; [lia|apply (closed_complete _ _ n Cl); auto; lia|].
          apply term_item_None, expect_complete. }
        assert (Ht : existsb (is_solution start) (colf (r_cols res) (length w)) = true).
        { apply existsb_exists. eexists; split; [exact Hin|]. apply solution_spec.
          split; [apply expect_complete|auto]. }
        congruence.
      + (* the chart reaches beyond k, so some item of to_scan k matches token k, and scan finds it *)
        destruct Hout as (Hn & tk & Hnth & Hscan).
        assert (Hk : k < length w) by (apply nth_error_Some; congruence).
        destruct (chart_scanned _ _ _ _ _ _ _ Hc k Hk) as (x & t & tk' & Hx & He & Hnth' & Hm).
        rewrite Hnth in Hnth'. inversion Hnth'; subst tk'.
        assert (Hq : In x (colf (r_scans res) k)).
        { apply (inT_Q (colf (r_cols res)) (colf (r_scans res)) n); auto; [lia|apply (closed_complete _ _ n Cl); auto; lia|].
          apply (term_item_T x t He). }
        destruct (places_seeds _ _ (scan_step_eq tk) _ _ _ Hscan) as (_ & _ & _ & Pin & _).
        destruct (Pin x (advance x) Hq) as [[]|[]]. apply scan_pick_spec. eauto.
  Qed.
End Proofs.

(* lark's configuration: predictions = expand_rule, tokens = terminal ids *)
Section Basic.
  Variable G : grammar.
  Variable start : nat.
  Variable toks : list nat.

  Lemma pred_table_ok : forall p, In p (pred_table G) -> snd p = Analysis.predictions G (fst p).
  Proof.
    unfold pred_table. apply (fold_left_inv (fun tbl => forall p, In p tbl -> snd p = Analysis.predictions G (fst p))).
    - intros tbl r _ Ht q Hq. destruct (existsb (fun p0 => Nat.eqb (fst p0) (lhs r)) tbl); auto.
      apply in_app_or in Hq. destruct Hq as [?|[<- |[]]]; auto.
    - intros p [].
  Qed.

  Lemma pred_lookup_eq a : pred_lookup G (pred_table G) a = Analysis.predictions G a.
  Proof.
    unfold pred_lookup. destruct (find (fun p => Nat.eqb (fst p) a) (pred_table G)) as [p|] eqn:E; auto.
    apply find_some in E. destruct E as (Hin & He). apply Nat.eqb_eq in He. subst a.
    apply pred_table_ok; auto.
  Qed.

  Lemma pred_lookup_sound a r : In r (pred_lookup G (pred_table G) a) -> In r G /\ lc_reach G a (lhs r).
  Proof. rewrite pred_lookup_eq. apply predictions_spec. Qed.
  Lemma pred_lookup_direct a r : In r G -> lhs r = a -> In r (pred_lookup G (pred_table G) a).
  Proof. rewrite pred_lookup_eq. apply predictions_direct. Qed.

  Theorem earley_alg_sound k x :
    In x (colf (r_cols (earley_parse G start toks)) k) \/ In x (colf (r_scans (earley_parse G start toks)) k) ->
    chart G nat Nat.eqb toks start k x.
  Proof. apply (alg_sound G (pred_lookup G (pred_table G)) nat Nat.eqb start toks pred_lookup_sound pred_lookup_direct). Qed.

  Theorem earley_alg_complete k x :
    chart G nat Nat.eqb toks start k x -> k < length (r_cols (earley_parse G start toks)) ->
    In x (colf (r_cols (earley_parse G start toks)) k) \/ In x (colf (r_scans (earley_parse G start toks)) k).
  Proof. apply (alg_complete G (pred_lookup G (pred_table G)) nat Nat.eqb start toks pred_lookup_sound pred_lookup_direct). Qed.

  Theorem earley_trace_is_chart k x :
    k < length (r_cols (earley_parse G start toks)) ->
    (In x (colf (r_cols (earley_parse G start toks)) k) \/ In x (colf (r_scans (earley_parse G start toks)) k)
     <-> chart G nat Nat.eqb toks start k x).
  Proof. intros Hk. split; [apply earley_alg_sound|intros H; apply earley_alg_complete; auto]. Qed.

  Theorem earley_fuel_suffices i : r_out (earley_parse G start toks) <> OutOfFuel i.
  Proof. apply (fuel_suffices G (pred_lookup G (pred_table G)) nat Nat.eqb start toks pred_lookup_sound pred_lookup_direct). Qed.

  Theorem earley_accepts_iff_sentence :
    earley_accepts G start toks = true <-> derives G nat Nat.eqb [NT start] toks.
  Proof.
    unfold earley_accepts.
    rewrite (accepts_iff_spec G (pred_lookup G (pred_table G)) nat Nat.eqb start toks pred_lookup_sound pred_lookup_direct).
    apply accepts_iff_sentence.
  Qed.
End Basic.

(* the same for any token type, matcher and prediction table between "the rules of a" and "the rules
   reachable from a through first symbols" (e.g. no pre-computed closure at all) *)
Theorem accepts_iff_sentence_gen G predictions tok tmatch start w :
  (forall a r, In r (predictions a) -> In r G /\ lc_reach G a (lhs r)) ->
  (forall a r, In r G -> lhs r = a -> In r (predictions a)) ->
  (accepts G predictions tok tmatch start w = true <-> derives G tok tmatch [NT start] w).
Proof.
  intros ps pd. rewrite (accepts_iff_spec G predictions tok tmatch start w ps pd). apply accepts_iff_sentence.
Qed.
