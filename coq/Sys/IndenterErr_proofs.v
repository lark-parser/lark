(* C18, error paths: a stream ends with DedentError exactly at the first newline token outside brackets whose indentation is
   below the current level and not an open level; with AssertionError only when some closing bracket has no open one (the
   final `assert self.indent_level == [0]` never fails); IndexError never (given the NL contract). *)
From Coq Require Import ZArith List Bool String Ascii Lia.
From LV Require Import Base.Prelude Sys.IndenterBase Gen.IndenterHoles Sys.Indenter Sys.Indenter_proofs Sys.IndenterErr.
Import ListNotations.
Local Open Scope Z_scope.

Theorem run_assert_iff cfg ts : forall st o st' e,
  0 < tab_len cfg -> fresh cfg ts -> nl_ok cfg ts -> wf_stack (stack st) -> 0 <= paren st ->
  run cfg st ts = (o, st', e) ->
  (e = AssertErr -> unmatched cfg (paren st) ts = true) /\
  (unmatched cfg (paren st) ts = false -> e = Done \/ e = DedentErr).
Proof.
  intros st o st' e Htab Hfresh Hnl Hwf Hp H. apply run_runs in H; auto.
  destruct Hfresh as [Hne _]. clear Hnl Hwf Hp.
  induction H as [st Hwf | st t rest o1 st1 Hok Hph | st t rest o1 st1 st2 Hok Hph Hsp
                 | st t rest o1 st1 st2 o s e Hok Hph Hsp _ IH].
  1, 2: split; [discriminate | auto].
  all: destruct (phase1_spec _ _ _ _ _ _ Htab Hne Hok Hph) as (_ & Hp1 & _);
    destruct (step_paren_cases _ _ _ _ _ Hsp) as (_ & Hc); cbn [unmatched]; rewrite <- Hp1.
  - destruct Hc as [(_ & _ & [=])|[(Ho & Hcl & _ & [(_ & [=])|(Hg & _)])|(_ & _ & _ & [=])]].
    rewrite Ho, Hcl, Hg. split; [auto | discriminate].
  - destruct Hc as [(Ho & Hp2 & _)|[(Ho & Hcl & Hp2 & [(Hg & _)|(_ & [=])])|(Ho & Hcl & Hp2 & _)]];
      rewrite Ho, ?Hcl, ?Hg, <- Hp2; exact IH.
Qed.

Lemma steps_cons cfg st t rest :
  steps cfg st (t :: rest) =
  let '(o1, st1, e1) := phase1 cfg st t in
  match e1 with
  | Some _ => None
  | None => let '(st2, e2) := step_paren cfg st1 t in
            match e2 with Some _ => None | None => steps cfg st2 rest end
  end.
Proof. reflexivity. Qed.

Lemma phase1_dedent_iff cfg st t o1 st1 e1 :
  0 < tab_len cfg -> step_ok cfg st t -> phase1 cfg st t = (o1, st1, e1) ->
  (e1 = Some DedentErr <->
   ttype t = nl_type cfg /\ paren st <= 0 /\ exists indent, line_indent cfg t = Some indent /\
     indent < hd 0 (stack st) /\ ~ In indent (stack st)).
Proof.
  intros Htab (Hwf & Hp & _ & _ & Hnlt) Hph.
  unfold phase1 in Hph. destruct (String.eqb (ttype t) (nl_type cfg)) eqn:Hisnl.
  2:{ inversion Hph; subst. split; [discriminate|]. intros (A & _). apply String.eqb_neq in Hisnl. contradiction. }
  apply String.eqb_eq in Hisnl.
  destruct (Z_gt_le_dec (paren st) 0) as [Hin|Hout].
  { rewrite handle_NL_in_brackets in Hph by auto. inversion Hph; subst. split; [discriminate|]. intros (_ & B & _). lia. }
  destruct (after_last_nl (tval t)) as [istr|] eqn:Ha; [|exfalso; apply (Hnlt Hisnl); auto].
  assert (Hli : line_indent cfg t = Some (h_indent cfg istr)) by (unfold line_indent; rewrite Ha; reflexivity).
  destruct (handle_NL_shape _ _ _ _ _ _ _ Htab Hout Hwf Hli Hph) as (top & rs & istr' & Hs & _ & _ & Hwf1 & Hc).
  rewrite Hs. cbn [hd]. split.
  - intros ->. destruct Hc as [(_ & _ & _ & [=])|(_ & popped & _ & _ & _ & [([=] & _)|(_ & Hlt & Hnin)])].
    repeat split; auto. exists (h_indent cfg istr). rewrite <- Hs. auto.
  - intros (_ & _ & indent & Hli' & Hlt & Hnin). rewrite Hli in Hli'. inversion Hli'; subst indent.
    destruct Hc as [(Hg & _)|(_ & popped & E & _ & _ & [(_ & Hhd)|(He & _)])]; [lia | | exact He].
    exfalso. apply Hnin. rewrite <- Hs, E. apply in_or_app. right.
    destruct (stack st1) as [|c r]; [contradiction|]. simpl in Hhd. subst c. left; auto.
Qed.

Definition dedent_point cfg st (ts : list tok) : Prop :=
  exists pre t post st1 indent,
    ts = pre ++ t :: post /\ steps cfg st pre = Some st1 /\ ttype t = nl_type cfg /\ paren st1 <= 0 /\
    line_indent cfg t = Some indent /\ indent < hd 0 (stack st1) /\ ~ In indent (stack st1).

Lemma dedent_point_cons cfg st t rest o1 st1 st2 e2 :
  0 < tab_len cfg -> step_ok cfg st t -> phase1 cfg st t = (o1, st1, None) -> step_paren cfg st1 t = (st2, e2) ->
  (dedent_point cfg st (t :: rest) <-> e2 = None /\ dedent_point cfg st2 rest).
Proof.
  intros Htab Hok Hph Hsp. split.
  - intros ([|p pre] & t0 & post & st0 & indent & E & Hst & A & B & C & D & F); simpl in E; inversion E; subst.
    + simpl in Hst. inversion Hst; subst. assert (X : @None istatus = Some DedentErr); [|discriminate].
      apply (phase1_dedent_iff _ _ _ _ _ _ Htab Hok Hph). repeat split; auto. exists indent. auto.
    + rewrite steps_cons, Hph, Hsp in Hst. destruct e2; [discriminate|]. split; auto.
      exists pre, t0, post, st0, indent. repeat split; auto.
  - intros (-> & pre & t0 & post & st0 & indent & -> & Hst & R). exists (t :: pre), t0, post, st0, indent.
    split; [reflexivity|]. split; [rewrite steps_cons, Hph, Hsp; exact Hst | exact R].
Qed.

Theorem run_dedent_iff cfg ts : forall st o st' e,
  0 < tab_len cfg -> fresh cfg ts -> nl_ok cfg ts -> wf_stack (stack st) -> 0 <= paren st ->
  run cfg st ts = (o, st', e) ->
  (e = DedentErr <->
   exists pre t post st1 indent,
     ts = pre ++ t :: post /\ steps cfg st pre = Some st1 /\ ttype t = nl_type cfg /\ paren st1 <= 0 /\
     line_indent cfg t = Some indent /\ indent < hd 0 (stack st1) /\ ~ In indent (stack st1)).
Proof.
  intros st o st' e Htab Hfresh Hnl Hwf Hp H. apply run_runs in H; auto. clear Hfresh Hnl Hwf Hp.
  change (e = DedentErr <-> dedent_point cfg st ts).
  induction H as [st Hwf | st t rest o1 st1 Hok Hph | st t rest o1 st1 st2 Hok Hph Hsp
                 | st t rest o1 st1 st2 o s e Hok Hph Hsp _ IH].
  - split; [discriminate|]. intros (pre & t & post & st1 & indent & E & _). destruct pre; discriminate.
  - split; auto. intros _.
    destruct (proj1 (phase1_dedent_iff _ _ _ _ _ _ Htab Hok Hph) eq_refl) as (A & B & indent & C & D & E).
    exists [], t, rest, st, indent. repeat split; auto.
  - rewrite (dedent_point_cons _ _ _ rest _ _ _ _ Htab Hok Hph Hsp). split; [discriminate | intros ([=] & _)].
  - rewrite (dedent_point_cons _ _ _ rest _ _ _ _ Htab Hok Hph Hsp), IH. split; [auto | intros (_ & X); exact X].
Qed.
