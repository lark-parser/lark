(* C17 - import = inlining, for every module program: loading a module under an import chain is the
   renaming (by the chain's mangle) of loading it on its own.  Simulation proof over Mod/Modules.v. *)
From Coq Require Import List String Ascii Bool ZArith Arith Lia.
From LV Require Import Mod.Modules Mod.Modules_proofs.
Import ListNotations.
Local Open Scope string_scope.

Definition rn_opts (rho : string -> string) (is_term : bool) (name : string) (o : dopts) : dopts :=
  match is_term, o with
  | false, ORule k e p (Some _) => ORule k e p (Some (rho name))
  | _, _ => o
  end.

Definition rn_def (rho : string -> string) (d : defn) : defn :=
  mkDef (rho (d_name d)) (d_term d) (option_map (rename_tree rho) (d_tree d)) (map rho (d_params d))
        (rn_opts rho (d_term d) (d_name d) (d_opts d)).

Definition rn_heap (rho : string -> string) (h : heap) : heap :=
  map (fun ot => (fst ot, rename_tree rho (snd ot))) h.

Definition rn_builder (rho : string -> string) (b : builder) : builder :=
  mkB (map (rn_def rho) (b_defs b)) (b_ignore b) (rn_heap rho (b_heap b)) (b_next b).

Definition rmap {A B} (f : A -> B) (r : result A) : result B :=
  match r with Ok a => Ok (f a) | Err e => Err e end.

Lemma map_result_rn {A A' B B'} (f : A -> result B) (f' : A' -> result B') (g : A -> A') (h : B -> B') l :
  Forall (fun x => f' (g x) = rmap h (f x)) l -> map_result f' (map g l) = rmap (map h) (map_result f l).
Proof.
  induction 1 as [|x l Hx _ IH]; simpl; auto. rewrite Hx, IH.
  destruct (f x); simpl; auto. destruct (map_result f l); reflexivity.
Qed.

Section Rename.
  Variable rho : string -> string.
  Hypothesis Hinj : forall x y, rho x = rho y -> x = y.
  Hypothesis Hres : forall x, String.prefix "__" x = false -> String.prefix "__" (rho x) = false.

  Local Notation rd := (rn_def rho).
  Local Notation rt := (rename_tree rho).
  Local Notation rh := (rn_heap rho).
  Local Notation rb := (rn_builder rho).

  Lemma eqb_rho x y : String.eqb (rho x) (rho y) = String.eqb x y.
  Proof.
    destruct (String.eqb_spec x y) as [->|Hne]. apply String.eqb_refl.
    destruct (String.eqb_spec (rho x) (rho y)) as [E|E]; auto. elim Hne. now apply Hinj.
  Qed.

  Lemma find_def_rn n l : find_def (rho n) (map rd l) = option_map rd (find_def n l).
  Proof.
    induction l as [|x r IH]; simpl; auto. rewrite eqb_rho. destruct (String.eqb n (d_name x)); auto.
  Qed.

  Lemma defined_rn n l : defined (rho n) (map rd l) = defined n l.
  Proof. unfold defined. rewrite find_def_rn. destruct (find_def n l); reflexivity. Qed.

  Lemma set_def_rn d l : set_def (rd d) (map rd l) = map rd (set_def d l).
  Proof.
    induction l as [|x r IH]; simpl; auto. rewrite eqb_rho.
    destruct (String.eqb (d_name d) (d_name x)); simpl; auto. now rewrite IH.
  Qed.

  Lemma mem_rn x l : mem (rho x) (map rho l) = mem x l.
  Proof. induction l as [|y r IH]; simpl; auto. now rewrite eqb_rho, IH. Qed.

  Lemma list_eqb_rn a b : list_eqb (map rho a) (map rho b) = list_eqb a b.
  Proof.
    revert b. induction a as [|x r IH]; intros [|y r']; simpl; auto. now rewrite eqb_rho, IH.
  Qed.

  Lemma check_options_rn g t n o : check_options g (rn_opts rho t n o) = rn_opts rho t n (check_options g o).
  Proof. destruct t, o as [k e p [s|]|p]; reflexivity. Qed.

  Lemma define_rn g o d l l' :
    define g o d l = Ok l' -> define g o (rd d) (map rd l) = Ok (map rd l').
  Proof.
    intros H. apply define_ok in H. destruct H as (-> & Hd & Hp).
    unfold define. simpl. rewrite defined_rn, Hd, (Hres _ Hp).
    destruct o; simpl; rewrite <- set_def_rn; unfold rn_def, norm_def; simpl; now rewrite check_options_rn.
  Qed.

  Lemma add_alternative_rn e b : add_alternative (rt e) (rt b) = rt (add_alternative e b).
  Proof. destruct b; reflexivity. Qed.

  Lemma extend_rn d l l' : extend d l = Ok l' -> extend (rd d) (map rd l) = Ok (map rd l').
  Proof.
    intros H. apply extend_ok in H. destruct H as (old & base & Ef & Hk & Hp & Et & ->).
    unfold extend. simpl. rewrite find_def_rn, Ef. simpl.
    rewrite Hk, Hp, Bool.eqb_reflx, list_eqb_refl, Et. simpl.
    destruct (d_tree d); simpl; auto. rewrite <- set_def_rn. unfold rn_def; simpl. now rewrite add_alternative_rn.
  Qed.

  Lemma hget_rn o h : hget o (rh h) = option_map rt (hget o h).
  Proof. induction h as [|[k t] r IH]; simpl; auto. destruct (Nat.eqb o k); auto. Qed.

  Lemma hset_rn o t h : hset o (rt t) (rh h) = rh (hset o t h).
  Proof.
    induction h as [|[k t'] r IH]; simpl; auto. destruct (Nat.eqb o k); simpl; auto. now rewrite IH.
  Qed.

  Lemma alloc_rn d b : alloc (rd d) (rb b) = (rd (fst (alloc d b)), rb (snd (alloc d b))).
  Proof.
    unfold alloc. simpl. destruct (d_term d) eqn:Et; destruct (d_tree d) as [t|]; simpl; auto.
  Qed.

  Lemma define_stmt_rn g o d b b' :
    define_stmt g o d b = Ok b' -> define_stmt g o (rd d) (rb b) = Ok (rb b').
  Proof.
    unfold define_stmt. rewrite alloc_rn. destruct (alloc d b) as [d1 b1]. simpl.
    destruct (define g o d1 (b_defs b1)) as [l|] eqn:E; simpl; [|discriminate].
    intros H; inversion H; subst. rewrite (define_rn _ _ _ _ _ E). reflexivity.
  Qed.

  Lemma extend_stmt_rn d b b' :
    extend_stmt d b = Ok b' -> extend_stmt (rd d) (rb b) = Ok (rb b').
  Proof.
    unfold extend_stmt. simpl.
    destruct (extend d (b_defs b)) as [l|] eqn:E; simpl; [|discriminate].
    rewrite (extend_rn _ _ _ E). simpl. rewrite find_def_rn.
    destruct (find_def (d_name d) (b_defs b)) as [old|]; simpl.
    2:{ intros H; inversion H; reflexivity. }
    destruct (d_tree d) as [e|]; simpl.
    2:{ intros H; inversion H; reflexivity. }
    destruct (d_tree old) as [[ | | |o]|]; simpl; try (intros H; inversion H; reflexivity).
    rewrite hget_rn. destruct (hget o (b_heap b)) as [base|]; simpl; [|discriminate].
    intros H; inversion H; subst. unfold rn_builder; simpl.
    now rewrite add_alternative_rn, hset_rn.
  Qed.

  Lemma syms_rn t : syms (rt t) = map rho (syms t).
  Proof. induction t as [d ch IH|b n|v|o] using tree_ind'; simpl; auto. now apply flat_map_map_comm. Qed.

  Lemma used_symbols_rn t : used_symbols (rt t) = map rho (used_symbols t).
  Proof.
    induction t as [d ch IH|b n|v|o] using tree_ind'; simpl; auto.
    destruct (String.eqb d "expansion"); apply flat_map_map_comm; auto.
    apply Forall_forall. intros c _. apply syms_rn.
  Qed.

  Lemma filter_notmem_rn ps us :
    filter (fun x => negb (mem x (map rho ps))) (map rho us) = map rho (filter (fun x => negb (mem x ps)) us).
  Proof. apply filter_map_comm. intros x. now rewrite mem_rn. Qed.

  Lemma rule_deps_rn l s : rule_deps (map rd l) (rho s) = map rho (rule_deps l s).
  Proof.
    unfold rule_deps. rewrite find_def_rn. destruct (find_def s l) as [d|]; simpl; auto.
    destruct (d_term d); auto. destruct (d_tree d) as [t|]; simpl; auto.
    now rewrite used_symbols_rn, filter_notmem_rn.
  Qed.

  Lemma flat_map_deps_rn l v :
    flat_map (rule_deps (map rd l)) (map rho v) = map rho (flat_map (rule_deps l) v).
  Proof. apply flat_map_map_comm, Forall_forall. intros x _. apply rule_deps_rn. Qed.

  Lemma dedup_rn l : dedup (map rho l) = map rho (dedup l).
  Proof. induction l as [|x r IH]; simpl; auto. rewrite mem_rn. destruct (mem x r); simpl; now rewrite IH. Qed.

  Lemma reach_rn fuel l : forall v, reach fuel (map rd l) (map rho v) = map rho (reach fuel l v).
  Proof.
    induction fuel as [|f IH]; simpl; intros v; auto.
    rewrite flat_map_deps_rn, filter_notmem_rn, dedup_rn.
    destruct (dedup (filter (fun x => negb (mem x v)) (flat_map (rule_deps l) v))) as [|n new] eqn:E; simpl; auto.
    rewrite <- IH. f_equal. now rewrite map_app.
  Qed.

  Lemma forallb_mem_rn v us : forallb (fun x => mem x (map rho v)) (map rho us) = forallb (fun x => mem x v) us.
  Proof. apply forallb_map_comm. intros x. apply mem_rn. Qed.

  Lemma closed_under_rn l v : closed_under (map rd l) (map rho v) = closed_under l v.
  Proof. apply forallb_map_comm. intros s. now rewrite rule_deps_rn, forallb_mem_rn. Qed.

  Lemma total_syms_rn l : total_syms (map rd l) = total_syms l.
  Proof.
    unfold total_syms. induction l as [|d l IH]; simpl; auto.
    destruct (d_tree d) as [t|]; simpl; auto. now rewrite syms_rn, map_length, IH.
  Qed.

  Lemma filter_kept_rn v l :
    filter (fun d => mem (d_name d) (map rho v)) (map rd l) = map rd (filter (fun d => mem (d_name d) v) l).
  Proof. apply filter_map_comm. intros d. apply mem_rn. Qed.

  Lemma remove_unused_rn l used :
    remove_unused (map rd l) (map rho used) = rmap (map rd) (remove_unused l used).
  Proof.
    unfold remove_unused. rewrite map_length, total_syms_rn, dedup_rn, reach_rn, closed_under_rn.
    destruct (closed_under l _); simpl; auto. now rewrite filter_kept_rn.
  Qed.

  Lemma clashes_rn a b : clashes (map rd a) (map rd b) = clashes a b.
  Proof. unfold clashes. induction a as [|d a IH]; simpl; auto. now rewrite defined_rn, IH. Qed.

  Lemma ptrs_rn t : ptrs (rt t) = ptrs t.
  Proof.
    induction t as [d ch IH|b n|v|o] using tree_ind'; simpl; auto.
    induction ch as [|c ch IHch]; simpl; auto. inversion IH; subst. f_equal; auto.
  Qed.

  Lemma term_objs_rn l : term_objs (map rd l) = term_objs l.
  Proof.
    unfold term_objs. induction l as [|d l IH]; simpl; auto. rewrite IH. f_equal.
    destruct (d_term d); auto. destruct (d_tree d) as [[ | | |o]|]; reflexivity.
  Qed.

  Lemma reach_objs_rn fuel h : forall v, reach_objs fuel (rh h) v = reach_objs fuel h v.
  Proof.
    induction fuel as [|f IH]; simpl; intros v; auto.
    rewrite (flat_map_ext _ (fun o => match hget o h with Some t => ptrs t | None => [] end)).
    - destruct (filter _ _); auto.
    - intros o. rewrite hget_rn. destruct (hget o h); simpl; auto. apply ptrs_rn.
  Qed.

  Lemma rn_heap_length h : List.length (rh h) = List.length h.
  Proof. apply map_length. Qed.

  Lemma cyclic_rn h o : cyclic (rh h) o = cyclic h o.
  Proof.
    unfold cyclic. rewrite hget_rn. destruct (hget o h) as [t|]; cbn [option_map]; auto.
    now rewrite ptrs_rn, rn_heap_length, reach_objs_rn.
  Qed.

  Lemma filter_term_rn l : filter d_term (map rd l) = map rd (filter d_term l).
  Proof. now apply filter_map_comm. Qed.

  Lemma resolve_pass_rn terms t :
    resolve_pass (map rd terms) (rt t) = rmap rt (resolve_pass terms t).
  Proof.
    induction t as [d ch IH|b n|v|o] using tree_ind'; auto.
    cbn [rename_tree]. rewrite !resolve_pass_Nd, (map_result_rn _ _ _ _ _ IH).
    destruct (map_result _ ch) as [ch'|]; simpl; auto.
    destruct (String.eqb d "value"); auto.
    destruct ch as [|[| [] n | |] [|]]; simpl; auto.
    rewrite find_def_rn. destruct (find_def n terms) as [x|]; simpl; auto.
    destruct (d_tree x); auto.
  Qed.

  Lemma resolve_map_rn terms live h :
    map_result (fun ot => if memn (fst ot) live
                          then t' <- resolve_pass (map rd terms) (snd ot) ;; Ok (fst ot, t')
                          else Ok ot) (rh h) =
    rmap rh (map_result (fun ot => if memn (fst ot) live
                                   then t' <- resolve_pass terms (snd ot) ;; Ok (fst ot, t')
                                   else Ok ot) h).
  Proof.
    apply (map_result_rn _ _ (fun ot => (fst ot, rt (snd ot)))), Forall_forall. intros [o t] _. simpl.
    destruct (memn o live); auto. rewrite resolve_pass_rn. destruct (resolve_pass terms t); reflexivity.
  Qed.

  Lemma resolve_heap_rn l h : resolve_heap (map rd l) (rh h) = rmap rh (resolve_heap l h).
  Proof.
    unfold resolve_heap. rewrite filter_term_rn, term_objs_rn, rn_heap_length, reach_objs_rn, resolve_map_rn.
    destruct (map_result _ h) as [h'|]; simpl; auto.
    assert (E : existsb (cyclic (rh h')) (term_objs l) = existsb (cyclic h') (term_objs l)).
    { induction (term_objs l) as [|o os IH]; simpl; auto. now rewrite cyclic_rn, IH. }
    rewrite E. destruct (existsb (cyclic h') (term_objs l)); reflexivity.
  Qed.
End Rename.

Lemma rename_tree_comp f g t : rename_tree f (rename_tree g t) = rename_tree (fun x => f (g x)) t.
Proof.
  induction t as [d ch IH|b n|v|o] using tree_ind'; simpl; auto. f_equal.
  rewrite map_map. apply map_ext_in. intros c Hc. rewrite Forall_forall in IH. now apply IH.
Qed.

Lemma rename_tree_ext f g t : (forall x, f x = g x) -> rename_tree f t = rename_tree g t.
Proof.
  intros E. induction t as [d ch IH|b n|v|o] using tree_ind'; simpl; auto.
  - f_equal. apply map_ext_in. intros c Hc. rewrite Forall_forall in IH. now apply IH.
  - now rewrite E.
Qed.

Definition not_ignore (s : stmt) : Prop := match s with SIgnore _ => False | _ => True end.

Section Chain.
  Variable ls2 : list layer.
  Hypothesis Hne : ls2 <> [].
  Hypothesis Hinj : forall x y, mangle ls2 x = mangle ls2 y -> x = y.
  Hypothesis Hres : forall x, String.prefix "__" x = false -> String.prefix "__" (mangle ls2 x) = false.

  Local Notation rho := (mangle ls2).
  Local Notation rd := (rn_def rho).
  Local Notation rb := (rn_builder rho).

  Lemma mangle_app ls1 x : mangle (ls1 ++ ls2)%list x = rho (mangle ls1 x).
  Proof. unfold mangle. now rewrite fold_left_app. Qed.

  Lemma mangle_def_app ls1 d : mangle_def (ls1 ++ ls2)%list d = rd (mangle_def ls1 d).
  Proof.
    unfold mangle_def, rn_def. simpl. rewrite mangle_app. f_equal.
    - destruct (d_tree d) as [t|]; simpl; auto. f_equal. rewrite rename_tree_comp.
      apply rename_tree_ext. intros x. apply mangle_app.
    - rewrite map_map. apply map_ext. intros x. apply mangle_app.
    - assert (Hnil : exists l r, (ls1 ++ ls2)%list = l :: r).
      { destruct ls1; simpl; eauto. destruct ls2; [contradiction | eauto]. }
      destruct Hnil as (l0 & r0 & ->).
      unfold mangle_opts, rn_opts. destruct (d_term d); destruct (d_opts d) as [k e p [s|]|p]; destruct ls1; reflexivity.
  Qed.

  Lemma rb_with_defs l b : with_defs (map rd l) (rb b) = rb (with_defs l b).
  Proof. reflexivity. Qed.

  Lemma apply_stmt_rn g ls1 s b b' :
    ls1 <> [] \/ not_ignore s ->
    apply_stmt g ls1 s b = Ok b' -> apply_stmt g (ls1 ++ ls2)%list s (rb b) = Ok (rb b').
  Proof.
    intros Hs. destruct s as [k d|t|sy|p al]; simpl.
    - rewrite mangle_def_app. destruct k.
      + apply define_stmt_rn; auto.
      + apply define_stmt_rn; auto.
      + apply extend_stmt_rn; auto.
    - destruct ls1 as [|l1 r1]; simpl.
      + destruct Hs as [Hs|[]]. now elim Hs.
      + intros H; inversion H. reflexivity.
    - apply (fold_bind_sim rb). intros b0 a b1 _. destruct (negb (fst a)); [discriminate|].
      rewrite !declare_step, mangle_app. apply (define_stmt_rn rho Hinj Hres).
    - intros H; inversion H. reflexivity.
  Qed.

  Lemma apply_stmts_rn g ls1 ss b b' :
    (forall s, In s ss -> ls1 <> [] \/ not_ignore s) ->
    apply_stmts g ls1 ss b = Ok b' -> apply_stmts g (ls1 ++ ls2)%list ss (rb b) = Ok (rb b').
  Proof. intros HP. apply (fold_bind_sim rb). intros b0 s b1 Hs. apply apply_stmt_rn; auto. Qed.

  Lemma do_import_rn loader0 loaderR fs ls1 b imp b' :
    (forall n ls' ms gb0, ls' <> [] -> loader0 n ls' ms = Ok gb0 -> loaderR n (ls' ++ ls2)%list ms = Ok (rb gb0)) ->
    do_import loader0 fs ls1 b imp = Ok b' ->
    do_import loaderR fs (ls1 ++ ls2)%list (rb b) imp = Ok (rb b').
  Proof.
    intros Hsim H. apply do_import_ok_iff in H. destruct H as (ms & gb0 & kept & Hl & Hg & Hr & Hc & ->).
    apply do_import_ok_iff. exists ms, (rb gb0), (map rd kept).
    split; [exact Hl|]. split; [apply (Hsim _ (_ :: ls1)); [discriminate | exact Hg]|]. split; [|split].
    - assert (Er : forall l xs, map (mangle (l :: ls1 ++ ls2)%list) xs = map rho (map (mangle (l :: ls1)) xs)).
      { intros l xs. rewrite map_map. apply map_ext. intros x. apply (mangle_app (l :: ls1)). }
      change (b_defs (rb gb0)) with (map rd (b_defs gb0)). rewrite Er, (remove_unused_rn rho Hinj).
      exact (f_equal (rmap (map rd)) Hr).
    - change (b_defs (rb b)) with (map rd (b_defs b)). now rewrite (clashes_rn rho Hinj).
    - unfold rn_builder, rn_heap. simpl. now rewrite !map_app.
  Qed.

  Theorem load_rn fs g : forall fuel ls1 ms b b0,
    ls1 <> [] \/ Forall not_ignore ms ->
    load fuel fs g ls1 ms b = Ok b0 ->
    load fuel fs g (ls1 ++ ls2)%list ms (rb b) = Ok (rb b0).
  Proof.
    induction fuel as [|f IH]; intros ls1 ms b b0 Hig H; [discriminate|].
    destruct (load_ok _ _ _ _ _ _ _ H) as (b1 & b2 & h & E1 & E2 & Eh & ->). clear H.
    rewrite load_S.
    assert (E1' : fold_left
              (fun acc imp => b' <- acc ;;
                 do_import (fun next ls' ms0 => load f fs g ls' ms0 (fresh_builder next)) fs (ls1 ++ ls2)%list b' imp)
              (collect_imports ms) (Ok (rb b)) = Ok (rb b1)).
    { apply (fold_bind_sim rb) with (2 := E1). intros bb a bb1 _. apply do_import_rn.
      intros n ls' ms0 gb0 Hls'. apply (IH ls' ms0 (fresh_builder n) gb0). now left. }
    rewrite E1'. cbn [bind].
    assert (HP : forall s, In s ms -> ls1 <> [] \/ not_ignore s).
    { intros s Hs. destruct Hig as [Hig|Hig]; [now left|right]. rewrite Forall_forall in Hig. auto. }
    rewrite (apply_stmts_rn _ _ _ _ _ HP E2). cbn [bind].
    change (b_defs (rb b2)) with (map rd (b_defs b2)).
    change (b_heap (rb b2)) with (rn_heap rho (b_heap b2)).
    now rewrite (resolve_heap_rn rho Hinj), Eh.
  Qed.
End Chain.

Definition keep_stmt (s : stmt) : bool := match s with SIgnore _ => false | _ => true end.
Definition strip_ignore (ms : list stmt) : list stmt := filter keep_stmt ms.

Lemma strip_not_ignore ms : Forall not_ignore (strip_ignore ms).
Proof.
  unfold strip_ignore. induction ms as [|s ms IH]; simpl; [constructor|].
  destruct s; simpl; auto; constructor; simpl; auto.
Qed.

(* under an import chain the %ignore statements of a module have no effect: neither loop of load sees them *)
Lemma load_strip_ignore fuel fs g ls ms b :
  ls <> [] -> load fuel fs g ls (strip_ignore ms) b = load fuel fs g ls ms b.
Proof.
  intros Hls. destruct fuel as [|f]; auto. rewrite !load_S.
  unfold collect_imports, apply_stmts, strip_ignore.
  rewrite (fold_left_filter_skip _ keep_stmt ms) by (intros a [] H; try discriminate; reflexivity).
  destruct (fold_left _ _ (Ok b)) as [b1|]; cbn [bind]; auto.
  rewrite (fold_left_filter_skip _ keep_stmt ms); auto.
  intros [b0|e] [] H; try discriminate; auto. destruct ls; [contradiction | reflexivity].
Qed.

Definition in_plain_image (p v : string) : bool :=
  String.prefix (p ++ "__") v || String.prefix (String "_" (p ++ "__")) v.

Fixpoint nodup_str (l : list string) : bool :=
  match l with [] => true | x :: r => negb (mem x r) && nodup_str r end.

(* a checkable sufficient condition on one import level (prefix, aliases) *)
Definition layer_ok (l : layer) : bool :=
  match fst l with
  | EmptyString => false
  | String c _ => negb (Ascii.eqb c "_")
  end &&
  nodup_str (map snd (snd l)) &&
  forallb (fun kv => negb (in_plain_image (fst l) (snd kv)) && negb (String.prefix "__" (snd kv))) (snd l).

Lemma prefix_app a b : String.prefix a (a ++ b) = true.
Proof.
  induction a as [|c a IH]; simpl. destruct b; reflexivity.
  destruct (ascii_dec c c); [exact IH | congruence].
Qed.

Lemma plain_in_image p s : in_plain_image p (plain p s) = true.
Proof.
  unfold in_plain_image. destruct (starts_under_dec s) as [(r & ->)|Hs].
  - rewrite plain_under. apply orb_true_iff. right.
    replace (String "_" (p ++ "__" ++ r)) with (String "_" (p ++ "__") ++ r).
    + apply prefix_app.
    + simpl. now rewrite app_str_assoc.
  - rewrite plain_not_under by auto. apply orb_true_iff. left.
    rewrite <- app_str_assoc. apply prefix_app.
Qed.

Lemma nodup_str_NoDup l : nodup_str l = true -> NoDup l.
Proof.
  induction l as [|x r IH]; simpl; [constructor|]. rewrite andb_true_iff, negb_true_iff.
  intros [H1 H2]. constructor; auto. now apply mem_false_In.
Qed.

Lemma layer_ok_spec l :
  layer_ok l = true ->
  (exists c p, fst l = String c p /\ c <> "_"%char) /\
  NoDup (map snd (snd l)) /\
  (forall k a, assoc k (snd l) = Some a -> (forall s, a <> plain (fst l) s) /\ String.prefix "__" a = false).
Proof.
  unfold layer_ok. rewrite !andb_true_iff, forallb_forall. intros [[Hp Hnd] Hall]. split; [|split].
  - destruct (fst l) as [|c p]; [discriminate|]. exists c, p. split; auto.
    intros ->. rewrite Ascii.eqb_refl in Hp. discriminate.
  - now apply nodup_str_NoDup.
  - intros k a E. apply assoc_In_pair in E. specialize (Hall _ E). simpl in Hall.
    rewrite andb_true_iff, !negb_true_iff in Hall. split; [|tauto].
    intros s ->. rewrite plain_in_image in Hall. destruct Hall; discriminate.
Qed.

Lemma layer_ok_inj l : layer_ok l = true -> forall x y, mangle1 l x = mangle1 l y -> x = y.
Proof.
  intros Hok x y. destruct (layer_ok_spec l Hok) as (_ & Hnd & Hal). unfold mangle1.
  destruct (assoc x (snd l)) as [a|] eqn:Ex; destruct (assoc y (snd l)) as [a'|] eqn:Ey; intros H.
  - subst a'. apply assoc_In_pair in Ex, Ey.
    assert (E := NoDup_map_inj snd _ _ _ Hnd Ex Ey eq_refl). now inversion E.
  - elim (proj1 (Hal _ _ Ex) _ H).
  - elim (proj1 (Hal _ _ Ey) _ (eq_sym H)).
  - now apply plain_injective in H.
Qed.

Lemma prefix_dunder_first a s : a <> "_"%char -> String.prefix "__" (String a s) = false.
Proof. intros Ha. cbn [String.prefix]. destruct (ascii_dec "_" a); [congruence | reflexivity]. Qed.

Lemma prefix_dunder_second b s : b <> "_"%char -> String.prefix "__" (String "_" (String b s)) = false.
Proof.
  intros Hb. cbn [String.prefix]. destruct (ascii_dec "_" "_"); [|reflexivity].
  destruct (ascii_dec "_" b); [congruence | reflexivity].
Qed.

Lemma layer_ok_res l : layer_ok l = true ->
  forall x, String.prefix "__" x = false -> String.prefix "__" (mangle1 l x) = false.
Proof.
  intros Hok x Hx. destruct (layer_ok_spec l Hok) as ((c & p & Hf & Hc) & _ & Hal). unfold mangle1.
  destruct (assoc x (snd l)) as [a|] eqn:Ex; [apply (Hal _ _ Ex)|]. rewrite Hf.
  destruct (starts_under_dec x) as [(r & ->)|Hs].
  - rewrite plain_under. simpl append. now apply prefix_dunder_second.
  - rewrite plain_not_under by auto. simpl append. now apply prefix_dunder_first.
Qed.

Lemma chain_ok ls : forallb layer_ok ls = true ->
  (forall x y, mangle ls x = mangle ls y -> x = y) /\
  (forall x, String.prefix "__" x = false -> String.prefix "__" (mangle ls x) = false).
Proof.
  induction ls as [|l ls IH]; cbn [forallb].
  - intros _. split; auto.
  - rewrite andb_true_iff. intros [Hl Hls]. destruct (IH Hls) as [Hi Hr]. split.
    + intros x y H. rewrite !mangle_cons in H. apply Hi in H. now apply (layer_ok_inj l Hl).
    + intros x Hx. rewrite mangle_cons. apply Hr. now apply (layer_ok_res l Hl).
Qed.

Theorem import_is_inlining_full f fs g ls b p al ms gb0 b' :
  let ls' := (join "__" p, al) :: ls in
  forallb layer_ok ls' = true ->
  lookup_module p fs = Some ms ->
  (* the module loaded on its own (its %ignore statements aside: lark does not apply them on import) *)
  load f fs g [] (strip_ignore ms) (fresh_builder (b_next b)) = Ok gb0 ->
  do_import (fun next ls0 ms0 => load f fs g ls0 ms0 (fresh_builder next)) fs ls b (p, al) = Ok b' ->
  exists kept0,
    remove_unused (b_defs gb0) (map fst al) = Ok kept0 /\
    (forall d, In d kept0 <-> In d (b_defs gb0) /\ Reach (b_defs gb0) (map fst al) (d_name d)) /\
    b_defs b' = (b_defs b ++ map (rn_def (mangle ls')) kept0)%list /\
    b_heap b' = (b_heap b ++ rn_heap (mangle ls') (b_heap gb0))%list /\
    b_ignore b' = b_ignore b /\ b_next b' = b_next gb0 /\
    (forall d, In d kept0 -> defined (mangle ls' (d_name d)) (b_defs b) = false).
Proof.
  intros ls' Hok Hl Hload H.
  destruct (chain_ok ls' Hok) as [Hinj Hres].
  assert (Hne : ls' <> []) by (intros Hc; discriminate Hc).
  pose proof (load_rn ls' Hne Hinj Hres fs g f [] (strip_ignore ms) (fresh_builder (b_next b)) gb0
                      (or_intror (strip_not_ignore ms)) Hload) as Hsim.
  simpl app in Hsim. change (rn_builder (mangle ls') (fresh_builder (b_next b))) with (fresh_builder (b_next b)) in Hsim.
  rewrite (load_strip_ignore f fs g ls' ms _ Hne) in Hsim.
  apply do_import_ok_iff in H. destruct H as (ms' & gb & kept & Hl' & Hg & Hr & Hc & ->). cbn [fst snd] in *.
  rewrite Hl in Hl'. inversion Hl'; subst ms'. fold ls' in Hg, Hr. rewrite Hsim in Hg. inversion Hg; subst gb.
  change (b_defs (rn_builder (mangle ls') gb0)) with (map (rn_def (mangle ls')) (b_defs gb0)) in Hr.
  rewrite (remove_unused_rn (mangle ls') Hinj) in Hr.
  destruct (remove_unused (b_defs gb0) (map fst al)) as [kept0|] eqn:Er; inversion Hr; subst kept.
  exists kept0. split; auto. split; [apply (remove_unused_is_reachability _ _ _ Er)|].
  repeat split; auto.
  intros d Hd. apply (clashes_false _ _ Hc (rn_def (mangle ls') d)). now apply in_map.
Qed.
