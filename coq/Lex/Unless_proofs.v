(* _create_unless / UnlessCallback: the keyword rule, and when removing the embedded string
   terminals from the scanner changes no token. *)
From Coq Require Import ZArith List Bool String Ascii Arith Lia Sorted Permutation.
From LV Require Import Base.Prelude Lex.LexerBase Gen.LexerSortKey Lex.Lexer
     Lex.LexerOrder_proofs Lex.Lexer_proofs.
Import ListNotations.

Lemma find_split {A} (f : A -> bool) l x :
  find f l = Some x ->
  exists pre post, l = pre ++ x :: post /\ f x = true /\ forall u, In u pre -> f u = false.
Proof.
  induction l as [|y r IH]; cbn; [discriminate|].
  destruct (f y) eqn:E.
  - intros H; injection H as <-. exists [], r. repeat split; auto. intros u [].
  - intros H. destruct (IH H) as (pre & post & -> & Hx & Hp).
    exists (y :: pre), post. repeat split; auto. intros u [<-|Hu]; auto.
Qed.

Lemma find_intro {A} (f : A -> bool) pre x post :
  (forall u, In u pre -> f u = false) -> f x = true -> find f (pre ++ x :: post) = Some x.
Proof.
  induction pre as [|y pre IH]; cbn; intros Hp Hx.
  - now rewrite Hx.
  - rewrite (Hp y (or_introl eq_refl)). apply IH; auto.
Qed.

Lemma find_none_iff {A} (f : A -> bool) l : find f l = None <-> forall u, In u l -> f u = false.
Proof.
  split; [apply find_none|].
  induction l as [|y r IH]; cbn; [reflexivity|]. intros H.
  rewrite (H y (or_introl eq_refl)). apply IH. intros u Hu. apply H. now right.
Qed.

Lemma find_true {A} (l : list A) : find (fun _ => true) l = hd_error l.
Proof. now destruct l. Qed.

Lemma find_app_opt {A} (f : A -> bool) l1 l2 :
  find f (l1 ++ l2) = match find f l1 with Some x => Some x | None => find f l2 end.
Proof. induction l1 as [|a r IH]; cbn; [reflexivity|]. destruct (f a); [reflexivity|apply IH]. Qed.

Lemma substring_0_all s : substring 0 (String.length s) s = s.
Proof. induction s as [|c s IH]; cbn; [reflexivity|]. now rewrite IH. Qed.

Lemma substring_length s : forall p n,
  (p + n <= String.length s)%nat -> String.length (substring p n s) = n.
Proof.
  induction s as [|c s IH]; intros [|p] [|n] H; cbn in *; try reflexivity; try lia.
  - f_equal. apply (IH 0%nat). lia.
  - apply IH. lia.
  - apply IH. lia.
Qed.

Lemma mem_string_In x l : mem_string x l = true <-> In x l.
Proof.
  induction l as [|y r IH]; cbn; [split; [discriminate|tauto]|].
  destruct (String.eqb x y) eqn:E.
  - apply String.eqb_eq in E. subst. tauto.
  - apply String.eqb_neq in E. rewrite IH. split; [tauto|]. intros [H|H]; congruence.
Qed.

Lemma mem_string_false x l : mem_string x l = false <-> ~ In x l.
Proof. rewrite <- mem_string_In. destruct (mem_string x l); split; congruence. Qed.

Definition uniq_names (L : list term) : Prop := NoDup (map tname L).

Lemma uniq_names_inj L a b : uniq_names L -> In a L -> In b L -> tname a = tname b -> a = b.
Proof.
  unfold uniq_names. induction L as [|x L IH]; cbn; [tauto|].
  intros Hn. inversion Hn as [|? ? Hx Hn']; subst.
  intros [<-|Ha] [<-|Hb] E; auto.
  - exfalso. apply Hx. rewrite E. now apply in_map.
  - exfalso. apply Hx. rewrite <- E. now apply in_map.
Qed.

Lemma uniq_names_perm L L' : Permutation L L' -> uniq_names L -> uniq_names L'.
Proof. unfold uniq_names. intros P. apply Permutation_NoDup. now apply Permutation_map. Qed.

Lemma uniq_names_filter f L : uniq_names L -> uniq_names (filter f L).
Proof.
  unfold uniq_names. induction L as [|x L IH]; cbn; [auto|].
  intros Hn. inversion Hn as [|? ? Hx Hn']; subst.
  destruct (f x); cbn; auto. constructor; auto.
  intros Hi. apply Hx. apply in_map_iff in Hi. destruct Hi as (y & E & Hy).
  apply filter_In in Hy. apply in_map_iff. exists y. tauto.
Qed.

Section FoldStr.

Variable fold : ascii -> ascii.
Notation str_eqb := (Lexer.str_eqb fold).

Lemma str_eqb_length ci a : forall b, str_eqb ci a b = true -> String.length a = String.length b.
Proof.
  induction a as [|x a IH]; intros [|y b]; cbn; try discriminate; auto.
  intros H. apply andb_true_iff in H. destruct H as [_ H]. f_equal. now apply IH.
Qed.

Fixpoint fold_str (s : string) : string :=
  match s with EmptyString => EmptyString | String c r => String (fold c) (fold_str r) end.

Lemma str_eqb_spec ci a : forall b,
  str_eqb ci a b = true <-> if ci then fold_str a = fold_str b else a = b.
Proof.
  induction a as [|x a IH]; intros [|y b]; cbn; try (destruct ci; split; (discriminate || reflexivity)).
  rewrite andb_true_iff, IH. unfold ch_eqb.
  destruct ci; rewrite Ascii.eqb_eq; (split; [intros [-> ->]; reflexivity|intros H; injection H; auto]).
Qed.

End FoldStr.

Section Unless.

Variable fold : ascii -> ascii.
Variable m : term -> string -> nat -> option nat.
Variable text : string.

Notation str_eqb := (Lexer.str_eqb fold).
Notation str_full := (Lexer.str_full fold).
Notation str_match_at := (Lexer.str_match_at fold).
Notation fold_str := (fold_str fold).
Notation emit := (Lexer.emit fold).
Notation tok_of := (Lexer.tok_of fold).

Notation unless_of := (Lexer.unless_of m).
Notation embedded_of := (Lexer.embedded_of m).
Notation embedded := (Lexer.embedded m).
Notation scanner_terms := (Lexer.scanner_terms m).
Notation report := (Lexer.report fold m).
Notation is_unless := (Lexer.is_unless m).

Definition keyword_of (L : list term) (R K : term) : Prop :=
  In K L /\ tre K = false /\ tprio K = tprio R /\
  m R (tvalue K) 0 = Some (String.length (tvalue K)).

Lemma is_unless_spec R K :
  is_unless R K = true <-> tprio K = tprio R /\ m R (tvalue K) 0 = Some (String.length (tvalue K)).
Proof.
  unfold Lexer.is_unless. rewrite andb_true_iff, Z.eqb_eq.
  destruct (m R (tvalue K) 0) as [n|]; [|split; intros [? ?]; discriminate].
  split; intros [H1 H2]; split; auto.
  - apply Nat.eqb_eq in H2. now subst.
  - injection H2 as ->. apply Nat.eqb_refl.
Qed.

Lemma unless_of_in L R K : In K (unless_of L R) <-> keyword_of L R K.
Proof.
  unfold Lexer.unless_of, keyword_of. rewrite filter_In, andb_true_iff, negb_true_iff, is_unless_spec. tauto.
Qed.

Lemma embedded_of_in L R K :
  In K (embedded_of L R) <-> keyword_of L R K /\ flags_sub (tflags K) (tflags R) = true.
Proof. unfold Lexer.embedded_of. now rewrite filter_In, unless_of_in. Qed.

Lemma embedded_in L x :
  In x (embedded L) <-> exists R K, In R L /\ tre R = true /\ In K (embedded_of L R) /\ x = tname K.
Proof.
  unfold Lexer.embedded. rewrite in_flat_map. split.
  - intros (R & HR & Hx). apply filter_In in HR. apply in_map_iff in Hx.
    destruct Hx as (K & <- & HK). exists R, K. tauto.
  - intros (R & K & HR & Hre & HK & ->). exists R. split; [apply filter_In; tauto|].
    now apply in_map.
Qed.

Lemma scanner_terms_in L t :
  In t (scanner_terms L) <-> In t L /\ ~ In (tname t) (embedded L).
Proof. unfold Lexer.scanner_terms. cbv zeta. now rewrite filter_In, negb_true_iff, mem_string_false. Qed.

Lemma embedded_term L Y :
  uniq_names L -> In Y L -> In (tname Y) (embedded L) ->
  exists R, In R L /\ tre R = true /\ In Y (embedded_of L R).
Proof.
  intros Hu HY He. apply embedded_in in He. destruct He as (R & K & HR & Hre & HK & E).
  pose proof HK as HK'. apply embedded_of_in in HK'. destruct HK' as [(HKin & _) _].
  rewrite (uniq_names_inj _ _ _ Hu HY HKin E). eauto.
Qed.

Lemma regexp_in_scanner L R : uniq_names L -> In R L -> tre R = true -> In R (scanner_terms L).
Proof.
  intros Hu HR Hre. apply scanner_terms_in. split; [assumption|].
  intros Hi. destruct (embedded_term L R Hu HR Hi) as (R' & _ & _ & HK).
  apply embedded_of_in in HK. destruct HK as [(_ & HKs & _) _]. congruence.
Qed.

Lemma keyword_of_mono L L' R K : keyword_of L R K -> In K L' -> keyword_of L' R K.
Proof. unfold keyword_of. tauto. Qed.

Lemma embedded_of_mono L L' R K : In K (embedded_of L R) -> In K L' -> In K (embedded_of L' R).
Proof. rewrite !embedded_of_in. intros [HK Hf] HL'. split; [|assumption]. now apply (keyword_of_mono L). Qed.

(* UnlessCallback's fullmatch on a string terminal: equality, case-folded iff flag i *)
Lemma str_full_spec K v :
  str_full K v = true <->
  (if ci_of K then fold_str (tvalue K) = fold_str v else tvalue K = v).
Proof. apply str_eqb_spec. Qed.

Theorem report_string L X v : tre X = false -> report L X v = tname X.
Proof. unfold Lexer.report. now intros ->. Qed.

Theorem report_no_keyword L X v :
  (forall K, keyword_of L X K -> str_full K v = false) -> report L X v = tname X.
Proof.
  intros H. unfold Lexer.report. destruct (tre X); [|reflexivity].
  destruct (find (fun K => str_full K v) (unless_of L X)) as [K|] eqn:E; [|reflexivity].
  apply find_some in E. destruct E as [Hin Hf]. apply unless_of_in in Hin.
  rewrite H in Hf; [discriminate|assumption].
Qed.

Lemma report_self_no_kw L X v :
  uniq_names L -> In X L -> tre X = true -> report L X v = tname X ->
  forall K, keyword_of L X K -> str_full K v = false.
Proof.
  intros Hu HX Hre. unfold Lexer.report. rewrite Hre.
  destruct (find (fun K => str_full K v) (unless_of L X)) as [K0|] eqn:E.
  - intros En. exfalso. apply find_some in E. destruct E as [Hin _].
    apply unless_of_in in Hin. destruct Hin as (HK0 & Hs & _).
    assert (K0 = X) by (apply (uniq_names_inj _ _ _ Hu); auto). congruence.
  - intros _ K HK. eapply find_none in E; [exact E|]. now apply unless_of_in.
Qed.

Theorem report_keyword L X v pre K post :
  tre X = true -> L = pre ++ K :: post -> keyword_of L X K -> str_full K v = true ->
  (forall K', In K' pre -> keyword_of L X K' -> str_full K' v = false) ->
  report L X v = tname K.
Proof.
  intros Hre -> HK Hf Hpre. unfold Lexer.report. rewrite Hre.
  unfold Lexer.unless_of. rewrite filter_app. cbn [filter].
  assert (Hk : (negb (tre K) && is_unless X K)%bool = true).
  { destruct HK as (_ & Hs & Hp & Hm). rewrite Hs. cbn. apply is_unless_spec. tauto. }
  rewrite Hk. rewrite find_intro; auto.
  intros u Hu. apply filter_In in Hu. destruct Hu as [Hu1 Hu2].
  apply Hpre; [assumption|]. apply unless_of_in. unfold Lexer.unless_of. apply filter_In.
  split; [|assumption]. apply in_or_app. now left.
Qed.

Theorem report_inv L X v :
  report L X v = tname X \/
  (tre X = true /\ exists K, report L X v = tname K /\ keyword_of L X K /\ str_full K v = true /\
     (StronglySorted doc_le L ->
      forall K2, keyword_of L X K2 -> str_full K2 v = true -> doc_le K K2)).
Proof.
  unfold Lexer.report. destruct (tre X); [|now left].
  destruct (find (fun K => str_full K v) (unless_of L X)) as [K|] eqn:E; [|now left].
  right. split; [reflexivity|]. exists K.
  apply find_split in E. destruct E as (pre & post & EL & Hf & Hpre).
  assert (Hin : In K (unless_of L X)) by (rewrite EL; apply in_elt). apply unless_of_in in Hin.
  split; [reflexivity|]. split; [assumption|]. split; [assumption|].
  intros Hs K2 HK2 Hf2. apply unless_of_in in HK2. rewrite EL in HK2. apply in_app_or in HK2.
  destruct HK2 as [H|[<-|H]].
  - rewrite Hpre in Hf2 by assumption. discriminate.
  - apply doc_le_refl.
  - apply (sorted_split_le doc_le pre K post); [|exact H].
    rewrite <- EL. unfold Lexer.unless_of. now apply filter_sorted.
Qed.

Definition str_oracle (L : list term) : Prop :=
  forall K, In K L -> tre K = false ->
    tmaxw K = tvlen K /\ forall p, m K text p = str_match_at K text p.

Definition bounded_oracle (L : list term) : Prop :=
  forall t p n, In t L -> m t text p = Some n ->
    (p + n <= String.length text)%nat /\ (Z.of_nat n <= tmaxw t)%Z.

(* embedding is semantic: where an embedded keyword stands in the text, its regexp matches at
   least that much (true of regexps without look-around and anchors) *)
Definition embedding_semantic (L : list term) : Prop :=
  forall R K p k, In R L -> tre R = true -> In K (embedded_of L R) ->
    m K text p = Some k -> exists n, m R text p = Some n /\ (k <= n)%nat.

Definition regexps_disjoint (L : list term) : Prop :=
  forall R1 R2 p, In R1 L -> In R2 L -> tre R1 = true -> tre R2 = true ->
    m R1 text p <> None -> m R2 text p <> None -> R1 = R2.

Definition is_keyword (st : list term) (K : term) : Prop :=
  exists R, In R st /\ tre R = true /\ keyword_of st R K.

(* a keyword and another string terminal of the same priority (both in L) never match at the
   same position: no string terminal extends, or is a case variant of, a keyword *)
Definition keywords_isolated (st L : list term) : Prop :=
  forall K Y p, In K L -> In Y L -> tre Y = false -> is_keyword st K -> tprio Y = tprio K ->
    K <> Y -> m K text p <> None -> m Y text p <> None -> False.

Definition ignore_agrees (st : list term) (ign : list string) : Prop :=
  forall R K, In R st -> tre R = true -> keyword_of st R K ->
    mem_string (tname K) ign = mem_string (tname R) ign.

Lemma str_match_full L K p k :
  str_oracle L -> In K L -> tre K = false -> m K text p = Some k ->
  k = String.length (tvalue K) /\ str_full K (substring p k text) = true.
Proof.
  intros Hs Hin Hk Hm. destruct (Hs K Hin Hk) as [_ Hp]. rewrite Hp in Hm.
  unfold Lexer.str_match_at in Hm.
  destruct (str_eqb (ci_of K) (tvalue K) (substring p (String.length (tvalue K)) text)) eqn:E; [|discriminate].
  injection Hm as <-. split; [reflexivity|exact E].
Qed.

Lemma str_full_match L K p n :
  str_oracle L -> In K L -> tre K = false -> (p + n <= String.length text)%nat ->
  str_full K (substring p n text) = true -> m K text p = Some n.
Proof.
  intros Hs Hin Hk Hb Hf. destruct (Hs K Hin Hk) as [_ Hp]. rewrite Hp.
  unfold Lexer.str_match_at. unfold Lexer.str_full in Hf.
  pose proof (str_eqb_length _ _ _ _ Hf) as Hl. rewrite substring_length in Hl by assumption.
  rewrite Hl, Hf. reflexivity.
Qed.

Notation fmatch p := (first_some (fun t => m t text p)).

Definition obs_at (L S : list term) (ign : list string) (p : nat) : option (string * nat * bool) :=
  match first_some (fun t => m t text p) S with
  | Some (X, n) => Some (report L X (substring p n text), n, mem_string (tname X) ign)
  | None => None
  end.

Lemma first_unique S p X n Y :
  uniq_names S -> StronglySorted doc_le S ->
  first_some (fun t => m t text p) S = Some (X, n) ->
  In Y S -> m Y text p <> None -> doc_le Y X -> Y = X.
Proof.
  intros Hu Hs H HY HmY Hle. destruct (first_some_sorted _ _ _ _ Hs H) as (HX & _ & Hfirst).
  eapply uniq_names_inj; eauto. apply doc_le_antisym_name; auto.
Qed.

Lemma first_some_least S p X n :
  StronglySorted doc_le S -> In X S -> m X text p = Some n ->
  (forall u, In u S -> m u text p <> None -> doc_le u X -> u = X) ->
  fmatch p S = Some (X, n).
Proof.
  intros Hs HX Hm Hleast. destruct (fmatch p S) as [[Y k]|] eqn:E.
  - destruct (first_some_sorted _ _ _ _ Hs E) as (HY & HmY & HYle).
    assert (Y = X) by (apply Hleast; [| |apply HYle]; congruence). subst Y. congruence.
  - rewrite (proj1 (first_some_none _ _) E X HX) in Hm. discriminate.
Qed.

Lemma doc_le_prio a b : doc_le a b -> (tprio b <= tprio a)%Z.
Proof. unfold doc_le. lia. Qed.

Lemma doc_le_maxw a b : doc_le a b -> tprio a = tprio b -> (tmaxw b <= tmaxw a)%Z.
Proof. unfold doc_le. lia. Qed.

Lemma emit_cons L ign r rs :
  emit m text L ign (r :: rs) =
  if mem_string (tname (rterm r)) ign then emit m text L ign rs
  else tok_of m text L r :: emit m text L ign rs.
Proof. unfold Lexer.emit, ignored. cbn [filter]. now destruct (mem_string (tname (rterm r)) ign). Qed.

Lemma lex_raw_obs_ext L ign mres1 mres2 :
  (forall p, obs_at L (List.concat mres1) ign p = obs_at L (List.concat mres2) ign p) ->
  forall fuel p rs1 e1 rs2 e2,
    Lexer.lex_raw m text fuel mres1 p = (rs1, e1) ->
    Lexer.lex_raw m text fuel mres2 p = (rs2, e2) ->
    emit m text L ign rs1 = emit m text L ign rs2 /\ e1 = e2.
Proof.
  intros Hobs. induction fuel as [|f IH]; intros p rs1 e1 rs2 e2; cbn [Lexer.lex_raw];
    (destruct (String.length text <=? p)%nat;
       [intros H1 H2; injection H1 as <- <-; injection H2 as <- <-; auto|]).
  { intros H1 H2; injection H1 as <- <-; injection H2 as <- <-; auto. }
  specialize (Hobs p). unfold obs_at in Hobs. rewrite <- !scan_concat in Hobs.
  destruct (Lexer.scan m text mres1 p) as [[X1 n1]|]; destruct (Lexer.scan m text mres2 p) as [[X2 n2]|];
    try discriminate.
  - injection Hobs as Hr Hn Hi. subst n2.
    destruct (Lexer.lex_raw m text f mres1 (p + n1)) as [ts1 e1'] eqn:E1.
    destruct (Lexer.lex_raw m text f mres2 (p + n1)) as [ts2 e2'] eqn:E2.
    intros H1 H2; injection H1 as <- <-; injection H2 as <- <-.
    destruct (IH _ _ _ _ _ E1 E2) as [Hts He]. split; [|assumption].
    rewrite !emit_cons. cbn [rterm]. rewrite Hi.
    destruct (mem_string (tname X2) ign); [assumption|].
    f_equal; [|assumption]. unfold Lexer.tok_of. cbn [rterm rstart rlen]. now rewrite Hr.
  - intros H1 H2; injection H1 as <- <-; injection H2 as <- <-; auto.
Qed.

Section Removal.

Variable st : list term.
Variable ign : list string.
Hypothesis Huniq : uniq_names st.
Hypothesis Hsorted : StronglySorted doc_le st.
Hypothesis Hstr : str_oracle st.
Hypothesis Hbound : bounded_oracle st.
Hypothesis Hsem : embedding_semantic st.
Hypothesis Hdisj : regexps_disjoint st.
Hypothesis Hiso : keywords_isolated st st.
Hypothesis Hign : ignore_agrees st ign.

Lemma embedded_winner p X n R :
  fmatch p st = Some (X, n) -> In R st -> tre R = true -> In X (embedded_of st R) ->
  fmatch p (scanner_terms st) = Some (R, n) /\ report st R (substring p n text) = tname X.
Proof.
  intros EA HR HRre HK.
  destruct (first_some_sorted _ _ _ _ Hsorted EA) as (HX & HmX & Hfirst).
  pose proof HK as HK'. apply embedded_of_in in HK'. destruct HK' as [HKw Hfl].
  pose proof HKw as (_ & HXs & HXp & _).
  destruct (Hsem R X p n HR HRre HK HmX) as (nR & HmR & Hle).
  assert (HXR : doc_le X R) by (apply Hfirst; [assumption|congruence]).
  destruct (str_match_full _ _ _ _ Hstr HX HXs HmX) as [Hn HfullX].
  assert (nR = n).
  { (* n = len X = max_width X >= max_width R >= nR >= n *)
    destruct (Hbound _ _ _ HR HmR) as [_ HwR]. destruct (Hstr X HX HXs) as [HwX _].
    pose proof (doc_le_maxw _ _ HXR HXp). unfold tvlen in HwX. lia. }
  subst nR. split.
  - apply first_some_least; [now apply filter_sorted|now apply regexp_in_scanner|assumption|].
    intros u Hu Hmu HuR. apply scanner_terms_in in Hu. destruct Hu as [Hust Hune].
    destruct (tre u) eqn:Hure; [apply (Hdisj u R p); auto; congruence|exfalso].
    (* a string before R would share X's priority and match beside the keyword X *)
    apply (Hiso X u p); auto; try congruence.
    + exists R. tauto.
    + pose proof (doc_le_prio _ _ (Hfirst u Hust Hmu)). pose proof (doc_le_prio _ _ HuR). lia.
    + intros ->. apply Hune. apply embedded_in. exists R, u. tauto.
  - (* a keyword of R before X that equals the value would have matched before X *)
    apply (first_some_spec (fun t => m t text p)) in EA. destruct EA as (pre & post & E & _ & Hpre).
    apply (report_keyword st R _ pre X post); auto.
    intros K' HK'pre (HK'in & HK's & _).
    destruct (str_full K' (substring p n text)) eqn:Ef; [|reflexivity].
    destruct (Hbound _ _ _ HX HmX) as [Hb _].
    pose proof (str_full_match st K' p n Hstr HK'in HK's Hb Ef) as Hm'.
    rewrite (Hpre K' HK'pre) in Hm'. discriminate.
Qed.

Theorem removal_step p : obs_at st (scanner_terms st) ign p = obs_at st st ign p.
Proof.
  unfold obs_at. destruct (fmatch p st) as [[X n]|] eqn:EA.
  2:{ replace (fmatch p (scanner_terms st)) with (@None (term * nat)); [reflexivity|].
      symmetry. apply first_some_none. intros u Hu. apply scanner_terms_in in Hu.
      apply (proj1 (first_some_none _ _) EA). tauto. }
  destruct (in_dec string_dec (tname X) (embedded st)) as [Hemb|Hnot].
  - destruct (first_some_sorted _ _ _ _ Hsorted EA) as (HX & _ & _).
    destruct (embedded_term st X Huniq HX Hemb) as (R & HR & HRre & HK).
    destruct (embedded_winner p X n R EA HR HRre HK) as [-> ->].
    apply embedded_of_in in HK. destruct HK as [HKw _].
    rewrite (Hign R X HR HRre HKw). destruct HKw as (_ & HXs & _).
    now rewrite (report_string st X) by assumption.
  - unfold Lexer.scanner_terms. cbv zeta.
    rewrite (first_some_filter _ _ _ _ _ EA); [reflexivity|].
    apply negb_true_iff. now apply mem_string_false.
Qed.

(* the lexer whose scanner keeps every terminal and the real one (embedded strings removed)
   yield the same tokens and end the same way *)
Theorem removal_lex mresA mresB fuel p rsA eA rsB eB :
  List.concat mresA = st -> List.concat mresB = scanner_terms st ->
  Lexer.lex_raw m text fuel mresA p = (rsA, eA) ->
  Lexer.lex_raw m text fuel mresB p = (rsB, eB) ->
  emit m text st ign rsB = emit m text st ign rsA /\ eB = eA.
Proof.
  intros EA EB HA HB.
  apply (lex_raw_obs_ext st ign mresB mresA) with (fuel := fuel) (p := p); auto.
  intros q. rewrite EA, EB. apply removal_step.
Qed.

End Removal.

End Unless.
