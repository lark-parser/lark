(* C19, character level.
   join_pieces / join_strip : what Reconstructor.reconstruct writes - the item texts in order, with one blank exactly
                              between two items whose neighbouring characters are both id-continue characters.
   relex                    : under the boundary condition bc_b the model of lark's BasicLexer maps the joined text
                              back to the written (type, text) tokens: H_relex as a decidable condition. *)
From Coq Require Import ZArith String Ascii List Arith Bool Lia.
From LV Require Import Base.Prelude Lex.LexerBase Lex.Lexer Recons.Recons Recons.Relex.
Import ListNotations.

Lemma slen_app a b : String.length (append a b) = String.length a + String.length b.
Proof. induction a; simpl; auto. Qed.

Lemma sapp_assoc a b c : append (append a b) c = append a (append b c).
Proof. induction a; simpl; auto. rewrite IHa. reflexivity. Qed.

Lemma sapp_nil_r a : append a EmptyString = a.
Proof. induction a; simpl; auto. rewrite IHa. reflexivity. Qed.

Lemma substring_head x suf : substring 0 (String.length x) (append x suf) = x.
Proof. induction x; simpl; [destruct suf; reflexivity|]. rewrite IHx. reflexivity. Qed.

Lemma substring_mid pre x suf :
  substring (String.length pre) (String.length x) (append pre (append x suf)) = x.
Proof. induction pre; simpl; [apply substring_head|exact IHpre]. Qed.

Definition cat (l : list string) : string := fold_right append EmptyString l.

Theorem join_pieces prev items : join_sp prev items = cat (pieces prev items).
Proof. revert prev. induction items as [|it rest IH]; intros prev; simpl; auto. rewrite IH. reflexivity. Qed.

Theorem need_space_spec prev it :
  need_space prev it = true <->
  exists a b, last_char prev = Some a /\ first_char it = Some b /\ is_id_continue a = true /\ is_id_continue b = true.
Proof.
  unfold need_space. destruct (last_char prev) as [a|]; destruct (first_char it) as [b|]; split;
    try (intros H; discriminate); try (intros (a' & b' & H1 & H2 & _); discriminate).
  - intros H. apply andb_true_iff in H. exists a, b. tauto.
  - intros (a' & b' & H1 & H2 & H3 & H4). inversion H1; inversion H2; subst. rewrite H3, H4. reflexivity.
Qed.

Lemma strip_app a b : strip_sp (append a b) = append (strip_sp a) (strip_sp b).
Proof. induction a as [|c a IH]; simpl; auto. destruct (Ascii.eqb c " "); simpl; rewrite IH; reflexivity. Qed.

Theorem join_strip prev items : Forall (fun x => strip_sp x = x) items -> strip_sp (join_sp prev items) = cat items.
Proof.
  revert prev. induction items as [|it rest IH]; intros prev HF; simpl; auto.
  inversion HF as [|? ? Hx HF']; subst. rewrite !strip_app, (IH it HF'), Hx.
  destruct (need_space prev it); reflexivity.
Qed.

Section RelexProofs.
  Variable m : term -> string -> nat -> option nat.
  Variable cok : list term -> bool.
  Variable names : list string.
  Variable L : blexer.
  Variable text : string.

  Lemma lex_raw_step f p t k : scan m text (lx_mres L) p = Some (t, k) -> p < String.length text ->
    lex_raw m text (S f) (lx_mres L) p =
    (mkRaw t p k :: fst (lex_raw m text f (lx_mres L) (p + k)), snd (lex_raw m text f (lx_mres L) (p + k))).
  Proof.
    intros Hs Hp. simpl. destruct (Nat.leb_spec (String.length text) p); [lia|]. rewrite Hs.
    destruct (lex_raw m text f (lx_mres L) (p + k)). reflexivity.
  Qed.

  Lemma lex_raw_eof f p : String.length text <= p -> lex_raw m text f (lx_mres L) p = ([], AtEOF).
  Proof. intros H. destruct f; simpl; destruct (Nat.leb_spec (String.length text) p); auto; lia. Qed.

  Lemma relex_gen : forall toks pre prev fuel,
    text = append pre (join_sp prev (map snd toks)) ->
    String.length text - String.length pre < fuel ->
    bc_b m names L text (String.length pre) prev toks = true ->
    exists rs, lex_raw m text fuel (lx_mres L) (String.length pre) = (rs, AtEOF) /\
               conv_toks names text (emit lower m text (lx_terms L) (lx_ign L) rs) = Some toks.
  Proof.
    induction toks as [|[n x] rest IH]; intros pre prev fuel Et Hf Hb.
    - simpl in Et. rewrite sapp_nil_r in Et. exists []. split; auto. apply lex_raw_eof. rewrite Et. lia.
    - cbn [map snd join_sp] in Et. cbn [bc_b] in Hb. apply andb_true_iff in Hb. destruct Hb as (Hsp & Hb).
      set (sp := if need_space prev x then " "%string else EmptyString) in *.
      set (q := if need_space prev x then S (String.length pre) else String.length pre) in *.
      assert (Eq : q = String.length (append pre sp)).
      { unfold q, sp. rewrite slen_app. destruct (need_space prev x); simpl; lia. }
      destruct (scan m text (lx_mres L) q) as [[t k]|] eqn:Es; [|discriminate].
      apply andb_true_iff in Hb. destruct Hb as (Hb & Hrest).
      apply andb_true_iff in Hb. destruct Hb as (Hb & Hname). apply andb_true_iff in Hb. destruct Hb as (Hb & Hign).
      apply andb_true_iff in Hb. destruct Hb as (Hk & Hk0). apply Nat.eqb_eq in Hk. apply negb_true_iff in Hk0.
      apply Nat.eqb_neq in Hk0. apply negb_true_iff in Hign. subst k.
      assert (Et2 : text = append (append pre sp) (append x (join_sp x (map snd rest)))).
      { rewrite Et, sapp_assoc. reflexivity. }
      assert (Hlen : String.length text = q + String.length x + String.length (join_sp x (map snd rest))).
      { rewrite Et2, (slen_app (append pre sp)), (slen_app x), <- Eq. lia. }
      assert (Et3 : text = append (append (append pre sp) x) (join_sp x (map snd rest))).
      { rewrite Et2. symmetry. apply sapp_assoc. }
      assert (Hq' : q + String.length x = String.length (append (append pre sp) x)).
      { rewrite (slen_app (append pre sp)), <- Eq. reflexivity. }
      assert (Hsub : substring q (String.length x) text = x).
      { rewrite Et2, Eq. apply substring_mid. }
      (* the token itself, from position q with fuel f *)
      assert (Htok : forall f, String.length text - q < S f ->
                exists rs, lex_raw m text (S f) (lx_mres L) q = (rs, AtEOF) /\
                           conv_toks names text (emit lower m text (lx_terms L) (lx_ign L) rs) = Some ((n, x) :: rest)).
      { intros f Hf'. rewrite Hq' in Hrest.
        destruct (IH (append (append pre sp) x) x f Et3) as (rs & Hr & Hc); [rewrite <- Hq'; lia|exact Hrest|].
        rewrite <- Hq' in Hr.
        exists (mkRaw t q (String.length x) :: rs). split.
        - rewrite (lex_raw_step f q t _ Es); [|lia]. rewrite Hr. reflexivity.
        - unfold emit. cbn [filter]. unfold ignored at 1. cbn [rterm]. rewrite Hign. cbn [negb map conv_toks tok_of rterm rstart rlen ktype kstart klen].
          rewrite Hsub. destruct (name_index names (report lower m (lx_terms L) t x)) as [n'|]; [|discriminate].
          simpl in Hname. apply Nat.eqb_eq in Hname. subst n'. unfold emit in Hc. rewrite Hc. reflexivity. }
      unfold q in *. clear q. destruct (need_space prev x) eqn:Ens.
      + (* a blank was inserted: it is scanned as one ignored terminal *)
        destruct (scan m text (lx_mres L) (String.length pre)) as [[tb kb]|] eqn:Esb; [|discriminate].
        destruct kb as [|[|kb]]; try discriminate.
        destruct fuel as [|[|f]]; [lia| |].
        { exfalso. rewrite Hlen in Hf. lia. }
        destruct (Htok f) as (rs & Hr & Hc); [lia|].
        exists (mkRaw tb (String.length pre) 1 :: rs). split.
        * rewrite (lex_raw_step (S f) _ tb 1 Esb); [|lia].
          replace (String.length pre + 1) with (S (String.length pre)) by lia. rewrite Hr. reflexivity.
        * unfold emit. cbn [filter]. unfold ignored at 1. cbn [rterm]. rewrite Hsp. cbn [negb]. exact Hc.
      + destruct fuel as [|f]; [lia|]. destruct (Htok f) as (rs & Hr & Hc); [lia|]. exists rs. split; auto.
  Qed.

  Theorem relex toks : text = reconstruct_text toks ->
    bc_b m names L text 0 EmptyString toks = true -> lex_with m names L text = Some toks.
  Proof.
    intros Et Hb. unfold lex_with, lex_from.
    destruct (relex_gen toks EmptyString EmptyString (S (String.length text - 0))) as (rs & Hr & Hc).
    - exact Et.
    - simpl. lia.
    - exact Hb.
    - simpl in Hr. simpl. rewrite Hr. exact Hc.
  Qed.
End RelexProofs.

Theorem relex_model m cok names terms ign L toks :
  make_lexer m cok terms ign = Some L ->
  bc_b m names L (reconstruct_text toks) 0 EmptyString toks = true ->
  lex_model m cok names terms ign (reconstruct_text toks) = Some toks.
Proof. intros HL Hb. unfold lex_model. rewrite HL. apply relex; auto. Qed.
