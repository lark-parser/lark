(* C08 for the dynamic Earley lexers: the expected set carried by UnexpectedCharacters / UnexpectedEOF is exactly the
   set of terminals that can legally come next over the position graph, and an UnexpectedCharacters is never raised
   while a viable reading still reaches beyond its position.  The position graph (Earley/Dyn_proofs.v: terminal edges
   = the ends the scanner explores, ignore edges) is read as tilings of the text by token types, which links it to the
   token-level notions of Earley/Prefix.v (viable, productive_bodies). *)
From Coq Require Import List Arith Bool Lia ZArith.
From LV Require Import Cfg.Grammar Cfg.Analysis Cfg.Analysis_proofs Earley.Spec Earley.Prefix Earley.Alg Earley.Alg_proofs
  Earley.Dyn Earley.Dyn_proofs Earley.DynReport Pos.PosBase Pos.Coord Pos.LexCoords Pos.Current.
Import ListNotations.

Lemma last_nth {A} (l : list A) d : forall m, length l = S m -> last l d = nth m l d.
Proof.
  induction l as [|a l IH]; intros m H; simpl in H; [discriminate|].
  destruct l as [|b l']; [destruct m; [reflexivity|discriminate]|].
  destruct m as [|m']; [discriminate|]. change (last (a :: b :: l') d) with (last (b :: l') d).
  rewrite (IH m') by (simpl in *; lia). reflexivity.
Qed.

Section Tiles.
  Variable G : grammar.
  Variable start : nat.
  Variable n : nat.
  Variable rmatch : nat -> nat -> option nat.
  Variable rtrunc : nat -> nat -> nat -> option nat.
  Variable complete_lex : bool.
  Variable ignore : list nat.

  Notation ends := (ends_of rmatch rtrunc complete_lex).
  Notation ign_path := (ign_path rmatch ignore).
  Notation ign_edge := (ign_edge rmatch ignore).
  Notation gderives := (gderives G rmatch rtrunc complete_lex ignore).
  Notation gchart := (gchart G start rmatch rtrunc complete_lex ignore).
  Notation derives := (derives G nat Nat.eqb).
  Notation viable := (viable G nat Nat.eqb start).

  Inductive tile_exact : list nat -> nat -> nat -> Prop :=
  | te_nil i : tile_exact [] i i
  | te_cons t u i i' j k : ign_path i i' -> In j (ends t i') -> tile_exact u j k -> tile_exact (t :: u) i k.

  Definition tiles (u : list nat) (i k : nat) : Prop := exists j, tile_exact u i j /\ ign_path j k.

  Lemma te_nil_inv i j : tile_exact [] i j -> i = j.
  Proof. inversion 1; auto. Qed.

  Lemma te_cons_inv t u i k :
    tile_exact (t :: u) i k -> exists i' j, ign_path i i' /\ In j (ends t i') /\ tile_exact u j k.
  Proof. inversion 1; subst; eauto. Qed.

  Lemma te_app u v i j k : tile_exact u i j -> tile_exact v j k -> tile_exact (u ++ v) i k.
  Proof. induction 1; simpl; auto. intros. econstructor; eauto. Qed.

  Lemma te_split u v : forall i k, tile_exact (u ++ v) i k -> exists j, tile_exact u i j /\ tile_exact v j k.
  Proof.
    induction u as [|t u IH]; simpl; intros i k H.
    - exists i. split; auto. constructor.
    - inversion H as [|t' u' i0 i' j k0 Hp He Hr]; subst.
      destruct (IH _ _ Hr) as (m & H1 & H2). exists m. split; auto. econstructor; eauto.
  Qed.

  Lemma tiles_shift u i' i k : ign_path i' i -> tiles u i k -> tiles u i' k.
  Proof.
    intros Hp (j & Ht & Hk). destruct Ht as [i|t u i i1 j' k' Hp1 He Hr].
    - exists i'. split; [constructor|]. eapply ign_path_trans; eauto.
    - exists k'. split; auto. apply (te_cons t u i' i1 j' k'); auto. eapply ign_path_trans; eauto.
  Qed.

  Lemma tiles_app u v i j k : tiles u i j -> tiles v j k -> tiles (u ++ v) i k.
  Proof.
    intros (j1 & H1 & P1) H2. apply (tiles_shift v j1 j k P1) in H2. destruct H2 as (j2 & H2 & P2).
    exists j2. split; auto. eapply te_app; eauto.
  Qed.

  Lemma tiles_snoc_path u i j k : tiles u i j -> ign_path j k -> tiles u i k.
  Proof. intros (m & H & P) Q. exists m. split; auto. eapply ign_path_trans; eauto. Qed.

  Lemma gderives_tiles ss i k : gderives ss i k -> exists u, derives ss u /\ tile_exact u i k.
  Proof.
    induction 1 as [i | t ss i i1 j k Hp He Hd IH | a r ss i j k Hr Hl Hd1 IH1 Hd2 IH2].
    - exists []. split; constructor.
    - destruct IH as (u & D & Tl). exists (t :: u). split.
      + constructor; auto. apply Nat.eqb_refl.
      + econstructor; eauto.
    - destruct IH1 as (u1 & D1 & T1). destruct IH2 as (u2 & D2 & T2). exists (u1 ++ u2). split.
      + econstructor; eauto.
      + eapply te_app; eauto.
  Qed.

  Lemma tiles_gderives ss u : derives ss u -> forall i k, tile_exact u i k -> gderives ss i k.
  Proof.
    induction 1 as [| t x ss w Hm Hd IH | a r ss w1 w2 Hr Hl Hd1 IH1 Hd2 IH2]; intros i k Ht.
    - inversion Ht; subst. constructor.
    - apply Nat.eqb_eq in Hm. subst x. inversion Ht as [|t' u' i0 i' j k0 Hp He Hrr]; subst.
      econstructor; eauto.
    - destruct (te_split _ _ _ _ Ht) as (j & T1 & T2). econstructor; eauto.
  Qed.

  Theorem gsentence_tiles :
    gsentence G start n rmatch rtrunc complete_lex ignore <-> exists u, derives [NT start] u /\ tiles u 0 n.
  Proof.
    split.
    - intros (j & D & P). destruct (gderives_tiles _ _ _ D) as (u & Du & Tu). exists u. split; auto. exists j; auto.
    - intros (u & D & j & Tl & P). exists j. split; auto. eapply tiles_gderives; eauto.
  Qed.

  Hypothesis H_fwd : fwd rmatch rtrunc.

  Lemma skipn_expect x s :
    expect x = Some s -> skipn (dot x) (rhs (irule x)) = s :: skipn (S (dot x)) (rhs (irule x)).
  Proof. unfold expect. apply skipn_nth. Qed.

  Lemma skipn_advance x : skipn (dot (advance x)) (rhs (irule (advance x))) = skipn (S (dot x)) (rhs (irule x)).
  Proof. reflexivity. Qed.

  Theorem gchart_item_viable k x :
    productive_bodies G nat Nat.eqb -> gchart k x ->
    forall v, derives (skipn (dot x) (rhs (irule x))) v -> exists u, tiles u 0 k /\ viable (u ++ v).
  Proof.
    intros Hprod H.
    induction H as [r Hr Hl | k x a r Hc IH He Hr Hl | i k y x a Hy IHy Hey Hx IHx Hex Ho Hl
                   | k x t j Hc IH He Hj | k x t j Hc IH He Hj | k x j Hc IH Hs Hj]; intros v Hv.
    5, 6: (* the two carry rules *) destruct (IH _ Hv) as (u & Tu & Hvi); exists u; split; auto;
          eapply tiles_snoc_path; eauto; econstructor; eauto; constructor.
    - cbn [dot irule skipn] in Hv. exists []. split.
      + exists 0. split; constructor.
      + exists []. simpl. rewrite app_nil_r, <- Hl. apply derives_rule; auto.
    - cbn [dot irule skipn] in Hv.
      destruct (Hprod (irule x) (S (dot x)) (proj1 (gchart_wf G start rmatch rtrunc complete_lex ignore H_fwd _ _ Hc)))
        as (u2 & Hu2).
      assert (Hd : derives (skipn (dot x) (rhs (irule x))) (v ++ u2)).
      { rewrite (skipn_expect _ _ He). eapply d_nt; eauto. }
      destruct (IH _ Hd) as (u & Tu & w & Hw). exists u. split; auto. exists (u2 ++ w).
      rewrite !app_assoc in *. exact Hw.
    - rewrite skipn_advance in Hv.
      destruct (gchart_sound G start rmatch rtrunc complete_lex ignore H_fwd _ _ Hx) as (k' & Dx & Px).
      rewrite firstn_all2 in Dx by (unfold expect in Hex; apply nth_error_None in Hex; lia).
      rewrite Ho in Dx. destruct (gderives_tiles _ _ _ Dx) as (u1 & Du1 & Tu1).
      assert (Hd : derives (skipn (dot y) (rhs (irule y))) (u1 ++ v)).
      { rewrite (skipn_expect _ _ Hey). eapply d_nt; eauto.
        apply (gchart_wf G start rmatch rtrunc complete_lex ignore H_fwd _ _ Hx). }
      destruct (IHy _ Hd) as (u0 & Tu0 & Hvi). exists (u0 ++ u1). split.
      + apply (tiles_app u0 u1 0 i k); auto. exists k'. auto.
      + rewrite <- app_assoc. exact Hvi.
    - rewrite skipn_advance in Hv.
      assert (Hd : derives (skipn (dot x) (rhs (irule x))) (t :: v)).
      { rewrite (skipn_expect _ _ He). constructor; auto. apply Nat.eqb_refl. }
      destruct (IH _ Hd) as (u & Tu & Hvi). exists (u ++ [t]). split.
      + apply (tiles_app u [t] 0 k j); auto. exists j. split; [|constructor].
        econstructor; [constructor|eauto|constructor].
      + rewrite <- app_assoc. exact Hvi.
  Qed.

  (* every terminal an item at k expects can legally come next after some tiling of 0..k *)
  Theorem gexpected_sound k x t :
    productive_bodies G nat Nat.eqb -> gchart k x -> expect x = Some (T t) ->
    exists u, tiles u 0 k /\ viable (u ++ [t]).
  Proof.
    intros Hprod Hc He.
    destruct (Hprod (irule x) (S (dot x)) (proj1 (gchart_wf G start rmatch rtrunc complete_lex ignore H_fwd _ _ Hc)))
      as (u2 & Hu2).
    assert (Hd : derives (skipn (dot x) (rhs (irule x))) (t :: u2)).
    { rewrite (skipn_expect _ _ He). constructor; auto. apply Nat.eqb_refl. }
    destruct (gchart_item_viable k x Hprod Hc _ Hd) as (u & Tu & w & Hw).
    exists u. split; auto. exists (u2 ++ w). rewrite <- app_assoc in *. exact Hw.
  Qed.

  Lemma gchart_prefix_gen b w : derives b w ->
    forall r d o i c u1 t u2 j k,
      gchart i (mkItem r d o) -> skipn d (rhs r) = b ++ c ->
      w = u1 ++ t :: u2 -> tile_exact u1 i j -> ign_path j k ->
      exists x, gchart k x /\ expect x = Some (T t).
  Proof.
    induction 1 as [| t0 y ss w' Hm Hd IH | a0 r0 ss w1 w2 Hr Hl Hd1 IH1 Hd2 IH2];
      intros r d o i c u1 t u2 j k Hc E Eu Ht Hp; simpl in E.
    - destruct u1; discriminate.
    - apply skipn_cons_inv in E as (Hx & E). apply Nat.eqb_eq in Hm. subst y.
      destruct u1 as [|y1 u1']; simpl in Eu; inversion Eu; subst.
      + apply te_nil_inv in Ht. subst j. exists (mkItem r d o). split; auto.
        apply (gchart_carry_path G start rmatch rtrunc complete_lex ignore i k _ t Hp Hc Hx).
      + destruct (te_cons_inv _ _ _ _ Ht) as (i' & j' & Hp1 & He & Hrr).
        apply (IH r (S d) o j' c u1' t u2 j k); auto.
        apply (g_scan G start rmatch rtrunc complete_lex ignore i' (mkItem r d o) y1 j'); auto.
        apply (gchart_carry_path G start rmatch rtrunc complete_lex ignore i i' _ y1 Hp1 Hc Hx).
    - apply skipn_cons_inv in E as (Hx & E).
      pose proof (g_pred G start rmatch rtrunc complete_lex ignore _ _ _ _ Hc Hx Hr Hl) as Hpred.
      apply app_eq_mid in Eu as [(m & -> & Ew2)|(m & Ew1)].
      + (* w1 is tiled inside u1: complete r0 and continue in ss *)
        destruct (te_split _ _ _ _ Ht) as (p & T1 & T2).
        apply (IH2 r (S d) o p c m t u2 j k); auto.
        apply (g_comp G start rmatch rtrunc complete_lex ignore i p (mkItem r d o)
                 (mkItem r0 (length (rhs r0)) i) a0); auto using expect_complete.
        apply (gchart_complete_gen G start rmatch rtrunc complete_lex ignore _ _ _
                 (tiles_gderives _ _ Hd1 _ _ T1) r0 0 i []); auto. symmetry; apply app_nil_r.
      + (* the next token is inside w1: descend into r0 *)
        apply (IH1 r0 0 i i [] u1 t m j k); auto. symmetry; apply app_nil_r.
  Qed.

  (* completeness: every terminal that can legally come next after a tiling of 0..k is expected at k *)
  Theorem gexpected_complete u k t :
    tiles u 0 k -> viable (u ++ [t]) -> exists x, gchart k x /\ expect x = Some (T t).
  Proof.
    intros (j & Tu & Pj) (v & Hv). rewrite <- app_assoc in Hv. apply derives_nt_inv in Hv as (r & Hr & Hl & Hd).
    apply (gchart_prefix_gen _ _ Hd r 0 0 0 [] u t v j k); auto; [constructor; auto|symmetry; apply app_nil_r].
  Qed.

  Theorem gsentence_prefix_item u k :
    tiles u 0 k -> derives [NT start] u -> exists x, gchart k x /\ is_solution start x = true.
  Proof.
    intros (j & Tu & Pj) D. apply derives_nt_inv in D as (r & Hr & Hl & Hd).
    assert (Hsol : is_solution start (mkItem r (length (rhs r)) 0) = true).
    { apply solution_spec. split; [apply expect_complete|auto]. }
    exists (mkItem r (length (rhs r)) 0). split; auto.
    apply (gchart_carry_start_path G start rmatch rtrunc complete_lex ignore j k); auto.
    apply (gchart_complete_gen G start rmatch rtrunc complete_lex ignore _ _ _
             (tiles_gderives _ _ Hd _ _ Tu) r 0 0 []); [constructor; auto|symmetry; apply app_nil_r].
  Qed.

  Corollary gviable_item u k : tiles u 0 k -> viable u -> exists x, gchart k x.
  Proof.
    intros Tu (v & Hv). destruct v as [|t v].
    - rewrite app_nil_r in Hv. destruct (gsentence_prefix_item u k Tu Hv) as (x & Hx & _). eauto.
    - destruct (gexpected_complete u k t Tu) as (x & Hx & _); eauto.
      exists v. rewrite <- app_assoc. exact Hv.
  Qed.
End Tiles.

(* lark's configuration (the prediction table of Earley/Alg.v): what a run reports *)
Section ReportTop.
  Variable G : grammar.
  Variable start n : nat.
  Variable rmatch : nat -> nat -> option nat.
  Variable rtrunc : nat -> nat -> nat -> option nat.
  Variable complete_lex : bool.
  Variable ignore : list nat.
  Hypothesis H_fwd : fwd rmatch rtrunc.

  Notation res := (dyn_parse G start n rmatch rtrunc complete_lex ignore).
  Notation gchart := (gchart G start rmatch rtrunc complete_lex ignore).
  Notation tiles := (tiles rmatch rtrunc complete_lex ignore).
  Notation viable := (viable G nat Nat.eqb start).

  Lemma res_ok : dout_ok G start n rmatch rtrunc complete_lex ignore res.
  Proof. apply (dparse_ok G _ start n rmatch rtrunc complete_lex ignore (pred_lookup_sound G) (pred_lookup_direct G) H_fwd). Qed.

  Theorem dyn_scans_are_chart k x :
    k < length (d_cols res) ->
    (In x (colf (d_scans res) k) <-> gchart k x /\ is_term_item x = true).
  Proof.
    destruct res_ok as (N & L1 & L2 & Cl & _). intros Hk. rewrite L1 in Hk. split.
    - intros Hx. split.
      + apply (gcl_sound _ _ _ _ _ _ _ _ _ Cl k x Hk). right; exact Hx.
      + apply (gcl_scan_t _ _ _ _ _ _ _ _ _ Cl k x Hk Hx).
    - intros (Hc & Ht).
      apply (ginT_Q G start rmatch rtrunc complete_lex ignore (colf (d_cols res)) (colf (d_scans res)) N); auto.
      apply (gclosed_complete G start rmatch rtrunc complete_lex ignore H_fwd _ _ N Cl); auto.
  Qed.

  Theorem dyn_expected_is_chart k t :
    k < length (d_cols res) ->
    (In t (scan_expected (colf (d_scans res) k)) <-> exists x, gchart k x /\ expect x = Some (T t)).
  Proof.
    intros Hk. unfold scan_expected. rewrite expected_In. split.
    - intros (x & Hx & He). apply (dyn_scans_are_chart k x Hk) in Hx. exists x. tauto.
    - intros (x & Hc & He). exists x. split; auto. apply (dyn_scans_are_chart k x Hk). split; auto.
      unfold is_term_item. rewrite He. reflexivity.
  Qed.

  (* the expected set at position k = the terminals that can legally come next after a tiling of 0..k *)
  Theorem dyn_expected_sound k t :
    productive_bodies G nat Nat.eqb -> k < length (d_cols res) ->
    In t (scan_expected (colf (d_scans res) k)) -> exists u, tiles u 0 k /\ viable (u ++ [t]).
  Proof.
    intros Hprod Hk Ht. apply (dyn_expected_is_chart k t Hk) in Ht. destruct Ht as (x & Hc & He).
    eapply gexpected_sound; eauto.
  Qed.

  Theorem dyn_expected_complete k t u :
    k < length (d_cols res) -> tiles u 0 k -> viable (u ++ [t]) ->
    In t (scan_expected (colf (d_scans res) k)).
  Proof.
    intros Hk Tu Hv. apply (dyn_expected_is_chart k t Hk).
    eapply gexpected_complete; eauto.
  Qed.

  (* UnexpectedCharacters at i: the run stopped there and no chart item lies beyond i *)
  Theorem dyn_reject_char_spec i :
    d_out res = DRejectChar i ->
    i < n /\ length (d_cols res) = S i /\ length (d_scans res) = S i /\ forall j x, i < j -> ~ gchart j x.
  Proof. apply (dout_reject_char G start n rmatch rtrunc complete_lex ignore H_fwd res i res_ok). Qed.

  (* ... hence no viable reading of the text reaches beyond i: the error is not raised early *)
  Theorem dyn_error_not_early i j u :
    d_out res = DRejectChar i -> i < j -> tiles u 0 j -> ~ viable u.
  Proof.
    intros Eo Hj Tu Hv. destruct (dyn_reject_char_spec i Eo) as (_ & _ & _ & Hno).
    destruct (gviable_item G start rmatch rtrunc complete_lex ignore u j Tu Hv) as (x & Hx).
    exact (Hno j x Hj Hx).
  Qed.

  (* UnexpectedEOF: the whole text was read, no tiling of it is a sentence *)
  Theorem dyn_reject_eof_spec :
    d_out res = DRejectEOF ->
    length (d_cols res) = S n /\ length (d_scans res) = S n /\
    ~ gsentence G start n rmatch rtrunc complete_lex ignore.
  Proof.
    intros Eo. destruct res_ok as (N & L1 & L2 & Cl & Hout). rewrite Eo in Hout. destruct Hout as (HN & Hex).
    rewrite HN in *. split; auto. split; auto. intros Hs.
    apply (dyn_accepts_iff_gsentence G start n rmatch rtrunc complete_lex ignore H_fwd) in Hs.
    unfold dyn_accepts, daccepts in Hs. fold res in Hs.
    change (dparse G (pred_lookup G (pred_table G)) start n rmatch rtrunc complete_lex ignore) with res in Hs.
    rewrite Eo in Hs. discriminate.
  Qed.

  Theorem dyn_report_chars (text : list nat) pos line col allowed considered state :
    n = length text ->
    dyn_report text res = Some (RepChars pos line col allowed considered state) ->
    d_out res = DRejectChar pos /\ pos < n /\
    (line, col) = coord Nat.eqb 10 text pos /\
    (forall x, In x considered <-> gchart pos x /\ is_term_item x = true) /\
    allowed = scan_expected considered /\ state = map item_state considered /\
    (forall t u, tiles u 0 pos -> viable (u ++ [t]) -> In t allowed) /\
    (productive_bodies G nat Nat.eqb -> forall t, In t allowed -> exists u, tiles u 0 pos /\ viable (u ++ [t])) /\
    (forall j u, pos < j -> tiles u 0 j -> ~ viable u).
  Proof.
    intros Hn Hr. unfold dyn_report in Hr. destruct (d_out res) as [| |i|i] eqn:Eo; try discriminate.
    inversion Hr; subst pos line col allowed considered state. clear Hr.
    destruct (dyn_reject_char_spec i Eo) as (Hi & L1 & L2 & Hno).
    assert (Hk : i < length (d_cols res)) by lia.
    split; auto. split; auto. split.
    { rewrite <- surjective_pairing. apply dyn_coords_str. lia. }
    split. { intros x. apply (dyn_scans_are_chart i x Hk). }
    split; auto. split; auto. split.
    { intros t u Tu Hv. apply (dyn_expected_complete i t u Hk Tu Hv). }
    split.
    { intros Hprod t Ht. apply (dyn_expected_sound i t Hprod Hk Ht). }
    intros j u Hj Tu. apply (dyn_error_not_early i j u Eo Hj Tu).
  Qed.

  Theorem dyn_report_eof (text : list nat) expected state :
    dyn_report text res = Some (RepEOF expected state) ->
    d_out res = DRejectEOF /\
    ~ gsentence G start n rmatch rtrunc complete_lex ignore /\
    (forall t u, tiles u 0 n -> viable (u ++ [t]) -> In t expected) /\
    (productive_bodies G nat Nat.eqb -> forall t, In t expected -> exists u, tiles u 0 n /\ viable (u ++ [t])) /\
    exists q, (forall x, In x q <-> gchart n x /\ is_term_item x = true) /\
              expected = scan_expected q /\ state = map item_state q.
  Proof.
    intros Hr. unfold dyn_report in Hr. destruct (d_out res) as [| |i|i] eqn:Eo; try discriminate.
    inversion Hr; subst expected state. clear Hr.
    destruct (dyn_reject_eof_spec Eo) as (L1 & L2 & Hns).
    assert (Hk : n < length (d_cols res)) by lia.
    assert (El : last (d_scans res) [] = colf (d_scans res) n) by (apply last_nth; exact L2).
    rewrite El. split; auto. split; auto. split.
    { intros t u Tu Hv. apply (dyn_expected_complete n t u Hk Tu Hv). }
    split.
    { intros Hprod t Ht. apply (dyn_expected_sound n t Hprod Hk Ht). }
    exists (colf (d_scans res) n). split; auto. intros x. apply (dyn_scans_are_chart n x Hk).
  Qed.
End ReportTop.
