(* Soundness of the LALR driver for ANY table satisfying the
   "a state remembers the top of the stack" invariant (wf_table); a local, decidable
   LR(0)-item certificate (wf_items) that implies it; a boolean checker for concrete tables.
   The file opens with the list facts the other files of LR/ share. *)
From Coq Require Import List Arith Bool Lia.
From LV Require Import Cfg.Grammar LR.Driver.
Import ListNotations.

Lemma firstn_S_nth_error {A} (l : list A) d x :
  nth_error l d = Some x -> firstn (S d) l = firstn d l ++ [x].
Proof.
  revert l; induction d; destruct l; simpl; intros H; try discriminate.
  - now inversion H.
  - f_equal. now apply IHd.
Qed.

Lemma skipn_nth' {B} (l : list B) d x : nth_error l d = Some x -> skipn d l = x :: skipn (S d) l.
Proof.
  revert d; induction l as [|y l IH]; intros [|d] H; simpl in *; try discriminate.
  - now inversion H.
  - now apply IH.
Qed.

Lemma skipn_cons_inv {B} (l : list B) j x m : skipn j l = x :: m -> nth_error l j = Some x /\ skipn (S j) l = m.
Proof.
  revert j; induction l as [|y l IH]; intros j H.
  - destruct j; discriminate.
  - destruct j; simpl in *.
    + inversion H; auto.
    + now apply IH.
Qed.

Lemma split_at_nth {B} (l : list B) d x : nth_error l d = Some x -> l = firstn d l ++ x :: skipn (S d) l.
Proof. intros H. now rewrite <- (skipn_nth' _ _ _ H), firstn_skipn. Qed.

Lemma nth_map_error {A B} (f : A -> B) l i x d : nth_error l i = Some x -> nth i (map f l) d = f x.
Proof. intros H. now apply nth_error_nth, map_nth_error. Qed.

Lemma hd_snoc {B} (d x : B) l : hd d (l ++ [x]) = hd x l.
Proof. destruct l; reflexivity. Qed.

Lemma skipn_app_len {B} (ps l : list B) n : length ps = n -> skipn n (ps ++ l) = l.
Proof. intros <-. rewrite skipn_app, Nat.sub_diag. simpl. now rewrite skipn_all. Qed.

Lemma nth_error_middle {B} (pre : list B) x post : nth_error (pre ++ x :: post) (length pre) = Some x.
Proof. now rewrite nth_error_app2, Nat.sub_diag. Qed.

Lemma skipn_middle {B} (pre : list B) x post : skipn (S (length pre)) (pre ++ x :: post) = post.
Proof. change (x :: post) with ([x] ++ post). rewrite app_assoc. apply skipn_app_len. rewrite app_length. simpl. lia. Qed.

Lemma firstn_rev_app {B} (cs vs : list B) : firstn (length cs) (rev cs ++ vs) = rev cs.
Proof. rewrite <- (rev_length cs), firstn_app, Nat.sub_diag, firstn_all. simpl. apply app_nil_r. Qed.

Lemma skipn_rev_app {B} (cs vs : list B) : skipn (length cs) (rev cs ++ vs) = vs.
Proof. apply skipn_app_len, rev_length. Qed.

Section Insertion.
  Context {A : Type} (eqb ltb : A -> A -> bool) (ins : A -> list A -> list A).
  Hypothesis eqb_eq : forall x y, eqb x y = true -> x = y.
  Hypothesis ins_nil : forall x, ins x [] = [x].
  Hypothesis ins_cons : forall x y l,
    ins x (y :: l) = if eqb x y then y :: l else if ltb x y then x :: y :: l else y :: ins x l.

  Lemma insertion_In x y l : In x (ins y l) <-> x = y \/ In x l.
  Proof.
    induction l as [|z l IH].
    - rewrite ins_nil. simpl. split; [intros [<-|[]]|intros [->|[]]]; now left.
    - rewrite ins_cons. destruct (eqb y z) eqn:E.
      + apply eqb_eq in E. subst z. split; [now right|]. intros [->|H]; [now left|exact H].
      + destruct (ltb y z); simpl.
        * split; [intros [<-|H]|intros [->|H]]; auto.
        * rewrite IH. tauto.
  Qed.

  Lemma insertion_sort_In x l : In x (fold_right ins [] l) <-> In x l.
  Proof. induction l as [|y l IH]; simpl; [tauto|]. rewrite insertion_In, IH. split; intros [H|H]; auto. Qed.
End Insertion.

Lemma NoDup_app_snoc {A} (l : list A) x : NoDup l -> ~ In x l -> NoDup (l ++ [x]).
Proof.
  induction 1 as [|y l Hy ND IH]; simpl; intros Hn.
  - repeat constructor. intros [].
  - constructor.
    + rewrite in_app_iff. intros [H|[H|[]]]; [auto|]. apply Hn. now left.
    + apply IH. intros H. apply Hn. now right.
Qed.

Lemma assoc_seq {X Y} (g : list (nat * X) -> nat -> Y) (h : X -> Y) (dflt : Y) :
  (forall q, g [] q = dflt) ->
  (forall q' x l q, g ((q', x) :: l) q = if Nat.eqb q q' then h x else g l q) ->
  forall (f : nat -> X) n a q,
    g (map (fun q => (q, f q)) (seq a n)) q = if (a <=? q) && (q <? a + n) then h (f q) else dflt.
Proof.
  intros Hnil Hcons f. induction n; intros a q; simpl.
  - rewrite Hnil. destruct (a <=? q) eqn:E1; simpl; auto. destruct (Nat.ltb_spec q (a + 0)); auto.
    apply Nat.leb_le in E1. lia.
  - rewrite Hcons. destruct (Nat.eqb_spec q a).
    + subst. rewrite Nat.leb_refl. simpl. destruct (Nat.ltb_spec a (a + S n)); auto. lia.
    + rewrite IHn. replace (a + S n) with (S a + n) by lia.
      destruct (Nat.leb_spec (S a) q), (Nat.leb_spec a q); try lia; reflexivity.
Qed.

Lemma row_of_seq (f : nat -> list (symbol * action)) n a q :
  row_of (map (fun q => (q, f q)) (seq a n)) q = if (a <=? q) && (q <? a + n) then Some (f q) else None.
Proof. now apply (assoc_seq row_of Some None). Qed.

Lemma assoc_sym_In X row a : assoc_sym X row = Some a -> In (X, a) row.
Proof.
  induction row as [|[Y b] row IH]; simpl; try discriminate.
  destruct (symbol_eqb_spec X Y); intros H.
  - inversion H; subst; auto.
  - right; auto.
Qed.

Section Trees.
  Variable tok : Type.
  Variable ttype : tok -> nat.
  Variable G : grammar.

  Notation dtree := (dtree tok).
  Notation root := (root tok ttype).
  Notation yield := (yield tok).
  Definition tmatch (t : nat) (k : tok) : bool := Nat.eqb t (ttype k).

  Fixpoint wf_tree (t : dtree) : Prop :=
    match t with
    | Leaf _ => True
    | Node r cs => In r G /\ map root cs = rhs r /\
                   (fix all (l : list dtree) : Prop :=
                      match l with [] => True | c :: l' => wf_tree c /\ all l' end) cs
    end.

  Definition wf_forest (l : list dtree) : Prop := Forall wf_tree l.

  Lemma wf_node_iff r cs :
    wf_tree (Node r cs) <-> In r G /\ map root cs = rhs r /\ wf_forest cs.
  Proof.
    simpl. assert (E : forall l, (fix all (l : list dtree) : Prop :=
                      match l with [] => True | c :: l' => wf_tree c /\ all l' end) l <-> Forall wf_tree l).
    { induction l; simpl; split; auto; intros H.
      - destruct H; constructor; auto. now apply IHl.
      - inversion H; subst; split; auto. now apply IHl. }
    unfold wf_forest. rewrite E. tauto.
  Qed.

  Fixpoint tsize (t : dtree) : nat :=
    match t with Leaf _ => 1 | Node _ cs => S (list_sum (map tsize cs)) end.

  Lemma tsize_child c cs : In c cs -> tsize c <= list_sum (map tsize cs).
  Proof.
    induction cs as [|c' cs IH]; [contradiction|]. simpl. intros [->|Hc]; [lia|]. specialize (IH Hc). lia.
  Qed.

  Lemma dtree_ind' (Q : dtree -> Prop) :
    (forall k, Q (Leaf k)) -> (forall r cs, Forall Q cs -> Q (Node r cs)) -> forall t, Q t.
  Proof.
    intros HL HN. fix IH 1. intros [k|r cs]; [apply HL|]. apply HN.
    induction cs as [|c cs IHcs]; constructor; [apply IH|exact IHcs].
  Qed.

  Lemma forest_derives_gen cs :
    Forall (fun c => derives G tok tmatch [root c] (yield c)) cs ->
    derives G tok tmatch (map root cs) (flat_map yield cs).
  Proof.
    induction 1 as [|c cs Hc _ IH]; simpl; [constructor|].
    change (root c :: map root cs) with ([root c] ++ map root cs). now apply derives_app.
  Qed.

  Lemma wf_tree_derives t : wf_tree t -> derives G tok tmatch [root t] (yield t).
  Proof.
    induction t as [k|r cs IH] using dtree_ind'; intros Hw.
    - simpl. apply d_term. unfold tmatch. apply Nat.eqb_refl. constructor.
    - apply wf_node_iff in Hw. destruct Hw as (Hin & Hr & Hf).
      simpl. apply derives_rule; [exact Hin|]. rewrite <- Hr. apply forest_derives_gen.
      unfold wf_forest in Hf. rewrite Forall_forall in *. auto.
  Qed.

  Lemma forest_derives cs : wf_forest cs -> derives G tok tmatch (map root cs) (flat_map yield cs).
  Proof. intros H. apply forest_derives_gen. eapply Forall_impl; [|exact H]. apply wf_tree_derives. Qed.

  Variable P : ptable.
  Variable start : nat.

  (* paths of the table from the start state, as (state stack, symbol stack), top first *)
  Inductive path : list state -> list symbol -> Prop :=
  | path_init : path [pt_start P] []
  | path_step q ss g X q' :
      path (q :: ss) g -> pt_action P q X = Some (Shift q') -> path (q' :: q :: ss) (X :: g).

  (* the hypothesis on the table.  Nothing about look-aheads: ANY choice of reduce
     look-aheads (LALR, SLR, full rows, conflict resolutions ...) satisfies it as long as a
     reduce by r is only offered in states all of whose access paths end with rhs r. *)
  Record wf_table : Prop := {
    wf_reduce : forall q ss g a r, path (q :: ss) g -> pt_action P q (T a) = Some (Reduce r) ->
                In r G /\ firstn (length (rhs r)) g = rev (rhs r);
    wf_end : forall q X, pt_action P q X = Some (Shift (pt_end P)) -> q = pt_start P /\ X = NT start;
    wf_start : forall q X, pt_action P q X <> Some (Shift (pt_start P)) }.

  Inductive stack_ok : list state -> list dtree -> Prop :=
  | ok_init : stack_ok [pt_start P] []
  | ok_push q ss vs t q' :
      stack_ok (q :: ss) vs -> wf_tree t -> pt_action P q (root t) = Some (Shift q') ->
      stack_ok (q' :: q :: ss) (t :: vs).

  Definition consumed (vs : list dtree) : list tok := flat_map yield (rev vs).

  Definition cfg_ok (c : config tok) : Prop := stack_ok (sstack c) (vstack c).

  Lemma stack_ok_path ss vs : stack_ok ss vs -> path ss (map root vs).
  Proof. induction 1; simpl; econstructor; eauto. Qed.

  Lemma stack_ok_nonempty ss vs : stack_ok ss vs -> ss <> [].
  Proof. destruct 1; discriminate. Qed.

  Lemma stack_ok_length ss vs : stack_ok ss vs -> length ss = S (length vs).
  Proof. induction 1; simpl; auto. Qed.

  Lemma stack_ok_skipn n : forall ss vs, stack_ok ss vs -> n <= length vs ->
    stack_ok (skipn n ss) (skipn n vs).
  Proof.
    induction n; intros ss vs H Hn; simpl; auto.
    destruct H; simpl in *; try lia. apply IHn; auto. lia.
  Qed.

  Lemma stack_ok_forest ss vs : stack_ok ss vs -> wf_forest vs.
  Proof. induction 1; constructor; auto. Qed.

  Lemma stack_ok_at_start ss vs : (forall q X, pt_action P q X <> Some (Shift (pt_start P))) ->
    stack_ok (pt_start P :: ss) vs -> ss = [] /\ vs = [].
  Proof. intros Hs H. inversion H; subst; auto. exfalso. eapply Hs; eauto. Qed.

  Lemma consumed_push t vs : consumed (t :: vs) = consumed vs ++ yield t.
  Proof. unfold consumed. simpl. rewrite flat_map_app. simpl. now rewrite app_nil_r. Qed.

  Lemma consumed_reduce r n vs :
    consumed (Node r (rev (firstn n vs)) :: skipn n vs) = consumed vs.
  Proof.
    rewrite consumed_push. unfold consumed. simpl.
    rewrite <- flat_map_app, <- rev_app_distr, firstn_skipn. reflexivity.
  Qed.

  Hypothesis WF : wf_table.

  Lemma reduce_step q ss vs a r :
    stack_ok (q :: ss) vs -> pt_action P q (T a) = Some (Reduce r) ->
    let n := length (rhs r) in
    n <= length vs /\ wf_tree (Node r (rev (firstn n vs))) /\
    stack_ok (skipn n (q :: ss)) (skipn n vs).
  Proof.
    intros Hok Ha n.
    destruct (wf_reduce WF _ _ _ _ _ (stack_ok_path _ _ Hok) Ha) as (Hin & Hsuf).
    assert (Hlen : n <= length vs).
    { apply (f_equal (@length _)) in Hsuf. rewrite rev_length, firstn_length, map_length in Hsuf.
      unfold n. lia. }
    split; [exact Hlen|]. split.
    - apply wf_node_iff. split; [exact Hin|]. split.
      + rewrite map_rev, <- firstn_map. fold n. unfold n at 1. rewrite Hsuf. apply rev_involutive.
      + apply Forall_rev. pose proof (stack_ok_forest _ _ Hok) as Hf. unfold wf_forest in *.
        rewrite <- (firstn_skipn n vs) in Hf. apply Forall_app in Hf. tauto.
    - apply stack_ok_skipn; auto.
  Qed.

  Lemma feed_inv fuel : forall c k e,
    cfg_ok c ->
    match feed tok ttype P fuel c k e with
    | Shifted c' => cfg_ok c' /\ consumed (vstack c') = consumed (vstack c) ++ [k] /\ e = false
    | Accepted t => wf_tree t /\ root t = NT start /\ yield t = consumed (vstack c) /\ e = true
    | Unexpected c' => cfg_ok c' /\ consumed (vstack c') = consumed (vstack c)
    | DAssert c' | DCrash c' => True
    | DFuel => True
    end.
  Proof.
    induction fuel; intros c k e Hc; simpl; auto.
    destruct c as [ss vs]; unfold cfg_ok in *; simpl in *.
    destruct ss as [|q ss]; auto.
    destruct (pt_action P q (T (ttype k))) as [[q' | r]|] eqn:Ha; simpl; auto.
    - destruct (Nat.eqb q' (pt_end P)); auto. destruct e; auto. simpl. split; [|split]; auto.
      + apply ok_push; simpl; auto.
      + apply consumed_push.
    - destruct (reduce_step _ _ _ _ _ Hc Ha) as (Hlen & Hw & Hok').
      remember (skipn (length (rhs r)) (q :: ss)) as ss' eqn:Ess.
      destruct ss' as [|q2 ss2]; auto.
      destruct (pt_action P q2 (NT (lhs r))) as [[q3 | r3]|] eqn:Hg; auto.
      destruct (e && Nat.eqb q3 (pt_end P)) eqn:Hend.
      + apply andb_true_iff in Hend. destruct Hend as (-> & Hq3). apply Nat.eqb_eq in Hq3. subst q3.
        destruct (wf_end WF _ _ Hg) as (-> & Hs). inversion Hs as [Hl].
        destruct (stack_ok_at_start _ _ (wf_start WF) Hok') as (_ & Hvs).
        split; [exact Hw|]. split; [simpl; now rewrite Hl|]. split; auto.
        rewrite <- (consumed_reduce r (length (rhs r)) vs). rewrite Hvs. unfold consumed. simpl.
        now rewrite app_nil_r.
      + specialize (IHfuel (mkConfig (q3 :: q2 :: ss2) (Node r (rev (firstn (length (rhs r)) vs)) :: skipn (length (rhs r)) vs)) k e).
        simpl in IHfuel.
        assert (Hok2 : stack_ok (q3 :: q2 :: ss2) (Node r (rev (firstn (length (rhs r)) vs)) :: skipn (length (rhs r)) vs)).
        { apply ok_push; auto. }
        specialize (IHfuel Hok2). rewrite (consumed_reduce r (length (rhs r)) vs) in IHfuel. exact IHfuel.
  Qed.

  Lemma feed_all_inv fuel : forall w c,
    cfg_ok c ->
    match feed_all tok ttype P fuel c w with
    | Shifted c' => cfg_ok c' /\ consumed (vstack c') = consumed (vstack c) ++ w
    | Accepted _ => False
    | Unexpected c' => cfg_ok c' /\ exists w1 w2, w = w1 ++ w2 /\ consumed (vstack c') = consumed (vstack c) ++ w1
    | _ => True
    end.
  Proof.
    induction w as [|k w IH]; intros c Hc; simpl.
    - split; auto. now rewrite app_nil_r.
    - pose proof (feed_inv fuel c k false Hc) as H1.
      destruct (feed tok ttype P fuel c k false) as [c1|t|c1|c1|c1|] eqn:E; auto.
      + destruct H1 as (Hc1 & Hcons & _). specialize (IH c1 Hc1).
        destruct (feed_all tok ttype P fuel c1 w) as [c2|t|c2|c2|c2|]; auto.
        * destruct IH as (? & ->). split; auto. now rewrite Hcons, <- app_assoc.
        * destruct IH as (? & w1 & w2 & -> & ->). split; auto.
          exists (k :: w1), w2. split; auto. now rewrite Hcons, <- app_assoc.
      + destruct H1 as (_ & _ & _ & H1). discriminate.
      + destruct H1 as (? & ?). split; auto. exists [], (k :: w). split; auto. now rewrite app_nil_r.
  Qed.

  Lemma cfg_ok_init : cfg_ok (init_config P).
  Proof. constructor. Qed.

  Lemma feed_all_init fuel u c :
    feed_all tok ttype P fuel (init_config P) u = Shifted c -> cfg_ok c /\ consumed (vstack c) = u.
  Proof. intros H. pose proof (feed_all_inv fuel u _ cfg_ok_init) as HI. rewrite H in HI. exact HI. Qed.

  (* driver_sound: an accepted input is a sentence, and the returned value is a derivation
     tree of it *)
  Theorem driver_sound fuel w end_tok t :
    parse tok ttype P fuel w end_tok = Accepted t ->
    wf_tree t /\ root t = NT start /\ yield t = w /\ derives G tok tmatch [NT start] w.
  Proof.
    unfold parse. intros H. pose proof (feed_all_inv fuel w _ cfg_ok_init) as H1.
    destruct (feed_all tok ttype P fuel (init_config P) w) as [c|t'|c|c|c|] eqn:E; try discriminate.
    - destruct H1 as (Hc & Hcons). pose proof (feed_inv fuel c end_tok true Hc) as H2.
      rewrite H in H2. destruct H2 as (Hw & Hr & Hy & _).
      simpl in Hcons. rewrite Hcons in Hy.
      repeat split; auto. rewrite <- Hr, <- Hy. now apply wf_tree_derives.
    - contradiction.
  Qed.

  (* a rejected input: the error is raised with a good configuration whose consumed input
     is a prefix of the input (the reductions done before the error keep the invariant) *)
  Theorem driver_error_prefix fuel w c :
    feed_all tok ttype P fuel (init_config P) w = Unexpected c ->
    cfg_ok c /\ exists w1 w2, w = w1 ++ w2 /\ consumed (vstack c) = w1.
  Proof.
    intros H. pose proof (feed_all_inv fuel w _ cfg_ok_init) as H1. rewrite H in H1. exact H1.
  Qed.
End Trees.

Section Items.
  Variable G : grammar.
  Variable P : ptable.
  Variable start : nat.
  Variable items : state -> list (rule * nat).

  Record wf_items : Prop := {
    wi_reduce : forall q a r, pt_action P q (T a) = Some (Reduce r) ->
                In r G /\ In (r, length (rhs r)) (items q);
    wi_shift : forall q X q' r d, pt_action P q X = Some (Shift q') -> In (r, d) (items q') ->
               d = 0 \/ exists d', d = S d' /\ nth_error (rhs r) d' = Some X /\ In (r, d') (items q);
    wi_init : forall r d, In (r, d) (items (pt_start P)) -> d = 0;
    wi_end : forall q X, pt_action P q X = Some (Shift (pt_end P)) -> q = pt_start P /\ X = NT start;
    wi_start : forall q X, pt_action P q X <> Some (Shift (pt_start P)) }.

  (* lr0_suffix: every item (A -> alpha . beta) of a state reached by a path spelling gamma
     has alpha as a suffix of gamma *)
  Lemma lr0_suffix : wf_items -> forall ss g, path P ss g ->
    forall q ss', ss = q :: ss' -> forall r d, In (r, d) (items q) ->
    firstn d g = rev (firstn d (rhs r)).
  Proof.
    intros W ss g Hp. induction Hp; intros q0 ss0 E r d Hin; inversion E; subst.
    - rewrite (wi_init W _ _ Hin). reflexivity.
    - destruct (wi_shift W _ _ _ _ _ H Hin) as [-> | (d' & -> & Hn & Hin')]; [reflexivity|].
      rewrite (firstn_S_nth_error _ _ _ Hn), rev_app_distr. simpl. f_equal.
      eapply IHHp; eauto.
  Qed.

  Theorem wf_items_table : wf_items -> wf_table G P start.
  Proof.
    intros W. constructor.
    - intros q ss g a r Hp Ha. destruct (wi_reduce W _ _ _ Ha) as (Hin & Hit). split; auto.
      rewrite (lr0_suffix W _ _ Hp q ss eq_refl _ _ Hit). now rewrite firstn_all.
    - apply (wi_end W).
    - apply (wi_start W).
  Qed.
End Items.

Definition rule_eqb (r1 r2 : rule) : bool := if rule_eq_dec r1 r2 then true else false.
Definition ritem_eqb (i1 i2 : rule * nat) : bool := rule_eqb (fst i1) (fst i2) && Nat.eqb (snd i1) (snd i2).
Definition mem_ritem (i : rule * nat) (l : list (rule * nat)) : bool := existsb (ritem_eqb i) l.
Definition mem_rule (r : rule) (l : list rule) : bool := existsb (rule_eqb r) l.

Lemma rule_eqb_eq r1 r2 : rule_eqb r1 r2 = true <-> r1 = r2.
Proof. unfold rule_eqb. destruct (rule_eq_dec r1 r2); split; auto; discriminate. Qed.

Lemma mem_rule_In r l : mem_rule r l = true <-> In r l.
Proof.
  unfold mem_rule. rewrite existsb_exists. split.
  - intros (x & Hx & E). apply rule_eqb_eq in E. now subst.
  - intros H. exists r. split; auto. now apply rule_eqb_eq.
Qed.

Lemma mem_ritem_In i l : mem_ritem i l = true <-> In i l.
Proof.
  unfold mem_ritem, ritem_eqb. rewrite existsb_exists. split.
  - intros (x & Hx & E). apply andb_true_iff in E. destruct E as (E1 & E2).
    apply rule_eqb_eq in E1. apply Nat.eqb_eq in E2. destruct i, x; simpl in *; now subst.
  - intros H. exists i. split; auto. apply andb_true_iff. split.
    now apply rule_eqb_eq. apply Nat.eqb_refl.
Qed.

Section Checker.
  Variable G : grammar.
  Variable R : rows.
  Variable q0 qe : state.
  Variable start : nat.
  Variable IT : list (state * list (rule * nat)).

  Fixpoint items_of (l : list (state * list (rule * nat))) (q : state) : list (rule * nat) :=
    match l with
    | [] => []
    | (q', it) :: l' => if Nat.eqb q q' then it else items_of l' q
    end.

  Definition check_entry (q : state) (e : symbol * action) : bool :=
    match e with
    | (X, Shift q') =>
        negb (Nat.eqb q' q0) &&
        (if Nat.eqb q' qe then Nat.eqb q q0 && symbol_eqb X (NT start) else true) &&
        forallb (fun it : rule * nat =>
                   match snd it with
                   | O => true
                   | S d' => match nth_error (rhs (fst it)) d' with
                             | Some Y => symbol_eqb Y X && mem_ritem (fst it, d') (items_of IT q)
                             | None => false
                             end
                   end) (items_of IT q')
    | (X, Reduce r) => mem_rule r G && mem_ritem (r, length (rhs r)) (items_of IT q)
    end.

  Definition check_table : bool :=
    forallb (fun row : state * list (symbol * action) => forallb (check_entry (fst row)) (snd row)) R &&
    forallb (fun it : rule * nat => Nat.eqb (snd it) 0) (items_of IT q0).

  Lemma row_of_In q row : row_of R q = Some row -> In (q, row) R.
  Proof.
    induction R as [|[q' r'] R' IH]; simpl; try discriminate.
    destruct (Nat.eqb_spec q q'); intros H.
    - inversion H; subst; auto.
    - right; auto.
  Qed.

  Lemma action_entry q X a : rows_action R q X = Some a -> check_table = true -> check_entry q (X, a) = true.
  Proof.
    unfold rows_action, check_table. intros H C. apply andb_true_iff in C. destruct C as (C & _).
    destruct (row_of R q) as [row|] eqn:E; try discriminate.
    rewrite forallb_forall in C. specialize (C _ (row_of_In _ _ E)). simpl in C.
    rewrite forallb_forall in C. apply C. now apply assoc_sym_In.
  Qed.

  Theorem check_table_sound :
    check_table = true -> wf_items G (ptable_of_rows R q0 qe) start (items_of IT).
  Proof.
    intros C. constructor; simpl.
    - intros q a r H. pose proof (action_entry _ _ _ H C) as E. simpl in E.
      apply andb_true_iff in E. destruct E as (E1 & E2).
      split. now apply mem_rule_In. now apply mem_ritem_In.
    - intros q X q' r d H Hin. pose proof (action_entry _ _ _ H C) as E. simpl in E.
      apply andb_true_iff in E. destruct E as (_ & E). rewrite forallb_forall in E.
      specialize (E _ Hin). simpl in E. destruct d as [|d']; auto. right.
      destruct (nth_error (rhs r) d') as [Y|] eqn:En; try discriminate.
      apply andb_true_iff in E. destruct E as (E1 & E2).
      destruct (symbol_eqb_spec Y X); try discriminate. subst Y.
      exists d'. repeat split; auto. now apply mem_ritem_In.
    - intros r d Hin. unfold check_table in C. apply andb_true_iff in C. destruct C as (_ & C).
      rewrite forallb_forall in C. specialize (C _ Hin). simpl in C. now apply Nat.eqb_eq.
    - intros q X H. pose proof (action_entry _ _ _ H C) as E. simpl in E.
      rewrite Nat.eqb_refl in E. apply andb_true_iff in E. destruct E as (E & _).
      apply andb_true_iff in E. destruct E as (_ & E). apply andb_true_iff in E. destruct E as (E1 & E2).
      apply Nat.eqb_eq in E1. destruct (symbol_eqb_spec X (NT start)); try discriminate. auto.
    - intros q X H. pose proof (action_entry _ _ _ H C) as E. simpl in E.
      rewrite Nat.eqb_refl in E. simpl in E. discriminate.
  Qed.
End Checker.

Lemma items_of_seq (f : nat -> list (rule * nat)) n a q :
  items_of (map (fun q => (q, f q)) (seq a n)) q = if (a <=? q) && (q <? a + n) then f q else [].
Proof. now apply (assoc_seq items_of (fun x => x) []). Qed.

(* the root rule  $root -> start  may be dropped from derivations of the user's start symbol *)
Section Root.
  Variable tok : Type.
  Variable tmatch : nat -> tok -> bool.
  Variable G : grammar.
  Variable r0 : rule.
  Definition no_sym (X : symbol) (l : list symbol) : Prop := ~ In X l.
  Hypothesis fresh : forall r, In r G -> no_sym (NT (lhs r0)) (rhs r).

  Lemma derives_without_root ss w :
    derives (r0 :: G) tok tmatch ss w -> no_sym (NT (lhs r0)) ss -> derives G tok tmatch ss w.
  Proof.
    induction 1; intros Hn.
    - constructor.
    - constructor; auto. apply IHderives. intros Hc; apply Hn; now right.
    - destruct H as [<- | Hin].
      + exfalso. apply Hn. left. now rewrite H0.
      + apply d_nt with (r := r); [exact Hin | exact H0 | |].
        * apply IHderives1. now apply fresh.
        * apply IHderives2. intros Hc; apply Hn; now right.
  Qed.
End Root.
