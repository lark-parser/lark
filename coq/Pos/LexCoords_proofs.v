(* Proofs about the lexer-position model Pos/LexCoords.v (C06 lexer_coords, dyn_coords). *)
From Coq Require Import ZArith List Bool Lia Arith.
From LV Require Import Pos.PosBase Gen.LineCounter Gen.LexStep Gen.DynStep Pos.Coord
  Pos.LineCounter_proofs Pos.LexCoords.
Import ListNotations.
Local Open Scope Z_scope.

(* regenerated-file lemmas about the loop condition of next_token *)
Lemma h_more_shift x y d : h_more (x + d) (y + d) = h_more x y.
Proof.
  unfold h_more. destruct (Z.ltb_spec (x + d) (y + d)), (Z.ltb_spec x y); try reflexivity; lia.
Qed.

Lemma h_more_lt x y : h_more x y = true -> x < y.
Proof. unfold h_more. intros H. apply Z.ltb_lt. exact H. Qed.

Lemma slice_len {A} (T : list A) (p n : nat) :
  slice T (Z.of_nat p) (Z.of_nat p + Z.of_nat n) = firstn n (skipn p T).
Proof. rewrite <- Nat2Z.inj_add, slice_nat. f_equal. lia. Qed.

Section LexerCoords.
Context {A : Type} (eqb : A -> A -> bool) (nl : A) {term : Type}.
Variable scan : list term -> list A -> Z -> Z -> option (nat * term).
Variable ignore : term -> bool.
Variable newline_types : term -> bool.

(* the token claim of C06 for the basic / contextual family, for a window [lo, hi) of buffer T *)
Definition tok_ok (T : list A) (lo hi : nat) (t : token A term) : Prop :=
  exists s n : nat,
    t_start t = Z.of_nat s /\ (lo <= s)%nat /\ (s + n <= hi)%nat /\
    t_value t = firstn n (skipn s T) /\ length (t_value t) = n /\
    t_end_pos t = Z.of_nat (s + n) /\
    (t_line t, t_column t) = coord eqb nl T s /\
    (t_end_line t, t_end_column t) = coord eqb nl T (s + n).

Fixpoint chain (p : Z) (ts : list (token A term)) : Prop :=
  match ts with
  | [] => True
  | t :: r => p <= t_start t /\ t_start t <= t_end_pos t /\ chain (t_end_pos t) r
  end.

Definition outcome_ok (T : list A) (lo hi : nat) (o : outcome) : Prop :=
  match o with
  | Unexpected p l c => exists q : nat, p = Z.of_nat q /\ (lo <= q <= hi)%nat /\ (l, c) = coord eqb nl T q
  | _ => True
  end.

Lemma chain_weaken p p' ts : p <= p' -> chain p' ts -> chain p ts.
Proof. destruct ts as [|t r]; [auto|]. cbn [chain]. intros H (H1 & H2). split; [lia|exact H2]. Qed.

Lemma tok_ok_start T lo hi t : tok_ok T lo hi t ->
  exists q : nat, t_start t = Z.of_nat q /\ (lo <= q <= hi)%nat /\ (t_line t, t_column t) = coord eqb nl T q.
Proof. intros (s & n & Hs & Hlo & Hhi & _ & _ & _ & Hc & _). exists s. repeat split; auto; lia. Qed.

Lemma tok_ok_end T lo hi t : tok_ok T lo hi t ->
  exists q : nat, t_end_pos t = Z.of_nat q /\ (lo <= q <= hi)%nat /\ (t_end_line t, t_end_column t) = coord eqb nl T q.
Proof. intros (s & n & _ & Hlo & Hhi & _ & _ & He & _ & Hc). exists (s + n)%nat. repeat split; auto; lia. Qed.

Section Window.
Variable T : list A.
Variable e : nat.
Hypothesis e_le : (e <= length T)%nat.
(* the engine honours endpos: a match at p inside the window ends inside the window *)
Hypothesis scan_bounded : forall h (p n : nat) ty,
  scan h T (Z.of_nat p) (Z.of_nat e) = Some (n, ty) -> (p + n <= e)%nat.
(* H_nl: a terminal for which next_token passes test_newline = False never matches a newline *)
Hypothesis H_nl : forall h (p n : nat) ty,
  scan h T (Z.of_nat p) (Z.of_nat e) = Some (n, ty) ->
  h_testnl newline_types ty = false -> has_no_newline eqb nl (firstn n (skipn p T)).

Lemma feed_match_coord hist (p n : nat) ty c :
  at_coord eqb nl T p c -> scan hist T (Z.of_nat p) (Z.of_nat e) = Some (n, ty) ->
  at_coord eqb nl T (p + n) (feed eqb nl c (firstn n (skipn p T)) (h_testnl newline_types ty)).
Proof.
  intros Hc Es. pose proof (scan_bounded _ _ _ _ Es) as Hb.
  apply feed_tracks_coord; [lia|exact Hc|].
  destruct (h_testnl newline_types ty) eqn:Et; [left; reflexivity|right]. eapply H_nl; eauto.
Qed.

(* one iteration of next_token from exact coordinates at p: an error is reported at p itself; a match of
   n characters leaves the counter exact at p + n, and a token built from it spans [p, p + n) *)
Lemma lex_step_ok hist (p : nat) c :
  (p <= e)%nat -> at_coord eqb nl T p c ->
  match lex_step eqb nl scan ignore newline_types hist T (Z.of_nat e) c with
  | SEof => True
  | SErr c0 => c0 = c /\ (p < e)%nat
  | SSkip c' => exists n, (p + n <= e)%nat /\ at_coord eqb nl T (p + n) c'
  | STok t c' => exists n, (p + n <= e)%nat /\ at_coord eqb nl T (p + n) c' /\
                 t_start t = Z.of_nat p /\ t_end_pos t = Z.of_nat (p + n) /\
                 forall a, (a <= p)%nat -> tok_ok T a e t
  end.
Proof.
  intros Hp Hc. unfold lex_step. pose proof Hc as (Hcp & Hln & Hcol & _). rewrite Hcp.
  destruct (h_more (Z.of_nat p) (Z.of_nat e)) eqn:Hm; [|exact I].
  assert (Hlt : (p < e)%nat) by (apply h_more_lt in Hm; lia).
  destruct (scan hist T (Z.of_nat p) (Z.of_nat e)) as [[n ty]|] eqn:Es; [|split; [reflexivity|exact Hlt]].
  pose proof (scan_bounded _ _ _ _ Es) as Hb.
  rewrite slice_len. set (value := firstn n (skipn p T)).
  pose proof (feed_match_coord _ _ _ _ _ Hc Es : at_coord eqb nl T (p + n) (feed eqb nl c value _)) as Hc'.
  destruct (ignore ty); exists n; (split; [exact Hb|]); [exact Hc'|split; [exact Hc'|]].
  destruct Hc' as (Hcp' & Hln' & Hcol' & _).
  cbn [t_start t_end_pos]. split; [reflexivity|]. split; [exact Hcp'|]. intros a Ha.
  exists p, n. cbn [t_start t_value t_line t_column t_end_line t_end_column t_end_pos].
  split; [reflexivity|]. split; [exact Ha|]. split; [exact Hb|]. split; [reflexivity|].
  split; [apply window_length; lia|]. split; [exact Hcp'|]. unfold coord. split; congruence.
Qed.

Lemma lex_loop_ok (a : nat) fuel : forall hist (p : nat) c ts o,
  (a <= p <= e)%nat -> at_coord eqb nl T p c ->
  lex_loop eqb nl scan ignore newline_types fuel hist T (Z.of_nat e) c = (ts, o) ->
  Forall (tok_ok T a e) ts /\ chain (Z.of_nat p) ts /\ outcome_ok T a e o.
Proof.
  induction fuel as [|f IH]; intros hist p c ts o Hp Hc; cbn [lex_loop].
  - intros [= <- <-]. repeat split; constructor.
  - pose proof (lex_step_ok hist p c (proj2 Hp) Hc) as S.
    destruct (lex_step eqb nl scan ignore newline_types hist T (Z.of_nat e) c) as [|c0|c'|t c'].
    + intros [= <- <-]. repeat split; constructor.
    + destruct S as (-> & Hlt). destruct Hc as (Hcp & Hln & Hcol & _). intros [= <- <-].
      split; [constructor|]. split; [exact I|].
      exists p. split; [exact Hcp|]. split; [lia|]. unfold coord. congruence.
    + destruct S as (n & Hn & Hc'). intros E.
      destruct (IH hist (p + n)%nat c' ts o ltac:(lia) Hc' E) as (F & Ch & O).
      split; [exact F|]. split; [|exact O]. apply chain_weaken with (2 := Ch). lia.
    + destruct S as (n & Hn & Hc' & Hs & He & Hok).
      destruct (lex_loop eqb nl scan ignore newline_types f _ T (Z.of_nat e) c') as [ts' o'] eqn:E.
      intros [= <- <-].
      destruct (IH _ (p + n)%nat c' ts' o' ltac:(lia) Hc' E) as (F & Ch & O).
      split; [constructor; [apply Hok; lia|exact F]|]. split; [|exact O].
      cbn [chain]. rewrite Hs, He. split; [lia|]. split; [lia|exact Ch].
Qed.

(* C06 lexer_coords: every token of lexing the window [a, e) of T - starting from a plain
   TextSlice or from one carrying an exact snapshot - carries exact source coordinates *)
Theorem lexer_coords_gen (a : nat) snap ts o :
  (a <= e)%nat ->
  (snap = None \/ snap = Some (line_of eqb nl T a, line_start_of eqb nl T a)) ->
  lex_slice eqb nl scan ignore newline_types T (Z.of_nat a) (Z.of_nat e) snap = (ts, o) ->
  Forall (tok_ok T a e) ts /\ chain (Z.of_nat a) ts /\ outcome_ok T a e o.
Proof.
  intros Ha Hs. unfold lex_slice. apply lex_loop_ok; [lia|].
  apply from_text_slice_coord; [lia|exact Hs].
Qed.

End Window.
End LexerCoords.

(* the same claim for the dynamic (xearley) scanner, which keeps line and column itself *)
Section DynCoords.
Context {A : Type} (eqb : A -> A -> bool) (nl : A) (isnl : A -> bool) {term : Type}.
Hypothesis isnl_spec : forall x, isnl x = eqb x nl.
(* regenerated-file lemma: the constants of the main loop of xearley._parse *)
Lemma dyn_consts : dyn_line0 = 1 /\ dyn_col0 = 1 /\ dyn_line_inc = 1 /\ dyn_col_reset = 1 /\ dyn_col_inc = 1.
Proof. repeat split; reflexivity. Qed.

Theorem dyn_at_coord (T : list A) i : (i <= length T)%nat -> dyn_at isnl T i = coord eqb nl T i.
Proof.
  destruct dyn_consts as (C1 & C2 & C3 & C4 & C5).
  induction i as [|i IH]; intros Hi.
  - unfold dyn_at, coord, line_of, col_of. cbn. rewrite C1, C2. reflexivity.
  - destruct (nth_error T i) as [x|] eqn:Ex.
    2:{ apply nth_error_None in Ex. lia. }
    unfold dyn_at. rewrite (firstn_S_snoc _ _ _ Ex), fold_left_app. cbn [fold_left].
    fold (dyn_at isnl T i). rewrite IH by lia. rewrite (coord_step eqb nl T i x Ex).
    unfold dyn_step. rewrite isnl_spec. unfold coord. cbn [fst snd]. rewrite C3, C4, C5.
    destruct (eqb x nl); reflexivity.
Qed.

(* token claim of the dynamic family: start coordinates exact; the end is reported as the
   coordinates of the last character plus one column - equal to coord T e unless the token ends
   with a newline, where it is one past the newline on the newline's own line *)
Theorem dyn_token_coords (ty : term) (T : list A) s e :
  (s < e)%nat -> (e <= length T)%nat ->
  let t := dyn_token isnl ty T s e in
  t_value t = firstn (e - s) (skipn s T) /\ length (t_value t) = (e - s)%nat /\
  t_start t = Z.of_nat s /\ t_end_pos t = Z.of_nat e /\
  (t_line t, t_column t) = coord eqb nl T s /\
  (t_end_line t, t_end_column t) = (line_of eqb nl T (e - 1), col_of eqb nl T (e - 1) + 1) /\
  (forall x, nth_error T (e - 1) = Some x -> eqb x nl = false ->
     (t_end_line t, t_end_column t) = coord eqb nl T e).
Proof.
  intros Hse He t. unfold t, dyn_token.
  cbn [t_value t_start t_end_pos t_line t_column t_end_line t_end_column].
  rewrite !dyn_at_coord by lia.
  unfold dyn_end_line, dyn_end_column, dyn_end_pos, coord. cbn [fst snd].
  split; [reflexivity|]. split; [apply window_length; lia|]. split; [reflexivity|].
  split; [lia|]. split; [reflexivity|]. split; [reflexivity|].
  intros x Hx Hn. replace e with (S (e - 1)) at 3 4 by lia.
  fold (coord eqb nl T (S (e - 1))). rewrite (coord_step eqb nl T (e - 1) x Hx), Hn. reflexivity.
Qed.

End DynCoords.
