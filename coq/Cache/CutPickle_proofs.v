(* C12 - a cut pickle under a consistent header.  If the body of a cache file is a strict prefix of what was
   written and the header has been recomputed for that prefix (so the digest check passes), the read is still a
   Miss: unpickling a strict prefix fails, and `except Exception` turns the failure into a rebuild.  This is the
   role of the second pickle hypothesis (dec fails on every strict prefix of enc x); it does not use any property
   of the digest.  The toy codec of CacheInstance.v satisfies the hypothesis (non-vacuity). *)
From Coq Require Import List Ascii Bool Arith Lia.
From LV Require Import Cache.Bytes Cache.PyRepr Gen.CacheKey Cache.Cache Cache.PyRepr_proofs Cache.Cache_proofs
  Cache.CacheInstance.
Import ListNotations.

Definition strict_prefix (p x : bytes) : Prop := exists s, s <> [] /\ x = p ++ s.

Definition prefix_fails {A} (enc : A -> bytes) (dec : bytes -> option (A * bytes)) : Prop :=
  forall x p, strict_prefix p (enc x) -> dec p = None.

Lemma firstn_strict_prefix n (x : bytes) : n < length x -> strict_prefix (firstn n x) x.
Proof.
  intros L. exists (skipn n x). split; [|now rewrite firstn_skipn].
  intros E. apply (f_equal (@length _)) in E. rewrite skipn_length in E. cbn in E. lia.
Qed.

Section CutPickle.
  Variable R : Type.
  Variable sha : bytes -> bytes.
  Variables D P : Type.
  Variable encU : ufiles -> bytes.
  Variable decU : bytes -> option (ufiles * bytes).
  Variable encD : D -> bytes.
  Variable decD : bytes -> option (D * bytes).
  Variable load : D -> cfg R -> option P.
  Hypothesis sha_no_nl : forall a, ~ In nl (sha a).
  Hypothesis decU_encU : forall u r, decU (encU u ++ r) = Some (u, r).
  Hypothesis decU_prefix : prefix_fails encU decU.
  Hypothesis decD_prefix : prefix_fails encD decD.

  Theorem cut_pickle_miss k u d n c e :
    n < length (encU u ++ encD d) ->
    read R sha D P decU decD load (mk_file sha k (firstn n (encU u ++ encD d))) c e = Miss.
  Proof.
    intros L. unfold read, mk_file.
    rewrite split_line_app by (apply header_no_nl, sha_no_nl).
    destruct (header_ok sha _ _ _); [|reflexivity].
    rewrite firstn_app. rewrite app_length in L.
    destruct (Nat.lt_ge_cases n (length (encU u))) as [Lt | Ge].
    - replace (n - length (encU u)) with 0 by lia. cbn [firstn]. rewrite app_nil_r.
      now rewrite (decU_prefix u _ (firstn_strict_prefix _ _ Lt)).
    - rewrite firstn_all2 by lia. rewrite decU_encU.
      destruct (verify sha e u); [|reflexivity].
      rewrite (decD_prefix d (firstn (n - length (encU u)) (encD d))); [reflexivity|].
      apply firstn_strict_prefix. lia.
  Qed.
End CutPickle.

Lemma cnt_prefix p s N x :
  p ++ s = repeat one N ++ zero :: x -> snd (cnt p) = [] \/ exists y, cnt p = (N, zero :: y) /\ x = y ++ s.
Proof.
  revert p. induction N as [|N IH]; intros [|c p] E; cbn in E; try (now left); injection E as -> E.
  - right. exists p. auto.
  - cbn. destruct (IH p E) as [L | (y & -> & ->)]; [left; now destruct (cnt p) | right; now exists y].
Qed.

Lemma dec_b_prefix : prefix_fails enc_b dec_b.
Proof.
  intros x p (s & Ns & E). unfold dec_b. symmetry in E.
  destruct (cnt_prefix p s _ _ E) as [C | (y & -> & ->)]; [destruct (cnt p); cbn in C; now subst|].
  rewrite Ascii.eqb_refl. cbn [andb]. replace (_ <=? _) with false; [reflexivity|].
  symmetry. apply Nat.leb_gt. rewrite app_length. destruct s; [contradiction | cbn; lia].
Qed.

Lemma prefix_cases (p s x y : bytes) :
  p ++ s = x ++ y -> s <> [] -> strict_prefix p x \/ exists q, p = x ++ q /\ y = q ++ s.
Proof.
  intros E Ns. apply app_eq_app in E as [l [[E1 E2] | [E1 E2]]].
  - right. exists l. auto.
  - destruct l as [|c l].
    + right. exists []. rewrite app_nil_r in E1. cbn in *. subst. now rewrite app_nil_r.
    + left. exists (c :: l). split; [discriminate | assumption].
Qed.

Lemma dec_pairs_prefix u : forall p, strict_prefix p (flat_map enc_pair u) -> dec_pairs (length u) p = None.
Proof.
  induction u as [|[a h] u IH]; intros p (s & Ns & E); cbn [flat_map length dec_pairs] in *.
  - exfalso. symmetry in E. apply app_eq_nil in E as [_ E]. contradiction.
  - unfold enc_pair at 1 in E. cbn [fst snd] in E. rewrite <- app_assoc in E. symmetry in E.
    apply prefix_cases in E; [|assumption]. destruct E as [SP | (q & -> & E)].
    + now rewrite (dec_b_prefix a p SP).
    + rewrite dec_enc_b. symmetry in E.
      apply prefix_cases in E; [|assumption]. destruct E as [SP | (q' & -> & E)].
      * now rewrite (dec_b_prefix h q SP).
      * rewrite dec_enc_b. rewrite IH; [reflexivity|]. exists s. auto.
Qed.

Lemma t_decU_prefix : prefix_fails t_encU t_decU.
Proof.
  intros u p (s & Ns & E). unfold t_decU. symmetry in E.
  destruct (cnt_prefix p s _ _ E) as [C | (y & -> & F)]; [destruct (cnt p); cbn in C; now subst|].
  rewrite Ascii.eqb_refl. apply dec_pairs_prefix. now exists s.
Qed.

Lemma t_cut_pickle_miss k u d n c e :
  n < length (t_encU u ++ enc_b d) ->
  read bool t_sha bytes t_P t_decU dec_b t_load (mk_file t_sha k (firstn n (t_encU u ++ enc_b d))) c e = Miss.
Proof.
  apply cut_pickle_miss; [apply t_sha_no_nl | apply t_decU_encU | apply t_decU_prefix | apply dec_b_prefix].
Qed.
