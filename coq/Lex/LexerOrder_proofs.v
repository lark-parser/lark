(* The documented terminal order and the sort of BasicLexer.__init__:
   the regenerated key (Gen/LexerSortKey.v) orders terminals by higher priority, then longer
   maximal width, then longer pattern, then name; sort_terms returns a permutation that is
   strongly sorted for it. *)
From Coq Require Import ZArith List Bool String Ascii Arith Lia Sorted Permutation.
From LV Require Import Base.Prelude Lex.LexerBase Gen.LexerSortKey Lex.Lexer.
Import ListNotations.
Local Open Scope Z_scope.

(* the documented order, stated independently of the code's key tuple *)
Definition doc_le (a b : term) : Prop :=
  tprio a > tprio b \/ (tprio a = tprio b /\
   (tmaxw a > tmaxw b \/ (tmaxw a = tmaxw b /\
    (tvlen a > tvlen b \/ (tvlen a = tvlen b /\ String.compare (tname a) (tname b) <> Gt))))).

Definition lex_ge (x y : Z) (rest : Prop) : Prop := x > y \/ (x = y /\ rest).

Lemma lex_ge_trans x y z (P Q R : Prop) :
  (P -> Q -> R) -> lex_ge x y P -> lex_ge y z Q -> lex_ge x z R.
Proof. unfold lex_ge. intros T [?|[? p]] [?|[? q]]; [left; lia..|right; split; [lia|auto]]. Qed.

Lemma lex_ge_total x y (P Q : Prop) : P \/ Q -> lex_ge x y P \/ lex_ge y x Q.
Proof.
  unfold lex_ge. destruct (Z.lt_trichotomy x y) as [?|[?|?]]; [right; left; lia| |left; left; lia].
  intros [p|q]; [left|right]; right; split; auto.
Qed.

Lemma lex_ge_antisym x y (P Q R : Prop) : (P -> Q -> R) -> lex_ge x y P -> lex_ge y x Q -> R.
Proof. unfold lex_ge. intros T [?|[? p]] [?|[? q]]; [lia..|auto]. Qed.

(* the same level in a key tuple: the component is the negated integer *)
Lemma lex_ge_compare x y (c : comparison) (P : Prop) :
  (c <> Gt <-> P) -> (match (- x ?= - y) with Eq => c | o => o end <> Gt <-> lex_ge x y P).
Proof.
  unfold lex_ge. rewrite Z.compare_opp. intros <-.
  destruct (Z.compare_spec y x); intuition (lia || congruence).
Qed.

(* doc_le is three such levels over the comparison of the names *)
Lemma term_leb_doc a b : term_leb a b = true <-> doc_le a b.
Proof.
  transitivity (key_compare (sort_key a) (sort_key b) <> Gt).
  - unfold term_leb, key_leb. destruct (key_compare (sort_key a) (sort_key b)); split; congruence.
  - cbn [sort_key key_compare keyc_compare]. do 3 apply lex_ge_compare.
    destruct (String.compare (tname a) (tname b)); reflexivity.
Qed.

Lemma ascii_compare_trans a b c :
  Ascii.compare a b = Lt -> Ascii.compare b c = Lt -> Ascii.compare a c = Lt.
Proof.
  unfold Ascii.compare. rewrite !N.compare_lt_iff. lia.
Qed.

Lemma str_compare_refl a : String.compare a a = Eq.
Proof.
  induction a as [|x a IH]; cbn; [reflexivity|].
  unfold Ascii.compare. now rewrite N.compare_refl.
Qed.

Lemma str_compare_le_trans a : forall b c,
  String.compare a b <> Gt -> String.compare b c <> Gt -> String.compare a c <> Gt.
Proof.
  induction a as [|x a IH]; intros [|y b] [|z c]; cbn; try congruence.
  destruct (Ascii.compare x y) eqn:Cxy; [apply Ascii.compare_eq_iff in Cxy; subst y| |congruence].
  - destruct (Ascii.compare x z); [apply IH|congruence|congruence].
  - intros _. destruct (Ascii.compare y z) eqn:Cyz; [| |congruence].
    + apply Ascii.compare_eq_iff in Cyz. subst z. now rewrite Cxy.
    + now rewrite (ascii_compare_trans _ _ _ Cxy Cyz).
Qed.

Lemma str_compare_le_total a b : String.compare a b <> Gt \/ String.compare b a <> Gt.
Proof. rewrite (String.compare_antisym b a). destruct (String.compare a b); cbn; [left|left|right]; discriminate. Qed.

Lemma str_compare_le_antisym a b : String.compare a b <> Gt -> String.compare b a <> Gt -> a = b.
Proof.
  rewrite (String.compare_antisym b a). destruct (String.compare a b) eqn:C; cbn; try congruence.
  intros _ _. now apply String.compare_eq_iff.
Qed.

Lemma doc_le_trans a b c : doc_le a b -> doc_le b c -> doc_le a c.
Proof. do 3 apply lex_ge_trans. apply str_compare_le_trans. Qed.

Lemma doc_le_total a b : doc_le a b \/ doc_le b a.
Proof. do 3 apply lex_ge_total. apply str_compare_le_total. Qed.

Lemma doc_le_refl a : doc_le a a.
Proof. destruct (doc_le_total a a); assumption. Qed.

Lemma doc_le_antisym_name a b : doc_le a b -> doc_le b a -> tname a = tname b.
Proof. do 3 apply lex_ge_antisym. apply str_compare_le_antisym. Qed.

Lemma insert_perm x l : Permutation (x :: l) (insert_term x l).
Proof.
  induction l as [|y r IH]; cbn; [reflexivity|].
  destruct (term_leb x y); [reflexivity|].
  rewrite perm_swap. now constructor.
Qed.

Lemma sort_perm l : Permutation l (sort_terms l).
Proof.
  induction l as [|x l IH]; cbn; [constructor|].
  etransitivity; [|apply insert_perm]. now constructor.
Qed.

Lemma insert_sorted x l :
  StronglySorted doc_le l -> StronglySorted doc_le (insert_term x l).
Proof.
  induction 1 as [|y r Hs IH Hall]; cbn.
  - constructor; constructor.
  - destruct (term_leb x y) eqn:E.
    + apply term_leb_doc in E. constructor.
      * now constructor.
      * constructor; [assumption|].
        eapply Forall_impl; [|exact Hall]. intros z Hz. eapply doc_le_trans; eauto.
    + constructor; [assumption|].
      assert (Hyx : doc_le y x).
      { destruct (doc_le_total x y) as [H|H]; [|assumption].
        apply term_leb_doc in H. congruence. }
      eapply Permutation_Forall; [apply insert_perm|]. now constructor.
Qed.

Lemma sort_sorted l : StronglySorted doc_le (sort_terms l).
Proof.
  induction l as [|x l IH]; cbn; [constructor|]. now apply insert_sorted.
Qed.

Lemma sort_in x l : In x (sort_terms l) <-> In x l.
Proof.
  split; apply Permutation_in; [symmetry|]; apply sort_perm.
Qed.

Lemma filter_sorted {A} (R : A -> A -> Prop) (f : A -> bool) l :
  StronglySorted R l -> StronglySorted R (filter f l).
Proof.
  induction 1 as [|y r Hs IH Hall]; cbn; [constructor|].
  destruct (f y); [|assumption].
  constructor; [assumption|].
  rewrite Forall_forall in *. intros z Hz. apply filter_In in Hz. now apply Hall.
Qed.

Lemma sorted_split_le {A} (R : A -> A -> Prop) pre t post :
  StronglySorted R (pre ++ t :: post) -> forall u, In u post -> R t u.
Proof.
  induction pre as [|z pre IH]; cbn; intros Hs; inversion_clear Hs; [now apply Forall_forall|auto].
Qed.
