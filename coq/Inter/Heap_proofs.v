(* C13 - ownership ("separation") predicate for heap values and its basic lemmas. *)
From Coq Require Import List Arith Bool Lia.
From LV Require Import Inter.Heap.
Import ListNotations.

Definition disjoint (a b : list loc) : Prop := forall x, In x a -> In x b -> False.

(* own H t v f : in heap H the value v denotes the immutable tree t (metas included), the child
   lists and Meta objects it reaches are exactly the locations f, and no location is reached
   twice (no sharing). *)
Inductive own (H : heap) : ptree -> value -> list loc -> Prop :=
| own_tok a b : own H (PTok a b) (VTok a b) []
| own_none : own H PNone VNone []
| own_node d l m vs mt ts fp :
    nth_error H l = Some (CList vs) -> nth_error H m = Some (CMeta mt) ->
    owns H ts vs fp -> ~ In l fp -> ~ In m fp -> l <> m ->
    own H (PNode d mt ts) (VTree d l m) (l :: m :: fp)
with owns (H : heap) : list ptree -> list value -> list loc -> Prop :=
| owns_nil : owns H [] [] []
| owns_cons t ts v vs f fs :
    own H t v f -> owns H ts vs fs -> disjoint f fs ->
    owns H (t :: ts) (v :: vs) (f ++ fs).

Scheme own_mind := Minimality for own Sort Prop
  with owns_mind := Minimality for owns Sort Prop.
Combined Scheme own_owns_ind from own_mind, owns_mind.

Lemma disjoint_nil_r a : disjoint a [].
Proof. intros x _ []. Qed.
Lemma disjoint_nil_l a : disjoint [] a.
Proof. intros x []. Qed.
Lemma disjoint_sym a b : disjoint a b -> disjoint b a.
Proof. intros h x hb ha. exact (h x ha hb). Qed.
Lemma disjoint_app_l a b c : disjoint (a ++ b) c <-> disjoint a c /\ disjoint b c.
Proof.
  split.
  - intros h; split; intros x hx hc; apply (h x); auto; apply in_or_app; auto.
  - intros [h1 h2] x hx hc. apply in_app_or in hx. destruct hx; [eapply h1|eapply h2]; eauto.
Qed.
Lemma disjoint_app_r a b c : disjoint c (a ++ b) <-> disjoint c a /\ disjoint c b.
Proof.
  split.
  - intros h. apply disjoint_sym in h. apply disjoint_app_l in h. destruct h; split; apply disjoint_sym; auto.
  - intros [h1 h2]. apply disjoint_sym. apply disjoint_app_l. split; apply disjoint_sym; auto.
Qed.
Lemma disjoint_cons_l x a c : disjoint (x :: a) c <-> ~ In x c /\ disjoint a c.
Proof.
  split.
  - intros h; split.
    + intros hc. apply (h x); simpl; auto.
    + intros y hy hc. apply (h y); simpl; auto.
  - intros [h1 h2] y [<-|hy] hc; [auto|eapply h2; eauto].
Qed.

Lemma disjoint_single_r (f : list loc) l : ~ In l f -> disjoint f [l].
Proof. intros h x hx [<-|[]]. auto. Qed.

Lemma hget_nth H l vs : nth_error H l = Some (CList vs) -> hget H l = vs.
Proof. unfold hget. intros ->. auto. Qed.
Lemma mget_nth H m mt : nth_error H m = Some (CMeta mt) -> mget H m = mt.
Proof. unfold mget. intros ->. auto. Qed.
Lemma lget_nth H l n : nth_error H l = Some (CLex n) -> lget H l = n.
Proof. unfold lget. intros ->. auto. Qed.

Lemma hset_length H l vs : length (hset H l vs) = length H.
Proof. revert l. induction H; destruct l; simpl; auto. Qed.

Lemma hset_same H l vs : l < length H -> nth_error (hset H l vs) l = Some vs.
Proof. revert l. induction H; destruct l; simpl; try lia; auto. intros. apply IHlist. lia. Qed.

Lemma hset_other H l l' vs : l <> l' -> nth_error (hset H l vs) l' = nth_error H l'.
Proof. revert l l'. induction H; destruct l, l'; simpl; auto; try congruence. Qed.

Lemma hset_hset H l c c' : hset (hset H l c) l c' = hset H l c'.
Proof. revert l. induction H; destruct l; simpl; auto. f_equal. auto. Qed.

Lemma nth_error_app_old (H ext : heap) l : l < length H -> nth_error (H ++ ext) l = nth_error H l.
Proof. intros. apply nth_error_app1; auto. Qed.

Lemma nth_error_lt {A} (l : list A) n x : nth_error l n = Some x -> n < length l.
Proof. intros h. apply nth_error_Some. congruence. Qed.

Ltac own_induction :=
  apply own_owns_ind;
  [ intros a b | | intros d l m vs mt ts fp Hnth Hmth Hos IHos Hni Hmi Hlm | | intros t ts v vs f fs Ho IHo Hos IHos Hdj ].

Lemma own_bound_both H :
  (forall t v f, own H t v f -> forall l, In l f -> l < length H) /\
  (forall ts vs f, owns H ts vs f -> forall l, In l f -> l < length H).
Proof.
  own_induction; simpl; intros; try tauto.
  - destruct H0 as [<-|[<-|h]]; [eapply nth_error_lt; eauto|eapply nth_error_lt; eauto|auto].
  - apply in_app_or in H0. destruct H0; auto.
Qed.
Definition own_bound H := proj1 (own_bound_both H).
Definition owns_bound H := proj2 (own_bound_both H).

Lemma own_frame_both H :
  (forall t v f, own H t v f -> forall H', (forall l, In l f -> nth_error H' l = nth_error H l) -> own H' t v f) /\
  (forall ts vs f, owns H ts vs f -> forall H', (forall l, In l f -> nth_error H' l = nth_error H l) -> owns H' ts vs f).
Proof.
  own_induction; intros H' hf; try (constructor; fail).
  - apply own_node with (vs := vs); auto.
    + rewrite hf; simpl; auto.
    + rewrite hf; simpl; auto.
    + apply IHos. intros; apply hf; simpl; auto.
  - constructor; auto.
    + apply IHo. intros; apply hf. apply in_or_app; auto.
    + apply IHos. intros; apply hf. apply in_or_app; auto.
Qed.
Definition own_frame H := proj1 (own_frame_both H).
Definition owns_frame H := proj2 (own_frame_both H).

Lemma nodup_app_disjoint (f fs : list loc) : NoDup f -> NoDup fs -> disjoint f fs -> NoDup (f ++ fs).
Proof.
  induction f; simpl; auto. intros n1 n2 hd.
  inversion n1; subst. apply disjoint_cons_l in hd. destruct hd.
  constructor; auto. intros hi. apply in_app_or in hi. tauto.
Qed.

Lemma own_nodup_both H :
  (forall t v f, own H t v f -> NoDup f) /\ (forall ts vs f, owns H ts vs f -> NoDup f).
Proof.
  own_induction; try constructor; auto.
  - simpl. intros [h|h]; auto.
  - constructor; auto.
  - apply nodup_app_disjoint; auto.
Qed.
Definition own_nodup H := proj1 (own_nodup_both H).
Definition owns_nodup H := proj2 (own_nodup_both H).

Lemma owns_length H ts vs f : owns H ts vs f -> length ts = length vs.
Proof. induction 1; simpl; auto. Qed.

Lemma owns_app H ts1 vs1 f1 : owns H ts1 vs1 f1 -> forall ts2 vs2 f2,
  owns H ts2 vs2 f2 -> disjoint f1 f2 -> owns H (ts1 ++ ts2) (vs1 ++ vs2) (f1 ++ f2).
Proof.
  induction 1 as [|t ts v vs f fs Ho Hos IH Hdj]; simpl; intros ts2 vs2 f2 h2 hd; auto.
  rewrite <- app_assoc. apply disjoint_app_l in hd. destruct hd.
  constructor; auto. apply disjoint_app_r; auto.
Qed.

Lemma owns_one H t v f : own H t v f -> owns H [t] [v] f.
Proof. intros. rewrite <- (app_nil_r f). constructor; auto using disjoint_nil_r. constructor. Qed.

Lemma owns_one_inv H t v f : owns H [t] [v] f -> own H t v f.
Proof.
  intros h. inversion h as [|? ? ? ? ? ? Ho Hos]; subst. inversion Hos; subst. rewrite app_nil_r. auto.
Qed.

Lemma owns_split H ts vs f : owns H ts vs f -> forall n,
  exists f1 f2, f = f1 ++ f2 /\ disjoint f1 f2 /\
    owns H (firstn n ts) (firstn n vs) f1 /\ owns H (skipn n ts) (skipn n vs) f2.
Proof.
  induction 1 as [|t ts v vs f fs Ho Hos IH Hdj]; intros n.
  - exists [], []. destruct n; simpl; repeat split; auto using disjoint_nil_l; constructor.
  - destruct n.
    + exists [], (f ++ fs). simpl. repeat split; auto using disjoint_nil_l; constructor; auto.
    + destruct (IH n) as (f1 & f2 & -> & hd & h1 & h2).
      exists (f ++ f1), f2. simpl. rewrite app_assoc.
      apply disjoint_app_r in Hdj. destruct Hdj.
      repeat split; auto.
      * apply disjoint_app_l; auto.
      * constructor; auto.
Qed.

Lemma owns_app_inv H ts vs1 vs2 f : owns H ts (vs1 ++ vs2) f ->
  exists ts1 ts2 f1 f2, ts = ts1 ++ ts2 /\ f = f1 ++ f2 /\ disjoint f1 f2 /\
    owns H ts1 vs1 f1 /\ owns H ts2 vs2 f2.
Proof.
  intros h. destruct (owns_split _ _ _ _ h (length vs1)) as (f1 & f2 & -> & hd & h1 & h2).
  rewrite firstn_app, Nat.sub_diag, firstn_all, app_nil_r in h1. simpl in h1.
  rewrite skipn_app, Nat.sub_diag, skipn_all in h2. simpl in h2.
  exists (firstn (length vs1) ts), (skipn (length vs1) ts), f1, f2.
  rewrite firstn_skipn. auto 10.
Qed.

(* value_stack[-n:] and what stays below it *)
Lemma owns_lastn H ts vs F n : owns H ts vs F ->
  exists F0 Fa, F = F0 ++ Fa /\ disjoint F0 Fa /\
    owns H (droplast n ts) (droplast n vs) F0 /\ owns H (lastn n ts) (lastn n vs) Fa.
Proof.
  intros ho. unfold droplast, lastn. rewrite (owns_length _ _ _ _ ho).
  exact (owns_split _ _ _ _ ho (length vs - n)).
Qed.

Lemma nodup_bound_length (f : list loc) n : NoDup f -> (forall l, In l f -> l < n) -> length f <= n.
Proof.
  intros nd hb. rewrite <- (seq_length n 0). apply NoDup_incl_length; auto.
  intros x hx. apply in_seq. specialize (hb x hx). lia.
Qed.

Lemma owns_fp_le H ts vs f : owns H ts vs f -> length f <= length H.
Proof. intros h. apply nodup_bound_length; [eapply owns_nodup|eapply owns_bound]; eauto. Qed.

Lemma read_own_both H :
  (forall t v f, own H t v f -> forall k, length f < k -> read k H v = t) /\
  (forall ts vs f, owns H ts vs f -> forall k, length f < k -> map (read k H) vs = ts).
Proof.
  own_induction; intros k hk; simpl; auto; try (destruct k; reflexivity).
  - destruct k; simpl in *; [lia|]. rewrite (hget_nth _ _ _ Hnth), (mget_nth _ _ _ Hmth). rewrite IHos; auto. lia.
  - rewrite app_length in hk. rewrite IHo, IHos; auto; lia.
Qed.
Definition read_own H := proj1 (read_own_both H).
Definition reads_own H := proj2 (read_own_both H).

Definition fresh_above (n : nat) (f : list loc) : Prop := forall l, In l f -> n <= l.

Lemma dcopy_unfold cm k H d l m :
  dcopy cm (S k) H (VTree d l m) =
  let (H1, vs') := dcopys cm k H (hget H l) in
  if cm then (H1 ++ [CList vs'; CMeta (mget H1 m)], VTree d (length H1) (S (length H1)))
  else (H1 ++ [CList vs'], VTree d (length H1) m).
Proof.
  simpl. generalize (hget H l). intros vs.
  match goal with |- (let (_, _) := ?a in _) = (let (_, _) := ?b in _) => assert (a = b) as -> end; auto.
  revert H. induction vs; simpl; auto. intros. destruct (dcopy cm k H a). rewrite IHvs. auto.
Qed.

Lemma own_extend H t v f ext : own H t v f -> own (H ++ ext) t v f.
Proof.
  intros h. eapply own_frame; eauto. intros l hl. apply nth_error_app1. eapply own_bound; eauto.
Qed.
Lemma owns_extend H ts vs f ext : owns H ts vs f -> owns (H ++ ext) ts vs f.
Proof.
  intros h. eapply owns_frame; eauto. intros l hl. apply nth_error_app1. eapply owns_bound; eauto.
Qed.

(* What the proofs use of copy.deepcopy (as repaired: Meta objects are copied too): the copy denotes
   the same trees with the same metas, lives entirely in new locations, and the old heap is a
   prefix of the new one (nothing existing is written).  deepcopy_spec below is the form to use; here the heap is
   H0 ++ ext only so that the induction can pass the cells the earlier copies allocated. *)
Lemma dcopy_spec_both H0 :
  (forall t v f, own H0 t v f -> forall k ext, length f < k ->
     exists ext' f', fst (dcopy true k (H0 ++ ext) v) = (H0 ++ ext) ++ ext' /\
                     own ((H0 ++ ext) ++ ext') t (snd (dcopy true k (H0 ++ ext) v)) f' /\
                     fresh_above (length (H0 ++ ext)) f') /\
  (forall ts vs f, owns H0 ts vs f -> forall k ext, length f < k ->
     exists ext' f', fst (dcopys true k (H0 ++ ext) vs) = (H0 ++ ext) ++ ext' /\
                     owns ((H0 ++ ext) ++ ext') ts (snd (dcopys true k (H0 ++ ext) vs)) f' /\
                     fresh_above (length (H0 ++ ext)) f').
Proof.
  own_induction; intros k ext hk.
  - exists [], []. destruct k; simpl; rewrite app_nil_r; repeat split; try constructor; intros ? [].
  - exists [], []. destruct k; simpl; rewrite app_nil_r; repeat split; try constructor; intros ? [].
  - destruct k; simpl in hk; [lia|].
    rewrite dcopy_unfold.
    assert (hg : hget (H0 ++ ext) l = vs).
    { apply hget_nth. rewrite nth_error_app1; auto. eapply nth_error_lt; eauto. }
    rewrite hg.
    destruct (IHos k ext ltac:(lia)) as (e1 & f' & a1 & o1 & fr).
    destruct (dcopys true k (H0 ++ ext) vs) as [H1' vs'] eqn:E. simpl in *. subst H1'.
    assert (hm : mget ((H0 ++ ext) ++ e1) m = mt).
    { apply mget_nth. rewrite <- app_assoc. rewrite nth_error_app1; auto. eapply nth_error_lt; eauto. }
    rewrite hm.
    set (n := length ((H0 ++ ext) ++ e1)).
    exists (e1 ++ [CList vs'; CMeta mt]), (n :: S n :: f'). repeat split.
    + rewrite app_assoc. auto.
    + rewrite app_assoc. apply own_node with (vs := vs').
      * unfold n. rewrite nth_error_app2, Nat.sub_diag; simpl; auto.
      * unfold n. rewrite nth_error_app2 by lia. replace (S _ - _) with 1 by lia. simpl; auto.
      * apply owns_extend; auto.
      * intros hi. apply (owns_bound _ _ _ _ o1) in hi. unfold n in hi. lia.
      * intros hi. apply (owns_bound _ _ _ _ o1) in hi. unfold n in hi. lia.
      * lia.
    + intros x [<-|[<-|hx]]; [unfold n; repeat rewrite app_length; lia|unfold n; repeat rewrite app_length; lia|auto].
  - exists [], []. simpl. rewrite app_nil_r. repeat split; try constructor. intros ? [].
  - rewrite app_length in hk. simpl.
    destruct (IHo k ext ltac:(lia)) as (e1 & f1 & a1 & o1 & fr1).
    destruct (dcopy true k (H0 ++ ext) v) as [H1 x'] eqn:E1. simpl in *. subst H1.
    destruct (IHos k (ext ++ e1) ltac:(lia)) as (e2 & f2 & a2 & o2 & fr2).
    rewrite app_assoc in a2, o2, fr2.
    destruct (dcopys true k ((H0 ++ ext) ++ e1) vs) as [H2 xs'] eqn:E2. simpl in *. subst H2.
    exists (e1 ++ e2), (f1 ++ f2). rewrite app_assoc. repeat split; auto.
    + constructor; auto.
      * apply own_extend; auto.
      * intros x h1 h2. apply (own_bound _ _ _ _ o1) in h1. apply fr2 in h2. lia.
    + intros x hx. apply in_app_or in hx. destruct hx as [hx|hx]; [auto|].
      apply fr2 in hx. rewrite app_length in hx. lia.
Qed.

Lemma deepcopy_spec H ts vs f : owns H ts vs f ->
  exists ext f', fst (deepcopy true H vs) = H ++ ext /\ owns (H ++ ext) ts (snd (deepcopy true H vs)) f' /\
                 fresh_above (length H) f'.
Proof.
  intros h. unfold deepcopy.
  destruct (proj2 (dcopy_spec_both H) _ _ _ h (S (length H)) []) as (e & f' & a & o & fr).
  - pose proof (owns_fp_le _ _ _ _ h). lia.
  - rewrite app_nil_r in *. eauto.
Qed.
