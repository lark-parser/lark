(* C19 - Reconstructor output re-parses to the same tree.  Property theorems only; the model is
   Recons/Recons.v (+ Text.v), the proofs are in Recons/*_proofs.v. *)
From Coq Require Import ZArith String Ascii List Arith Bool.
From LV Require Import Forest.ExplicitBuild Forest.ExplicitAlgBuild.
From LV Require Import Base.Prelude Cfg.Grammar Earley.Spec Recons.Recons Recons.Recons_proofs Recons.ReconsCheck
     Recons.ReconsCheck_proofs Recons.Text Recons.Text_proofs Recons.Complete_proofs Recons.Link_proofs Recons.Extra_proofs Recons.Roundtrip_proofs
     Recons.EarleyM Recons.EarleyM_proofs Recons.EarleyM_sel Lex.LexerBase Lex.Lexer Recons.Relex Recons.Relex_proofs
     Recons.Char_proofs Recons.RelexSafe Recons.RelexSafe_proofs Recons.CharSafe_proofs
     Recons.GenBase Gen.ReconsHoles Recons.Gen_proofs Recons.Findings_proofs.
Import ListNotations.

(* core: one node.  For a supported match u of node (Node data cs) - root rule from rules_for_root[data], inner
   rules from TreeMatcher.rules - the items written by WriteTokensTransformer are the yield of a derivation of
   the matched parser rule whose shape is the node and whose sub-derivations for the child subtrees are the
   given ones (Y c = token sequence of the derivation given for child c). *)
Theorem C19_write_tokens_yield :
  forall (us : nat -> bool) (P : list prule), cls us P ->
  forall (lit : nat -> option string) (Y : stree -> list token) data cs u items,
    supported us P u data cs -> write lit u = OList (Ok items) -> items_ok us P Y items ->
    exists pr ds, wf P (DNode pr ds) /\ sym_name pr = data /\ kids us (DNode pr ds) = cs /\
                  shape us (DNode pr ds) = Node data cs /\ yield (DNode pr ds) = expandY Y items.
Proof. exact write_tokens_yield. Qed.
Print Assumptions C19_write_tokens_yield.

(* whole tree: whatever _reconstruct yields is the yield of a derivation with the same shape *)
Theorem C19_recons_token_sound :
  forall (us : nat -> bool) (P : list prule), cls us P ->
  forall (lit : nat -> option string) (M : stree -> option utree),
    (forall t u, M t = Some u -> exists data cs, t = Node data cs /\ supported us P u data cs) ->
  forall fuel t toks, recon lit M fuel t = Ok toks ->
    exists data cs pr ds, t = Node data cs /\ wf P (DNode pr ds) /\ sym_name pr = data /\
                          shape us (DNode pr ds) = t /\ yield (DNode pr ds) = toks.
Proof. exact recons_token_sound. Qed.
Print Assumptions C19_recons_token_sound.

(* token-level round trip, proved part: if reconstruction of a parser tree returns, the tokens are accepted with
   that tree, and for an unambiguous grammar every parse of them gives that tree *)
Theorem C19_recons_token_roundtrip_partial :
  forall (us : nat -> bool) (P : list prule), cls us P ->
  forall (lit : nat -> option string) (M : stree -> option utree),
    (forall t u, M t = Some u -> exists data cs, t = Node data cs /\ supported us P u data cs) ->
  forall start pr0 ds0 fuel toks,
    wf P (DNode pr0 ds0) -> p_origin pr0 = start -> ~ In start (expand1s P) ->
    recon lit M fuel (shape us (DNode pr0 ds0)) = Ok toks ->
    parses us P start toks (shape us (DNode pr0 ds0)) /\
    (unambiguous P start -> forall t', parses us P start toks t' -> t' = shape us (DNode pr0 ds0)).
Proof. exact recons_token_roundtrip_partial. Qed.
Print Assumptions C19_recons_token_roundtrip_partial.

(* stretch, the token-level round trip in full: for a matcher that returns only supported matches (M_ok) and returns
   one whenever one exists, literals for all filtered terminals and terminal names distinct from rule/alias names,
   reconstruction of every tree the parser can return succeeds, and its tokens parse back to exactly that tree.
   (M_ok is a hypothesis about the Earley resolution inside match_tree; the harness checks it on every recorded
   match; findings C19-F14 / C19-F16 show grammars where lark's matcher violates it.) *)
Theorem C19_recons_token_roundtrip :
  forall (us : nat -> bool) (P : list prule), cls us P -> cls_extra us P ->
  forall (lit : nat -> option string),
    (forall r n, In r P -> In (Tm n true) (p_exp r) -> lit n <> None) ->
    (forall r n fo, In r P -> In (Tm n fo) (p_exp r) ->
                    forall r', In r' P -> p_origin r' <> n /\ p_alias r' <> Some n) ->
  forall (M : stree -> option utree),
    (forall t u, M t = Some u -> exists data cs, t = Node data cs /\ supported us P u data cs) ->
    (forall data cs, (exists u, supported us P u data cs) -> M (Node data cs) <> None) ->
  forall start pr0 ds0,
    wf P (DNode pr0 ds0) -> p_origin pr0 = start -> ~ In start (expand1s P) -> us start = false ->
    exists fuel toks, recon lit M fuel (shape us (DNode pr0 ds0)) = Ok toks /\
      parses us P start toks (shape us (DNode pr0 ds0)) /\
      (unambiguous P start -> forall t', parses us P start toks t' -> t' = shape us (DNode pr0 ds0)).
Proof. exact recons_token_roundtrip. Qed.
Print Assumptions C19_recons_token_roundtrip.

(* stretch, completeness of _build_recons_rules: every tree the parser can return has a supported match *)
Theorem C19_match_exists :
  forall (us : nat -> bool) (P : list prule), cls us P -> cls_extra us P ->
  forall pr ds, wf P (DNode pr ds) -> uncollapsed us (DNode pr ds) ->
    exists u, supported us P u (sym_name pr) (kids us (DNode pr ds)).
Proof. exact match_exists. Qed.
Print Assumptions C19_match_exists.

(* ... and so the Earley chart of Earley/Spec.v, run over the node's children with the tree-matching rules the
   model derives (terminals matched by _match), accepts: match_tree does not fail at the specification level *)
Theorem C19_matcher_accepts :
  forall (us : nat -> bool) (P : list prule), cls us P -> cls_extra us P ->
  forall pr ds, wf P (DNode pr ds) -> uncollapsed us (DNode pr ds) ->
    accepts_spec (to_cfg (G_for us P (sym_name pr))) stree cmatch (kids us (DNode pr ds)) (sym_name pr).
Proof. exact matcher_accepts. Qed.
Print Assumptions C19_matcher_accepts.

(* text level, under H_relex: the joined text lexes back to the written tokens *)
Theorem C19_text :
  forall (us : nat -> bool) (P : list prule), cls us P ->
  forall (lit : nat -> option string) (M : stree -> option utree),
    (forall t u, M t = Some u -> exists data cs, t = Node data cs /\ supported us P u data cs) ->
  forall (lex : string -> option (list token)) start pr0 ds0 fuel toks,
    wf P (DNode pr0 ds0) -> p_origin pr0 = start -> ~ In start (expand1s P) ->
    recon lit M fuel (shape us (DNode pr0 ds0)) = Ok toks ->
    lex (reconstruct_text toks) = Some toks ->                                  (* H_relex *)
    parses_text us P lex start (reconstruct_text toks) (shape us (DNode pr0 ds0)) /\
    (unambiguous P start ->
     forall t', parses_text us P lex start (reconstruct_text toks) t' -> t' = shape us (DNode pr0 ds0)).
Proof. exact text_roundtrip. Qed.
Print Assumptions C19_text.

(* F12: H_relex does not hold in general.  PLUS: "+"  PP: "++"  start: PLUS PLUS | PP : the tree of "+ +" is
   written as the tokens + +, joined to "++", which lexes as PP and parses to another tree. *)
Theorem C19_H_relex_refuted :
  class_b f12_us f12_P = true /\ table_ok f12_us f12_P f12_ms = true /\
  wf f12_P f12_d0 /\ shape f12_us f12_d0 = f12_tree /\
  recon (lookup_lit f12_lits) (lookup_match f12_ms) 2 f12_tree = Ok f12_toks /\
  reconstruct_text f12_toks = "++"%string /\
  minilex f12_lits (reconstruct_text f12_toks) = Some [(2, "++"%string)] /\
  minilex f12_lits (reconstruct_text f12_toks) <> Some f12_toks /\
  parses f12_us f12_P 0 [(2, "++"%string)] (Node 0 [Tok 2 "++"%string]) /\
  Node 0 [Tok 2 "++"%string] <> f12_tree.
Proof. exact H_relex_refuted. Qed.
Print Assumptions C19_H_relex_refuted.

(* non-vacuity: a recorded run of lark on  f(a, b+c) * (d + -e)  with ?rules, aliases, an inlined _args list and
   filtered punctuation satisfies every hypothesis (class, supported matches), and the theorem's conclusion holds
   for the 15 tokens it writes *)
Definition ex_case : rcase :=
  (mkCase ["start"%string; "expr"%string; "add"%string; "PLUS"%string; "term"%string; "STAR"%string; "atom"%string; "NAME"%string; "LPAR"%string; "RPAR"%string; "neg"%string; "MINUS"%string; "call"%string; "_args"%string; "___args_star_0"%string; "COMMA"%string; "__IGNORE_0"%string] [(mkP 0 [(Nt 1)] None false); (mkP 1 [(Nt 1); (Tm 3 true); (Nt 4)] (Some 2) true); (mkP 1 [(Nt 4)] None true); (mkP 4 [(Nt 4); (Tm 5 true); (Nt 6)] None true); (mkP 4 [(Nt 6)] None true); (mkP 6 [(Tm 7 false)] None true); (mkP 6 [(Tm 8 true); (Nt 1); (Tm 9 true)] None true); (mkP 6 [(Tm 11 true); (Nt 6)] (Some 10) true); (mkP 6 [(Tm 7 false); (Tm 8 true); (Nt 13); (Tm 9 true)] (Some 12) true); (mkP 13 [(Nt 1); (Nt 14)] None false); (mkP 13 [(Nt 1)] None false); (mkP 14 [(Tm 15 true); (Nt 1)] None false); (mkP 14 [(Nt 14); (Tm 15 true); (Nt 1)] None false)] [(15, ","%string); (8, "("%string); (11, "-"%string); (3, "+"%string); (9, ")"%string); (5, "*"%string); (16, " "%string)] [(mkR 6 [(T 6)] [(Nt 6)]); (mkR 6 [(T 12)] [(Nt 12)]); (mkR 6 [(T 10)] [(Nt 10)]); (mkR 1 [(T 1)] [(Nt 1)]); (mkR 1 [(T 2)] [(Nt 2)]); (mkR 14 [(NT 1)] [(Tm 15 true); (Nt 1)]); (mkR 13 [(NT 1)] [(Nt 1)]); (mkR 6 [(NT 1)] [(Tm 8 true); (Nt 1); (Tm 9 true)]); (mkR 6 [(T 7)] [(Tm 7 false)]); (mkR 4 [(NT 6)] [(Nt 6)]); (mkR 4 [(T 4)] [(Nt 4)]); (mkR 1 [(NT 4)] [(Nt 4)]); (mkR 14 [(NT 14); (NT 1)] [(Nt 14); (Tm 15 true); (Nt 1)]); (mkR 13 [(NT 1); (NT 14)] [(Nt 1); (Nt 14)])] [[(mkR 0 [(NT 1)] [(Nt 1)])]; []; [(mkR 2 [(NT 1); (NT 4)] [(Nt 1); (Tm 3 true); (Nt 4)])]; []; [(mkR 4 [(NT 4); (NT 6)] [(Nt 4); (Tm 5 true); (Nt 6)])]; []; []; []; []; []; [(mkR 10 [(NT 6)] [(Tm 11 true); (Nt 6)])]; []; [(mkR 12 [(T 7); (NT 13)] [(Tm 7 false); (Tm 8 true); (Nt 13); (Tm 9 true)])]; []; []; []; []] true true false [((Node 0 [(Node 4 [(Node 12 [(Tok 7 "f"%string); (Tok 7 "a"%string); (Node 2 [(Tok 7 "b"%string); (Tok 7 "c"%string)])]); (Node 2 [(Tok 7 "d"%string); (Node 10 [(Tok 7 "e"%string)])])])]), [(0, (CU 0 [(Nt 1)] [(CU 1 [(Nt 4)] [(CU 4 [(Nt 4)] [(CL 0)])])]), [(CC 0)]); (1, (CU 4 [(Nt 4); (Tm 5 true); (Nt 6)] [(CU 4 [(Nt 6)] [(CU 6 [(Nt 12)] [(CL 0)])]); (CU 6 [(Tm 8 true); (Nt 1); (Tm 9 true)] [(CU 1 [(Nt 2)] [(CL 1)])])]), [(CC 0); (CS "*"%string); (CS "("%string); (CC 1); (CS ")"%string)]); (2, (CU 12 [(Tm 7 false); (Tm 8 true); (Nt 13); (Tm 9 true)] [(CL 0); (CU 13 [(Nt 1); (Nt 14)] [(CU 1 [(Nt 4)] [(CU 4 [(Nt 6)] [(CU 6 [(Tm 7 false)] [(CL 1)])])]); (CU 14 [(Tm 15 true); (Nt 1)] [(CU 1 [(Nt 2)] [(CL 2)])])])]), [(CC 0); (CS "("%string); (CC 1); (CS ","%string); (CC 2); (CS ")"%string)]); (5, (CU 2 [(Nt 1); (Tm 3 true); (Nt 4)] [(CU 1 [(Nt 4)] [(CU 4 [(Nt 6)] [(CU 6 [(Tm 7 false)] [(CL 0)])])]); (CU 4 [(Nt 6)] [(CU 6 [(Tm 7 false)] [(CL 1)])])]), [(CC 0); (CS "+"%string); (CC 1)]); (8, (CU 2 [(Nt 1); (Tm 3 true); (Nt 4)] [(CU 1 [(Nt 4)] [(CU 4 [(Nt 6)] [(CU 6 [(Tm 7 false)] [(CL 0)])])]); (CU 4 [(Nt 6)] [(CU 6 [(Nt 10)] [(CL 1)])])]), [(CC 0); (CS "+"%string); (CC 1)]); (10, (CU 10 [(Tm 11 true); (Nt 6)] [(CU 6 [(Tm 7 false)] [(CL 0)])]), [(CS "-"%string); (CC 0)])], ["f"%string; "("%string; "a"%string; ","%string; "b"%string; "+"%string; "c"%string; ")"%string; "*"%string; "("%string; "d"%string; "+"%string; "-"%string; "e"%string; ")"%string], "f(a,b+c)*(d+-e)"%string)]).

Example C19_example :
  let us := uscore_of (c_names ex_case) in
  let P := c_rules ex_case in
  check_case ex_case = true /\ cls us P /\ cls_extra us P /\
  forall t ms items text, In (t, ms, items, text) (c_runs ex_case) ->
    (forall t0 u, lookup_match ms t0 = Some u -> exists data cs, t0 = Node data cs /\ supported us P u data cs) /\
    exists toks, recon (lookup_lit (c_lits ex_case)) (lookup_match ms) (S (height t)) t = Ok toks /\
                 List.length toks = 15 /\
                 exists data cs pr ds, t = Node data cs /\ wf P (DNode pr ds) /\ sym_name pr = data /\
                                       shape us (DNode pr ds) = t /\ yield (DNode pr ds) = toks.
Proof.
  intros us P.
  assert (Hcls : cls us P) by (apply class_b_sound; vm_compute; reflexivity).
  split; [vm_compute; reflexivity|]. split; [exact Hcls|].
  split; [apply extra_b_sound; vm_compute; reflexivity|].
  intros t ms items text Hin. destruct Hin as [Hin|[]]. inversion Hin; subst t ms items text. clear Hin.
  match goal with |- (forall t0 u, lookup_match ?ms t0 = Some u -> _) /\ _ =>
    assert (HM : forall t0 u, lookup_match ms t0 = Some u ->
                              exists data cs, t0 = Node data cs /\ supported us P u data cs)
      by (apply table_ok_sound; vm_compute; reflexivity)
  end.
  split; [exact HM|].
  match goal with |- exists toks, ?R = Ok toks /\ _ =>
    let v := eval vm_compute in R in
    match v with Ok ?l => exists l; assert (Hr : R = Ok l) by (vm_compute; reflexivity) end
  end.
  split; [exact Hr|]. split; [reflexivity|].
  exact (recons_token_sound us P Hcls _ _ HM _ _ _ Hr).
Qed.
Print Assumptions C19_example.

(* ---------------------------------------------------------------------------------------------------------------
   Round 6: match_tree instantiated with the executable model of lark's Earley parser (Earley/Alg.v instrumented
   with the SPPF: Forest/ExplicitAlgBuild.v) over the children list, matcher _match = cmatch, grammar
   cfg_of (G_for data), start symbol data: Recons/EarleyM.v M_earley.  The only parameter left is `sel`, the choice
   ForestToParseTree(resolve) makes among the derivations stored in the forest. *)

(* under the decidable condition plain_roots (no name that owns rules_for_root rules is an inlined non-terminal of the
   tree-matching grammar: every un-collapsing ?alternative and every alternative of an aliased origin has an alias)
   EVERY match of G_for data rooted at data is a supported one - lark's ambiguity resolution cannot go wrong *)
Theorem C19_earley_matches_supported :
  forall (us : nat -> bool) (P : list prule), cls us P ->
  forall data, is_nonterminal us P data = false ->
  forall r args cs, In r (G_for us P data) -> r_origin r = data ->
    uargs_gen (uvalid (G_for us P data)) (r_exp r) args -> leaves (UNode r args) = cs ->
    supported us P (UNode r args) data cs.
Proof. exact all_supported. Qed.
Print Assumptions C19_earley_matches_supported.

(* what the Earley matcher returns is a derivation of G_for data over the children (C04_A_exact_gen, hence C01) *)
Theorem C19_M_earley_sound :
  forall (us : nat -> bool) (P : list prule) (sel : nat -> list stree -> list (fam stree) -> option (dt stree)),
    (forall data cs fams d, sel data cs fams = Some d ->
       den stree (in_forest stree fams) (NSym stree data 0 (List.length cs)) [d]) ->
  forall data cs u, M_earley us P sel (Node data cs) = Some u ->
    exists r args, u = UNode r args /\ In r (G_for us P data) /\ r_origin r = data /\
                   uargs_gen (uvalid (G_for us P data)) (r_exp r) args /\ leaves u = cs.
Proof. intros us P sel Hs. exact (M_earley_sound us P sel Hs). Qed.
Print Assumptions C19_M_earley_sound.

Theorem C19_M_earley_ok :
  forall (us : nat -> bool) (P : list prule), cls us P -> cls_extra us P -> plain_roots us P ->
  forall (sel : nat -> list stree -> list (fam stree) -> option (dt stree)),
    (forall data cs fams d, sel data cs fams = Some d ->
       den stree (in_forest stree fams) (NSym stree data 0 (List.length cs)) [d]) ->
  forall t u, ptree us P t -> M_earley us P sel t = Some u ->
    exists data cs, t = Node data cs /\ supported us P u data cs.
Proof. intros us P Hc Hx Hp sel Hs. exact (M_earley_ok us P Hc Hx Hp sel Hs). Qed.
Print Assumptions C19_M_earley_ok.

(* M_complete from C01 completeness: a supported match exists => the parser accepts, its forest stores that
   derivation, and a match is returned *)
Theorem C19_M_earley_complete :
  forall (us : nat -> bool) (P : list prule) (sel : nat -> list stree -> list (fam stree) -> option (dt stree)),
    (forall data cs fams d, den stree (in_forest stree fams) (NSym stree data 0 (List.length cs)) [d] ->
       sel data cs fams <> None) ->
  forall data cs, (exists u, supported us P u data cs) -> M_earley us P sel (Node data cs) <> None.
Proof. intros us P sel Ht. exact (M_earley_complete us P sel Ht). Qed.
Print Assumptions C19_M_earley_complete.

(* the token-level round trip with lark's Earley tree matcher, selection included: match_tree = the Earley model run
   over the children (M_earley) with sel = the model of ForestToParseTree(resolve) on label-keyed, possibly cyclic
   forests (Forest/GraphResolve.v; sel_graph_sound / sel_graph_total are theorems).  No hypothesis about the matcher is
   left; `order` is any rearrangement of the packed children (SymbolNode.children), sel_resolve keeps insertion order. *)
Theorem C19_recons_token_roundtrip_earley :
  forall (order : nlabel stree -> list (family stree) -> list (family stree)),
    (forall l fs f, In f (order l fs) <-> In f fs) ->
  forall (us : nat -> bool) (P : list prule), cls us P -> cls_extra us P -> plain_roots us P ->
  forall (lit : nat -> option string),
    (forall r n, In r P -> In (Tm n true) (p_exp r) -> lit n <> None) ->
    (forall r n fo, In r P -> In (Tm n fo) (p_exp r) ->
                    forall r', In r' P -> p_origin r' <> n /\ p_alias r' <> Some n) ->
  forall start pr0 ds0,
    wf P (DNode pr0 ds0) -> p_origin pr0 = start -> ~ In start (expand1s P) -> us start = false ->
    exists fuel toks, recon lit (M_earley us P (sel_graph order)) fuel (shape us (DNode pr0 ds0)) = Ok toks /\
      parses us P start toks (shape us (DNode pr0 ds0)) /\
      (unambiguous P start -> forall t', parses us P start toks t' -> t' = shape us (DNode pr0 ds0)).
Proof. exact recons_token_roundtrip_earley_graph. Qed.
Print Assumptions C19_recons_token_roundtrip_earley.

(* the former full statement (a sound and total selector on the model's forests exists) is now a theorem *)
Theorem C19_resolve_selector_exists :
  exists sel : nat -> list stree -> list (fam stree) -> option (dt stree),
    (forall data cs fams d, sel data cs fams = Some d ->
       den stree (in_forest stree fams) (NSym stree data 0 (List.length cs)) [d]) /\
    (forall data cs fams d, den stree (in_forest stree fams) (NSym stree data 0 (List.length cs)) [d] ->
       sel data cs fams <> None).
Proof. exists sel_resolve. split; [exact sel_resolve_sound|exact sel_resolve_total]. Qed.
Print Assumptions C19_resolve_selector_exists.

(* ---------------------------------------------------------------------------------------------------------------
   Round 9: the character level.  Reconstructor.reconstruct joins the written items (join_sp); term_subs is an
   override of the literal lookup (Relex.lit_subs; all theorems above hold for every `lit`). *)

(* what reconstruct() writes: the items in order, each preceded by its separator, which is the single blank exactly when
   the neighbouring characters are both id-continue characters - nothing else is added, dropped or reordered *)
Theorem C19_join_spec :
  (forall prev items, join_sp prev items = cat (pieces prev items)) /\
  (forall prev it, need_space prev it = true <->
     exists a b, last_char prev = Some a /\ first_char it = Some b /\
                 is_id_continue a = true /\ is_id_continue b = true) /\
  (forall prev items, Forall (fun x => strip_sp x = x) items -> strip_sp (join_sp prev items) = cat items).
Proof. exact (conj join_pieces (conj need_space_spec join_strip)). Qed.
Print Assumptions C19_join_spec.

(* H_relex derived: under the decidable boundary condition bc_b - at the start of every written token the scanner of
   the BasicLexer model (Lex/Lexer.v, C07) picks a terminal reported under the token's type with exactly the token's
   length, and every inserted blank is scanned as one ignored terminal - the model lexes the joined text back to the
   written tokens *)
Theorem C19_relex :
  forall m cok names terms ign L toks,
    make_lexer m cok terms ign = Some L ->
    bc_b m names L (reconstruct_text toks) 0 EmptyString toks = true ->
    lex_model m cok names terms ign (reconstruct_text toks) = Some toks.
Proof. exact relex_model. Qed.
Print Assumptions C19_relex.

(* the char-level round trip parse(reconstruct(t)) = t, parser = BasicLexer model followed by the parser
   specification, matcher = the Earley model with graph resolve.  _partial: bc_b is a condition on the written tokens
   of the tree at hand (decidable, evaluated by the harness on every case), not yet a consequence of a per-grammar
   condition; F12 (C19_H_relex_refuted) is a grammar where it fails. *)
Theorem C19_char_roundtrip_partial :
  forall (us : nat -> bool) (P : list prule), cls us P -> cls_extra us P -> plain_roots us P ->
  forall (order : nlabel stree -> list (family stree) -> list (family stree)),
    (forall l fs f, In f (order l fs) <-> In f fs) ->
  forall (lit : nat -> option string),
    (forall r n, In r P -> In (Tm n true) (p_exp r) -> lit n <> None) ->
    (forall r n fo, In r P -> In (Tm n fo) (p_exp r) ->
                    forall r', In r' P -> p_origin r' <> n /\ p_alias r' <> Some n) ->
  forall m cok names terms ign L, make_lexer m cok terms ign = Some L ->
  forall start pr0 ds0,
    wf P (DNode pr0 ds0) -> p_origin pr0 = start -> ~ In start (expand1s P) -> us start = false ->
    exists fuel toks,
      recon lit (M_earley us P (sel_graph order)) fuel (shape us (DNode pr0 ds0)) = Ok toks /\
      (bc_b m names L (reconstruct_text toks) 0 EmptyString toks = true ->
       lex_model m cok names terms ign (reconstruct_text toks) = Some toks /\
       parses_text us P (lex_model m cok names terms ign) start (reconstruct_text toks) (shape us (DNode pr0 ds0)) /\
       (unambiguous P start ->
        forall t', parses_text us P (lex_model m cok names terms ign) start (reconstruct_text toks) t' ->
                   t' = shape us (DNode pr0 ds0))).
Proof.
  intros us P Hc Hx Hp order Ho lit Hl Hd m cok names terms ign L HL.
  exact (char_roundtrip_earley us P Hc Hx Hp order Ho lit Hl Hd m cok names terms ign L HL).
Qed.
Print Assumptions C19_char_roundtrip_partial.

(* full statement: the same without the boundary condition - what the property says at face value.  It does not hold:
   C19_H_relex_refuted (finding F12) is a rule set of the class whose written tokens + + are joined to "++" and lexed
   as one PP.  bc_b is exactly what is missing. *)
Definition C19_char_roundtrip_full_statement : Prop :=
  forall (us : nat -> bool) (P : list prule), cls us P -> cls_extra us P -> plain_roots us P ->
  forall (order : nlabel stree -> list (family stree) -> list (family stree)),
    (forall l fs f, In f (order l fs) <-> In f fs) ->
  forall (lit : nat -> option string),
    (forall r n, In r P -> In (Tm n true) (p_exp r) -> lit n <> None) ->
  forall m cok names terms ign L, make_lexer m cok terms ign = Some L ->
  forall start pr0 ds0 fuel toks,
    wf P (DNode pr0 ds0) -> p_origin pr0 = start -> ~ In start (expand1s P) -> us start = false ->
    recon lit (M_earley us P (sel_graph order)) fuel (shape us (DNode pr0 ds0)) = Ok toks ->
    lex_model m cok names terms ign (reconstruct_text toks) = Some toks.

(* non-vacuity of plain_roots: a recorded run of lark on the same input with every multi-child ?alternative aliased
   (expr/add, term/mul, atom/neg/call) satisfies class, cls_extra and plain_roots *)
Definition ex2_case : rcase :=
  (mkCase ["start"%string; "expr"%string; "add"%string; "PLUS"%string; "term"%string; "mul"%string; "STAR"%string; "atom"%string; "NAME"%string; "LPAR"%string; "RPAR"%string; "neg"%string; "MINUS"%string; "call"%string; "_args"%string; "___args_star_0"%string; "COMMA"%string; "__IGNORE_0"%string] [(mkP 0 [(Nt 1)] None false); (mkP 1 [(Nt 1); (Tm 3 true); (Nt 4)] (Some 2) true); (mkP 1 [(Nt 4)] None true); (mkP 4 [(Nt 4); (Tm 6 true); (Nt 7)] (Some 5) true); (mkP 4 [(Nt 7)] None true); (mkP 7 [(Tm 8 false)] None true); (mkP 7 [(Tm 9 true); (Nt 1); (Tm 10 true)] None true); (mkP 7 [(Tm 12 true); (Nt 7)] (Some 11) true); (mkP 7 [(Tm 8 false); (Tm 9 true); (Nt 14); (Tm 10 true)] (Some 13) true); (mkP 14 [(Nt 1); (Nt 15)] None false); (mkP 14 [(Nt 1)] None false); (mkP 15 [(Tm 16 true); (Nt 1)] None false); (mkP 15 [(Nt 15); (Tm 16 true); (Nt 1)] None false)] [(16, ","%string); (9, "("%string); (12, "-"%string); (3, "+"%string); (10, ")"%string); (6, "*"%string); (17, " "%string)] [(mkR 7 [(T 7)] [(Nt 7)]); (mkR 7 [(T 13)] [(Nt 13)]); (mkR 7 [(T 11)] [(Nt 11)]); (mkR 4 [(T 4)] [(Nt 4)]); (mkR 4 [(T 5)] [(Nt 5)]); (mkR 1 [(T 1)] [(Nt 1)]); (mkR 1 [(T 2)] [(Nt 2)]); (mkR 15 [(NT 1)] [(Tm 16 true); (Nt 1)]); (mkR 14 [(NT 1)] [(Nt 1)]); (mkR 7 [(NT 1)] [(Tm 9 true); (Nt 1); (Tm 10 true)]); (mkR 7 [(T 8)] [(Tm 8 false)]); (mkR 4 [(NT 7)] [(Nt 7)]); (mkR 1 [(NT 4)] [(Nt 4)]); (mkR 15 [(NT 15); (NT 1)] [(Nt 15); (Tm 16 true); (Nt 1)]); (mkR 14 [(NT 1); (NT 15)] [(Nt 1); (Nt 15)])] [[(mkR 0 [(NT 1)] [(Nt 1)])]; []; [(mkR 2 [(NT 1); (NT 4)] [(Nt 1); (Tm 3 true); (Nt 4)])]; []; []; [(mkR 5 [(NT 4); (NT 7)] [(Nt 4); (Tm 6 true); (Nt 7)])]; []; []; []; []; []; [(mkR 11 [(NT 7)] [(Tm 12 true); (Nt 7)])]; []; [(mkR 13 [(T 8); (NT 14)] [(Tm 8 false); (Tm 9 true); (Nt 14); (Tm 10 true)])]; []; []; []; []] true true true [((Node 0 [(Node 5 [(Node 13 [(Tok 8 "f"%string); (Tok 8 "a"%string); (Node 2 [(Tok 8 "b"%string); (Tok 8 "c"%string)])]); (Node 2 [(Tok 8 "d"%string); (Node 11 [(Tok 8 "e"%string)])])])]), [(0, (CU 0 [(Nt 1)] [(CU 1 [(Nt 4)] [(CU 4 [(Nt 5)] [(CL 0)])])]), [(CC 0)]); (1, (CU 5 [(Nt 4); (Tm 6 true); (Nt 7)] [(CU 4 [(Nt 7)] [(CU 7 [(Nt 13)] [(CL 0)])]); (CU 7 [(Tm 9 true); (Nt 1); (Tm 10 true)] [(CU 1 [(Nt 2)] [(CL 1)])])]), [(CC 0); (CS "*"%string); (CS "("%string); (CC 1); (CS ")"%string)]); (2, (CU 13 [(Tm 8 false); (Tm 9 true); (Nt 14); (Tm 10 true)] [(CL 0); (CU 14 [(Nt 1); (Nt 15)] [(CU 1 [(Nt 4)] [(CU 4 [(Nt 7)] [(CU 7 [(Tm 8 false)] [(CL 1)])])]); (CU 15 [(Tm 16 true); (Nt 1)] [(CU 1 [(Nt 2)] [(CL 2)])])])]), [(CC 0); (CS "("%string); (CC 1); (CS ","%string); (CC 2); (CS ")"%string)]); (5, (CU 2 [(Nt 1); (Tm 3 true); (Nt 4)] [(CU 1 [(Nt 4)] [(CU 4 [(Nt 7)] [(CU 7 [(Tm 8 false)] [(CL 0)])])]); (CU 4 [(Nt 7)] [(CU 7 [(Tm 8 false)] [(CL 1)])])]), [(CC 0); (CS "+"%string); (CC 1)]); (8, (CU 2 [(Nt 1); (Tm 3 true); (Nt 4)] [(CU 1 [(Nt 4)] [(CU 4 [(Nt 7)] [(CU 7 [(Tm 8 false)] [(CL 0)])])]); (CU 4 [(Nt 7)] [(CU 7 [(Nt 11)] [(CL 1)])])]), [(CC 0); (CS "+"%string); (CC 1)]); (10, (CU 11 [(Tm 12 true); (Nt 7)] [(CU 7 [(Tm 8 false)] [(CL 0)])]), [(CS "-"%string); (CC 0)])], ["f"%string; "("%string; "a"%string; ","%string; "b"%string; "+"%string; "c"%string; ")"%string; "*"%string; "("%string; "d"%string; "+"%string; "-"%string; "e"%string; ")"%string], "f(a,b+c)*(d+-e)"%string)]).

Example C19_plain_roots_example :
  let us := uscore_of (c_names ex2_case) in let P := c_rules ex2_case in
  check_case ex2_case = true /\ cls us P /\ cls_extra us P /\ plain_roots us P.
Proof.
  intros us P.
  split; [vm_compute; reflexivity|].
  split; [apply class_b_sound; vm_compute; reflexivity|].
  split; [apply extra_b_sound; vm_compute; reflexivity|].
  apply plain_roots_b_sound; vm_compute; reflexivity.
Qed.
Print Assumptions C19_plain_roots_example.

(* ---------------------------------------------------------------------------------------------------------------
   Round 12: the boundary condition as a consequence of a decidable per-grammar condition.  relex_safe_b (Recons/RelexSafe.v)
   speaks about the terminals of the grammar only: string terminals and class-plus regexp terminals [..]+ with the
   computed matcher m_cp (compared with Python's re on every recorded text), the scanner's trial order, the literals
   the Reconstructor re-inserts, the characters that can follow a token in a reconstructed text (spacing rule included)
   and the ignored blank. *)

(* pure lexer level: for a relex-safe lexer, the joined text of ANY list of tokens the lexer can produce (a token that
   some terminal scans with exactly its length in front of some rest, reported under its type) satisfies bc_b *)
Theorem C19_relex_safe_bc :
  forall (names : list string) (L : blexer) (lits toks : list (nat * string)),
    relex_safe_b names L lits = true -> Forall (lexable names L) toks ->
    bc_b m_cp names L (reconstruct_text toks) 0 EmptyString toks = true.
Proof. exact relex_safe_bc. Qed.
Print Assumptions C19_relex_safe_bc.

(* every token the BasicLexer model returns on any text is such a token *)
Theorem C19_lexed_tokens_lexable :
  forall (names : list string) (L : blexer), forallb term_ok (flat L) = true ->
  forall src toks, lex_with m_cp names L src = Some toks -> Forall (lexable names L) toks.
Proof. exact lex_with_lexable. Qed.
Print Assumptions C19_lexed_tokens_lexable.

(* relex_safe G -> bc_b (written tokens of t) for every tree whose tokens the lexer produced: what _reconstruct writes
   are tokens of the tree and re-inserted literals (S4), each stable in its new context (S1-S3) *)
Theorem C19_relex_safe_implies_bc :
  forall (us : nat -> bool) (P : list prule)
         (order : nlabel stree -> list (family stree) -> list (family stree)),
    (forall l fs f, In f (order l fs) <-> In f fs) ->
  forall (lits : list (nat * string)) (names : list string) (L : blexer),
    relex_safe_b names L lits = true ->
  forall fuel t toks,
    Forall (lexable names L) (tokens_of t) ->
    recon (lookup_lit lits) (M_earley us P (sel_graph order)) fuel t = Ok toks ->
    bc_b m_cp names L (reconstruct_text toks) 0 EmptyString toks = true.
Proof. exact relex_safe_implies_bc. Qed.
Print Assumptions C19_relex_safe_implies_bc.

(* the character-level round trip with no per-tree hypothesis: for a relex-safe grammar of the class, EVERY tree the
   char-level parser (BasicLexer model with m_cp, then the parser specification) returns on ANY source text is
   reconstructed to a text that lexes back to the written tokens and parses back to that tree *)
Theorem C19_char_roundtrip :
  forall (us : nat -> bool) (P : list prule), cls us P -> cls_extra us P -> plain_roots us P ->
  forall (order : nlabel stree -> list (family stree) -> list (family stree)),
    (forall l fs f, In f (order l fs) <-> In f fs) ->
  forall (lits : list (nat * string)),
    (forall r n, In r P -> In (Tm n true) (p_exp r) -> lookup_lit lits n <> None) ->
    (forall r n fo, In r P -> In (Tm n fo) (p_exp r) ->
                    forall r', In r' P -> p_origin r' <> n /\ p_alias r' <> Some n) ->
  forall cok names terms ign L, make_lexer m_cp cok terms ign = Some L ->
    relex_safe_b names L lits = true ->
  forall start src t,
    ~ In start (expand1s P) -> us start = false ->
    parses_text us P (lex_model m_cp cok names terms ign) start src t ->
    exists fuel toks,
      recon (lookup_lit lits) (M_earley us P (sel_graph order)) fuel t = Ok toks /\
      lex_model m_cp cok names terms ign (reconstruct_text toks) = Some toks /\
      parses_text us P (lex_model m_cp cok names terms ign) start (reconstruct_text toks) t /\
      (unambiguous P start ->
       forall t', parses_text us P (lex_model m_cp cok names terms ign) start (reconstruct_text toks) t' -> t' = t).
Proof. exact char_roundtrip_safe. Qed.
Print Assumptions C19_char_roundtrip.

(* for string terminals without flags m_cp is the prefix test the C07 theorems assume of the regex oracle *)
Theorem C19_m_cp_string :
  forall t text p, tre t = false -> tflags t = [] -> m_cp t text p = str_match_at lower t text p.
Proof. exact m_cp_str. Qed.
Print Assumptions C19_m_cp_string.

(* F12's grammar is not relex-safe: PLUS "+" is a proper prefix of PP "++", tried first, and "+" can follow PLUS *)
Definition f12_terms : list term :=
  [mkTerm "PLUS" 0%Z false "+" [] 1%Z; mkTerm "PP" 0%Z false "++" [] 2%Z; mkTerm "WS" 0%Z false " " [] 1%Z].
Definition f12_names : list string := ["start"; "PLUS"; "PP"; "WS"]%string.
Example C19_F12_not_relex_safe :
  exists L, make_lexer m_cp (fun _ => true) f12_terms ["WS"%string] = Some L /\
            map tname (flat L) = ["PP"; "PLUS"; "WS"]%string /\
            s2_b L = false /\ relex_safe_b f12_names L f12_lits = false.
Proof. eexists. split; [vm_compute; reflexivity|]. repeat split; vm_compute; reflexivity. Qed.

(* non-vacuity of C19_char_roundtrip:  start: NAME "+" NAME   NAME: /[a-z]+/   %ignore " "   on the source "ab + c" *)
Definition sf_terms : list term :=
  [mkTerm "NAME" 0%Z true "[a-z]+" [] 4294967295%Z; mkTerm "PLUS" 0%Z false "+" [] 1%Z; mkTerm "WS" 0%Z false " " [] 1%Z].
Definition sf_names : list string := ["start"; "NAME"; "PLUS"; "WS"]%string.
Definition sf_rule : prule := mkP 0 [Tm 1 false; Tm 2 true; Tm 1 false] None false.
Definition sf_P : list prule := [sf_rule].
Definition sf_lits : list (nat * string) := [(2, "+"%string)].
Definition sf_us (n : nat) : bool := false.
Definition sf_lex := lex_model m_cp (fun _ => true) sf_names sf_terms ["WS"%string].
Example C19_char_roundtrip_example :
  exists L, make_lexer m_cp (fun _ => true) sf_terms ["WS"%string] = Some L /\
    relex_safe_b sf_names L sf_lits = true /\
    parses_text sf_us sf_P sf_lex 0 "ab + c"%string (Node 0 [Tok 1 "ab"%string; Tok 1 "c"%string]) /\
    exists fuel toks,
      recon (lookup_lit sf_lits) (M_earley sf_us sf_P (sel_graph order_id)) fuel
            (Node 0 [Tok 1 "ab"%string; Tok 1 "c"%string]) = Ok toks /\
      sf_lex (reconstruct_text toks) = Some toks /\
      parses_text sf_us sf_P sf_lex 0 (reconstruct_text toks) (Node 0 [Tok 1 "ab"%string; Tok 1 "c"%string]).
Proof.
  (* relex_safe_b is dear to evaluate: it is evaluated once, for the one lexer both uses speak about *)
  set (L := mkLexer (sort_terms sf_terms) [sort_terms sf_terms] ["WS"%string]).
  assert (HL : make_lexer m_cp (fun _ => true) sf_terms ["WS"%string] = Some L) by (vm_compute; reflexivity).
  assert (Hs : relex_safe_b sf_names L sf_lits = true) by (vm_compute; reflexivity).
  assert (Hp : parses_text sf_us sf_P sf_lex 0 "ab + c"%string (Node 0 [Tok 1 "ab"%string; Tok 1 "c"%string])).
  { exists [(1, "ab"%string); (2, "+"%string); (1, "c"%string)]. split; [vm_compute; reflexivity|].
    exists sf_rule, [DTok 1 "ab"%string; DTok 2 "+"%string; DTok 1 "c"%string]. repeat split.
    constructor; [left; reflexivity|]. repeat constructor. }
  exists L. split; [exact HL|]. split; [exact Hs|]. split; [exact Hp|].
  destruct (char_roundtrip_safe sf_us sf_P) with (order := order_id) (lits := sf_lits) (cok := fun _ : list term => true)
    (names := sf_names) (terms := sf_terms) (ign := ["WS"%string]) (start := 0) (src := "ab + c"%string)
    (t := Node 0 [Tok 1 "ab"%string; Tok 1 "c"%string]) (L := L)
    as (fuel & toks & Hr & Hl & Hp' & _).
  - apply class_b_sound; vm_compute; reflexivity.
  - apply extra_b_sound; vm_compute; reflexivity.
  - apply plain_roots_b_sound; vm_compute; reflexivity.
  - exact order_id_perm.
  - apply lits_b_sound; vm_compute; reflexivity.
  - apply disj_b_sound; vm_compute; reflexivity.
  - exact HL.
  - exact Hs.
  - intros H. vm_compute in H. exact H.
  - reflexivity.
  - exact Hp.
  - exists fuel, toks. auto.
Qed.
Print Assumptions C19_char_roundtrip_example.

(* ---------------------------------------------------------------------------------------------------------------
   Round 12: the conditions of the hand-written model are the ones regenerated from the source.  translator/gen_recons.py
   pins Reconstructor.__init__/_reconstruct/reconstruct, WriteTokensTransformer (all four methods), is_iter_empty,
   is_discarded_terminal, _MakeTreeMatch, _best_from_group, _best_rules_from_group, _match, make_recons_rule(_to_term),
   ChildrenLexer.lex, TreeMatcher.__init__/_build_recons_rules/match_tree, utils.is_id_continue/_test_unicode_category by
   fail-closed templates and writes their conditions to Gen/ReconsHoles.v (g_...); the model uses exactly these. *)
Theorem C19_model_conditions_regenerated :
  (* the spacing rule and is_id_continue (ASCII) *)
  (forall prev item, need_space prev item = g_need_space is_id_continue true prev item) /\
  forallb (fun n => Bool.eqb (is_id_continue (ascii_of_nat n)) (idc_of_cats g_idc_cats (ascii_of_nat n))) (seq 0 128) = true /\
  (* is_discarded_terminal *)
  (forall s, discarded s = match s with Tm _ fo => g_discarded true fo | Nt _ => g_discarded false false end) /\
  (* _build_recons_rules: inlined non-terminals, skipped alternatives, the loop's classification *)
  (forall us P n, is_nonterminal us P n =
                  memn n (rule_names P) && g_is_nt (us n) (memn n (expand1s P)) (memn n (aliased P))) /\
  (forall us P r, skipped us P r = g_skip (list_eqb symbol_eqb (recons_exp us P r) [NT (p_origin r)]) (has_alias r)) /\
  (forall us P rs seen, Recons.build_loop us P rs seen = build_loop_g us P rs seen) /\
  (* _best_from_group never replaces inside a group (equal expansions); the sort is by ascending length *)
  (forall len, g_better (g_cmp_key len) (g_cmp_key len) = false) /\
  (forall x r, Nat.ltb (length (r_exp x)) (length (r_exp r)) =
               Z.ltb (g_sort_key (Z.of_nat (length (r_exp x)))) (g_sort_key (Z.of_nat (length (r_exp r))))).
Proof.
  exact (conj need_space_gen (conj is_id_continue_gen (conj discarded_gen (conj is_nonterminal_gen
        (conj skipped_gen (conj build_loop_gen (conj best_never_replaces sort_key_gen))))))).
Qed.
Print Assumptions C19_model_conditions_regenerated.

(* F38 at model level: `?x: _l` with three children.  Every class condition but c_single (single_ok_b) holds, the tree is
   the shape of a derivation, and the Earley tree matcher of the model finds no match for start[x[a a a]]: reconstruction
   fails.  c_single is therefore necessary in C19_match_exists and the round-trip theorems. *)
Theorem C19_F38_refuted :
  closed_b f38_P = true /\ alias_ok_b f38_us f38_P = true /\ uscore_plain_b f38_us f38_P = true /\
  expand1_uniform_b f38_P = true /\ extra_b f38_us f38_P = true /\
  single_ok_b f38_us f38_P = false /\
  wf f38_P f38_d /\ shape f38_us f38_d = f38_tree /\
  M_earley f38_us f38_P sel_resolve f38_tree = None /\
  (forall lit fuel, recon lit (M_earley f38_us f38_P sel_resolve) (S fuel) f38_tree = AssertFail).
Proof. exact F38_refuted. Qed.
Print Assumptions C19_F38_refuted.
