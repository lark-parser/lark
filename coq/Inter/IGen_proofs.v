(* The hand model Inter/IDriver.v equals the functions written over the
   regenerated conditions of Gen/LalrHoles.v (see Inter/IGen.v). *)
From Coq Require Import List Arith Bool ZArith Lia.
From LV Require Import Inter.Heap Inter.IDriver Inter.ICheck Gen.LalrHoles Gen.InterHoles LR.DriverGen LR.DriverGen_proofs Inter.IGen.
Import ListNotations.

(* `if size:` on a rule that pops something *)
Lemma succ_nonzero_z n : Z.eqb (Z.of_nat (S n)) 0 = false.
Proof. apply Z.eqb_neq. lia. Qed.

(* feed_token, control part: IDriver.cfeed (state stack top first) is the regenerated control on every table
   that never shifts a terminal into the end state *)
Theorem gcfeed_eq_cfeed T : no_end_shift T -> forall k ss ty is_end,
  gcfeed k T (rev ss) ty is_end = (rev (fst (cfeed k T ss ty is_end)), snd (cfeed k T ss ty is_end)).
Proof.
  intros NE. induction k as [|k IH]; intros ss ty is_end; [reflexivity|].
  cbn [gcfeed cfeed]. rewrite py_last_rev. destruct ss as [|s ss]; [reflexivity|].
  destruct (action T s ty) as [[s'|r]|] eqn:Ea; [| |reflexivity].
  - unfold ft_arg_ok, ft_is_shift, ft_shift_ok. cbn [act_is_shift act_arg_z negb].
    rewrite zeqb_nat, negb_involutive.
    destruct (Nat.eqb_spec s' (end_state T)) as [E|_]; [exfalso; exact (NE _ _ _ Ea E)|].
    rewrite negb_involutive. destruct is_end; reflexivity.
  - unfold ft_arg_ok, ft_is_shift. cbn [act_is_shift act_arg_z].
    replace (Z.eqb (-1) (Z.of_nat (end_state T))) with false by (symmetry; apply Z.eqb_neq; lia).
    cbn [negb]. unfold ft_pop_guard, ft_lo_del_states.
    remember (rarity T r) as n eqn:En.
    assert (Hss : (if negb (Z.eqb (Z.of_nat n) 0) then py_del_from (- Z.of_nat n) (rev (s :: ss)) else rev (s :: ss))
                  = rev (skipn n (s :: ss))).
    { destruct n as [|n]; [reflexivity|].
      rewrite succ_nonzero_z.
      cbn [negb]. apply py_del_from_rev. lia. }
    cbn zeta. rewrite Hss, py_last_rev.
    destruct (skipn n (s :: ss)) as [|s0 ss0]; [reflexivity|].
    destruct (goto T s0 (rlhs T r)) as [s1|]; [|reflexivity].
    unfold ft_goto_ok, ft_accept. cbn [negb]. rewrite zeqb_nat.
    destruct (is_end && (s1 =? end_state T)); [reflexivity|].
    apply (IH (s1 :: s0 :: ss0)).
Qed.

Lemma assoc_some_in {A} k (l : list (nat * A)) v : assoc k l = Some v -> In (k, v) l.
Proof.
  induction l as [|[k' v'] l IH]; cbn; [discriminate|].
  destruct (Nat.eqb_spec k' k); [intros [= ->]; subst; auto|auto].
Qed.

Lemma no_end_shift_b_sound acts gotos rules s0 e0 :
  no_end_shift_b acts e0 = true -> no_end_shift (mk_table acts gotos rules s0 e0).
Proof.
  intros Hb s t s'. cbn [mk_table action end_state].
  destruct (assoc s acts) as [row|] eqn:Er; [|discriminate]. intros Ha E.
  apply assoc_some_in in Er, Ha.
  unfold no_end_shift_b in Hb. rewrite forallb_forall in Hb. specialize (Hb _ Er). cbn in Hb.
  rewrite forallb_forall in Hb. specialize (Hb _ Ha). cbn in Hb.
  rewrite E, Nat.eqb_refl in Hb. discriminate.
Qed.

(* the value-stack slices of IDriver.hfeed / pfeed (lastn / droplast) are the regenerated ones, with the guard *)
Theorem gvalues_popped_eq {A} is_end n e (vs : list A) : gvalues_popped is_end n e vs = lastn n vs.
Proof.
  unfold gvalues_popped, ft_pop_guard, ft_lo_values, lastn. destruct n as [|n].
  - cbn. rewrite Nat.sub_0_r, skipn_all. reflexivity.
  - rewrite succ_nonzero_z.
    cbn [negb]. unfold py_from. rewrite py_lo_neg by lia. reflexivity.
Qed.

Theorem gvalues_left_eq {A} is_end n e (vs : list A) : gvalues_left is_end n e vs = droplast n vs.
Proof.
  unfold gvalues_left, ft_pop_guard, ft_lo_del_values, droplast. destruct n as [|n].
  - cbn. rewrite Nat.sub_0_r, firstn_all. reflexivity.
  - rewrite succ_nonzero_z.
    cbn [negb]. unfold py_del_from. rewrite py_lo_neg by lia. reflexivity.
Qed.

(* InteractiveParser.feed_token passes is_end = (token.type == '$END'): hifeed / pifeed use ty =? END *)
Theorem ip_is_end_eq ty : ip_feed_is_end (Z.of_nat ty) (Z.of_nat END) = (ty =? END).
Proof. unfold ip_feed_is_end. apply zeqb_nat. Qed.

(* InteractiveParser.copy as regenerated = IDriver.copy_parser on the implementation as found *)
Theorem gcopy_eq_copy deep H p :
  gcopy_parser (im_meta impl_now) deep H p = Some (copy_parser impl_now deep H p).
Proof.
  unfold gcopy_parser, copy_parser. cbn [fresh ip_copy_lexer_thread lt_copy_state ls_copy_line_ctr andb negb
                                           ps_copy_state_stack ip_copy_rebinds_state_lexer].
  cbn [halloc]. unfold ps_copy_value_stack. cbn [impl_now im_lex copy_rebinds_state_lexer].
  destruct deep.
  - destruct (deepcopy _ _ _). reflexivity.
  - reflexivity.
Qed.

(* the two translators read the same defaults, and the trial cursors of accepts() are shallow copies *)
Theorem copy_defaults_agree :
  ip_copy_default = interactive_copy_default /\ ps_copy_default = parser_state_copy_default /\
  ip_accepts_trial_deep = accepts_trial_deep /\ ip_accepts_trial_deep = false /\ im_deep impl_now = ip_copy_default.
Proof. repeat split; reflexivity. Qed.

(* what the heap model relies on: no copy shares its state stack or its lexer position with the original,
   whatever deepcopy_values is; the value-stack list object is never shared; a deep copy is a deepcopy *)
Theorem copy_shape :
  (forall d, fresh (ps_copy_state_stack d) = true) /\ (forall d, fresh (ps_copy_value_stack d) = true) /\
  ps_copy_value_stack true = Deep /\ ps_copy_value_stack false = Shallow /\
  fresh ip_copy_lexer_thread = true /\ fresh lt_copy_state = true /\ fresh ls_copy_line_ctr = true /\
  ls_copy_text = Shared /\ ip_copy_rebinds_state_lexer = true.
Proof. repeat split; try reflexivity; intros []; reflexivity. Qed.
