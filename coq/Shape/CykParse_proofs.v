(* cyk._parse: the chart holds exactly the CNF derivations.  Soundness: every tree recorded for a
   non-terminal and a span is a derivation (cder) of that non-terminal whose yield is the span;
   completeness: if the CNF grammar derives the span from A, the cell has a rule with lhs A and a
   tree for A. *)
From Coq Require Import String Ascii List Bool Arith Lia.
From LV Require Import Base.Prelude Shape.Chain Shape.Spec Shape.Cnf Shape.CykParse.
Import ListNotations.

Lemma fold_left_inv {A B} (f : A -> B -> A) (P : A -> Prop) l : forall a,
  P a -> (forall acc x, In x l -> P acc -> P (f acc x)) -> P (fold_left f l a).
Proof. induction l as [|x l IH]; intros a Ha Hs; simpl; auto. apply IH; [apply Hs; simpl; auto|]. intros; apply Hs; simpl; auto. Qed.

Lemma fold_left_reach {A B} (f : A -> B -> A) (Q : A -> Prop) l x : forall a,
  In x l -> (forall acc, Q (f acc x)) -> (forall acc y, Q acc -> Q (f acc y)) -> Q (fold_left f l a).
Proof.
  induction l as [|y l IH]; intros a Hin Hx Hm; [destruct Hin|]. simpl. destruct Hin as [->|Hin].
  - apply fold_left_inv; auto.
  - apply IH; auto.
Qed.

Lemma firstn_plus {A} (l : list A) p q : firstn (p + q) l = firstn p l ++ firstn q (skipn p l).
Proof. revert l; induction p as [|p IH]; intros [|x l]; simpl; auto; [destruct q; reflexivity|]. f_equal. apply IH. Qed.

Lemma skipn_plus {A} (l : list A) i p : skipn p (skipn i l) = skipn (i + p) l.
Proof. revert l; induction i as [|i IH]; intros l; simpl; auto. destruct l; [destruct p; reflexivity|]. apply IH. Qed.

Lemma app_eq_len {A} (a b c d : list A) : a ++ b = c ++ d -> length a = length c -> a = c /\ b = d.
Proof.
  revert c; induction a as [|x a IH]; intros [|y c] H Hl; simpl in *; try discriminate; auto.
  injection H as -> H. destruct (IH c H) as [-> ->]; auto.
Qed.

Lemma cnt_eqb_eq a b : cnt_eqb a b = true <-> a = b.
Proof.
  destruct a, b; simpl; split; intros H; try discriminate; try (apply String.eqb_eq in H; congruence);
    try (injection H as ->; apply String.eqb_refl).
  - apply andb_true_iff in H. destruct H as [H1 H2]. apply Nat.eqb_eq in H1, H2. congruence.
  - injection H as -> ->. rewrite !Nat.eqb_refl. reflexivity.
Qed.

Lemma cnt_eqb_refl a : cnt_eqb a a = true.
Proof. apply cnt_eqb_eq. reflexivity. Qed.

Lemma tlookup_tadd a b t ts :
  tlookup a (tadd b t ts) =
  match tlookup a ts with Some x => Some x | None => if cnt_eqb a b then Some t else None end.
Proof.
  unfold tadd. destruct (tlookup b ts) as [tb|] eqn:Eb.
  - destruct (tlookup a ts) eqn:Ea; auto. destruct (cnt_eqb a b) eqn:E; auto.
    apply cnt_eqb_eq in E. subst. congruence.
  - clear Eb. induction ts as [|[c u] ts IH]; simpl.
    + destruct (cnt_eqb a b); reflexivity.
    + destruct (cnt_eqb a c); auto.
Qed.

Lemma in_radd x r rs : In x (radd r rs) -> x = r \/ In x rs.
Proof. unfold radd. destruct (existsb (crule_eqb r) rs); [auto|]. intros H. apply in_app_iff in H. simpl in H. intuition (subst; auto). Qed.

Lemma radd_keeps x r rs : In x rs -> In x (radd r rs).
Proof. unfold radd. destruct (existsb (crule_eqb r) rs); auto. intros. apply in_or_app. auto. Qed.

Lemma radd_has_lhs r rs : exists r', In r' (radd r rs) /\ c_lhs r' = c_lhs r.
Proof.
  unfold radd. destruct (existsb (crule_eqb r) rs) eqn:E.
  - apply existsb_exists in E. destruct E as (r' & Hin & He). exists r'. split; auto.
    unfold crule_eqb in He. repeat (apply andb_true_iff in He; destruct He as [He ?]).
    apply cnt_eqb_eq in He. auto.
  - exists r. split; auto. apply in_or_app. simpl. auto.
Qed.

Section CderInd.
  Variable g : list crule.
  Variable P : ctree -> csym -> Prop.
  Hypothesis Hl : forall t v, P (CLeaf t v) (CT t).
  Hypothesis Hn : forall r ch, In r g -> Forall2 (fun c s => cder g c s /\ P c s) ch (c_rhs r) -> P (CNode r ch) (CN (c_lhs r)).
  Fixpoint cder_ind' c s (H : cder g c s) : P c s :=
    match H with
    | cder_leaf _ t v => Hl t v
    | cder_node _ r ch Hin HF =>
        Hn r ch Hin ((fix go ch ss (HF : Forall2 (cder g) ch ss) : Forall2 (fun c s => cder g c s /\ P c s) ch ss :=
                        match HF with
                        | Forall2_nil _ => Forall2_nil _
                        | Forall2_cons x y hx hr => Forall2_cons x y (conj hx (cder_ind' x y hx)) (go _ _ hr)
                        end) ch (c_rhs r) HF)
    end.
End CderInd.

Definition span {A} (w : list A) (i l : nat) : list A := firstn l (skipn i w).

Lemma span_split {A} (w : list A) i p l : p <= l -> span w i l = span w i p ++ span w (i + p) (l - p).
Proof.
  intros Hp. unfold span. replace l with (p + (l - p)) at 1 by lia.
  rewrite firstn_plus, skipn_plus. reflexivity.
Qed.

Lemma span_one {A} (w : list A) i x : nth_error w i = Some x -> span w i 1 = [x].
Proof.
  unfold span. revert w; induction i as [|i IH]; intros [|y w] H; simpl in *; try discriminate.
  - injection H as ->. reflexivity.
  - apply IH. exact H.
Qed.

Lemma span_length {A} (w : list A) i l : i + l <= length w -> length (span w i l) = l.
Proof. intros H. unfold span. rewrite firstn_length, skipn_length. lia. Qed.

Lemma span_all {A} (w : list A) : span w 0 (length w) = w.
Proof. unfold span. simpl. apply firstn_all. Qed.

Section Chart.
  Variable g : list crule.
  Variable w : list ctoken.
  Notation term_cell := (term_cell g).
  Notation combine := (combine g).
  Notation cellF := (cellF g w).

  Definition cell_ok (l i : nat) (c : cell) : Prop :=
    (forall r, In r (fst c) -> In r g /\ exists t, tlookup (c_lhs r) (snd c) = Some t) /\
    (forall a t, tlookup a (snd c) = Some t -> cder g t (CN a) /\ cyield t = span w i l).

  Lemma cell_ok_add l i c r t :
    cell_ok l i c -> In r g -> cder g t (CN (c_lhs r)) -> cyield t = span w i l ->
    cell_ok l i (radd r (fst c), tadd (c_lhs r) t (snd c)).
  Proof.
    intros [HR HT] Hin Hd Hy. split; cbn [fst snd].
    - intros x Hx. apply in_radd in Hx. destruct Hx as [->|Hx].
      + split; auto. rewrite tlookup_tadd. destruct (tlookup (c_lhs r) (snd c)); eauto.
        rewrite cnt_eqb_refl. eauto.
      + destruct (HR x Hx) as [H1 [t' H2]]. split; auto. rewrite tlookup_tadd, H2. eauto.
    - intros a t' H. rewrite tlookup_tadd in H. destruct (tlookup a (snd c)) eqn:E.
      + injection H as <-. apply HT. exact E.
      + destruct (cnt_eqb a (c_lhs r)) eqn:Ea; [|discriminate]. injection H as <-.
        apply cnt_eqb_eq in Ea. subst a. auto.
  Qed.

  Lemma term_cell_ok i tk : nth_error w i = Some tk -> cell_ok 1 i (term_cell tk).
  Proof.
    intros Hn. unfold CykParse.term_cell. apply fold_left_inv.
    - split; [intros r []|intros a t H; discriminate].
    - intros acc r Hin Hacc. destruct (c_rhs r) as [|[t|n] [|s rest]] eqn:Er; auto.
      destruct (String.eqb t (fst tk)) eqn:Et; auto. apply String.eqb_eq in Et.
      apply cell_ok_add; auto.
      + apply cder_node; auto. rewrite Er. constructor; [|constructor]. rewrite <- Et. constructor.
      + simpl. rewrite (span_one w i tk Hn). destruct tk; reflexivity.
  Qed.

  Lemma combine_ok l i p c1 c2 acc :
    1 <= p -> p < l -> cell_ok p i c1 -> cell_ok (l - p) (i + p) c2 -> cell_ok l i acc -> cell_ok l i (combine c1 c2 acc).
  Proof.
    intros Hp Hl H1 H2 Hacc. unfold CykParse.combine.
    apply fold_left_inv; auto. intros acc1 r1 Hr1 Ha1.
    apply fold_left_inv; auto. intros acc2 r2 Hr2 Ha2.
    apply fold_left_inv; auto. intros acc3 r Hr Ha3.
    destruct (tlookup (c_lhs r1) (snd c1)) as [t1|] eqn:E1; auto.
    destruct (tlookup (c_lhs r2) (snd c2)) as [t2|] eqn:E2; auto.
    unfold bin_rules in Hr. apply filter_In in Hr. destruct Hr as [Hg Hsh].
    destruct (c_rhs r) as [|[t|x] [|[t'|y] [|]]] eqn:Er; try discriminate.
    apply andb_true_iff in Hsh. destruct Hsh as [Hx Hy]. apply cnt_eqb_eq in Hx, Hy. subst x y.
    destruct (proj2 H1 _ _ E1) as [D1 Y1]. destruct (proj2 H2 _ _ E2) as [D2 Y2].
    apply cell_ok_add; auto.
    - apply cder_node; auto. rewrite Er. repeat constructor; auto.
    - simpl. rewrite app_nil_r, Y1, Y2. symmetry. apply span_split. lia.
  Qed.

  Theorem cellF_sound : forall fuel l i, 1 <= l -> l <= fuel -> i + l <= length w -> cell_ok l i (cellF fuel l i).
  Proof.
    induction fuel as [|f IH]; intros l i H1 Hf Hw; [lia|]. cbn [CykParse.cellF].
    destruct (Nat.eqb_spec l 1) as [->|Hne].
    - destruct (nth_error w i) as [tk|] eqn:En.
      + apply term_cell_ok. exact En.
      + apply nth_error_None in En. lia.
    - apply fold_left_inv.
      + split; [intros r []|intros a t H; discriminate].
      + intros acc p Hp Hacc. apply in_seq in Hp. apply (combine_ok l i p); auto; try lia; apply IH; lia.
  Qed.

  Hypothesis Hshape : forall r, In r g -> cnf_shape r = true.

  Definition has (a : cnt) (c : cell) : Prop :=
    (exists t, tlookup a (snd c) = Some t) /\ exists r, In r (fst c) /\ c_lhs r = a.

  Lemma has_add a c r t : has a c -> has a (radd r (fst c), tadd (c_lhs r) t (snd c)).
  Proof.
    intros [[t' Ht] [r' [Hr Hl]]]. split; cbn [fst snd].
    - rewrite tlookup_tadd, Ht. eauto.
    - exists r'. split; auto. apply radd_keeps. exact Hr.
  Qed.

  Lemma has_new c r t : has (c_lhs r) (radd r (fst c), tadd (c_lhs r) t (snd c)).
  Proof.
    split; cbn [fst snd].
    - rewrite tlookup_tadd. destruct (tlookup (c_lhs r) (snd c)); eauto. rewrite cnt_eqb_refl. eauto.
    - destruct (radd_has_lhs r (fst c)) as (r' & H1 & H2). eauto.
  Qed.

  Lemma term_cell_mono a tk r acc : has a acc ->
    has a (match c_rhs r with
           | [CT t] => if String.eqb t (fst tk)
                       then (radd r (fst acc), tadd (c_lhs r) (CNode r [CLeaf (fst tk) (snd tk)]) (snd acc)) else acc
           | _ => acc end).
  Proof.
    intros H. destruct (c_rhs r) as [|[t|n] [|s rest]]; auto. destruct (String.eqb t (fst tk)); auto. apply has_add; auto.
  Qed.

  (* the body of the innermost loop of one split point *)
  Lemma step_mono a (o1 o2 : option ctree) r acc : has a acc ->
    has a (match o1, o2 with
           | Some t1, Some t2 => (radd r (fst acc), tadd (c_lhs r) (CNode r [t1; t2]) (snd acc))
           | _, _ => acc
           end).
  Proof. intros H. destruct o1, o2; auto. apply has_add; auto. Qed.

  Lemma combine_mono a c1 c2 acc : has a acc -> has a (combine c1 c2 acc).
  Proof.
    intros H. unfold CykParse.combine.
    apply fold_left_inv; auto. intros acc1 r1 _ Ha1.
    apply fold_left_inv; auto. intros acc2 r2 _ Ha2.
    apply fold_left_inv; auto. intros acc3 r _. apply step_mono.
  Qed.

  Lemma combine_reach x y c1 c2 r acc :
    has x c1 -> has y c2 -> In r g -> c_rhs r = [CN x; CN y] -> has (c_lhs r) (combine c1 c2 acc).
  Proof.
    intros [[t1 T1] [r1 [R1 L1]]] [[t2 T2] [r2 [R2 L2]]] Hin Er. unfold CykParse.combine.
    apply (fold_left_reach _ (has (c_lhs r)) _ r1 _ R1).
    - intros acc1. apply (fold_left_reach _ (has (c_lhs r)) _ r2 _ R2).
      + intros acc2. apply (fold_left_reach _ (has (c_lhs r)) _ r).
        * unfold bin_rules. apply filter_In. split; auto. rewrite Er, L1, L2, !cnt_eqb_refl. reflexivity.
        * intros acc3. rewrite L1, L2, T1, T2. apply has_new.
        * intros acc3 r3. apply step_mono.
      + intros acc2 r3 Ha. apply fold_left_inv; auto. intros acc3 r4 _. apply step_mono.
    - intros acc1 r3 Ha. apply fold_left_inv; auto. intros acc2 r4 _ Ha2.
      apply fold_left_inv; auto. intros acc3 r5 _. apply step_mono.
  Qed.

  Lemma cder_yield_pos c s : cder g c s -> 1 <= length (cyield c).
  Proof.
    induction 1 as [t v|r ch Hin HF] using cder_ind'; [simpl; lia|].
    specialize (Hshape r Hin). unfold cnf_shape in Hshape.
    destruct HF as [|c1 s1 ch ss [_ H1] _]; [discriminate|]. simpl. rewrite app_length. lia.
  Qed.

  Theorem cellF_complete : forall fuel c a i,
    cder g c (CN a) -> length (cyield c) <= fuel -> cyield c = span w i (length (cyield c)) ->
    has a (cellF fuel (length (cyield c)) i).
  Proof.
    induction fuel as [|f IH]; intros c a i Hd Hf Hy.
    { pose proof (cder_yield_pos _ _ Hd). lia. }
    inversion Hd as [|r ch Hin HF]; subst. pose proof (Hshape r Hin) as Hs. unfold cnf_shape in Hs.
    cbn [CykParse.cellF].
    destruct (c_rhs r) as [|[t|x] [|[t'|y] [|]]] eqn:Er; try discriminate.
    - (* A -> t *)
      inversion HF as [|c1 ? ? ? Hc1 Hr]; subst. inversion Hr; subst. inversion Hc1; subst.
      simpl in *. unfold span in Hy. destruct (nth_error w i) as [tk|] eqn:En.
      + assert (tk = (t, v)).
        { apply span_one in En. unfold span in En. rewrite En in Hy. congruence. }
        subst tk. unfold CykParse.term_cell.
        apply (fold_left_reach _ (has (c_lhs r)) g r); auto.
        * intros acc. rewrite Er. cbn [fst snd]. rewrite String.eqb_refl. apply has_new.
        * intros acc y0 Hacc. apply term_cell_mono. exact Hacc.
      + apply nth_error_None in En. rewrite skipn_all2 in Hy by lia. discriminate.
    - (* A -> B C *)
      inversion HF as [|c1 ? ? ? Hc1 Hr]; subst. inversion Hr as [|c2 ? ? ? Hc2 Hr2]; subst. inversion Hr2; subst.
      pose proof (cder_yield_pos _ _ Hc1) as P1. pose proof (cder_yield_pos _ _ Hc2) as P2.
      cbn [cyield flat_map] in *. rewrite app_nil_r in *. rewrite app_length in *.
      set (l1 := length (cyield c1)) in *. set (l2 := length (cyield c2)) in *.
      destruct (Nat.eqb_spec (l1 + l2) 1) as [E|_]; [lia|].
      rewrite (span_split w i l1 (l1 + l2)) in Hy by lia.
      assert (Hlen1 : length (span w i l1) = l1).
      { apply (f_equal (@length _)) in Hy. rewrite !app_length in Hy. fold l1 l2 in Hy.
        unfold span in *. rewrite !firstn_length in *. lia. }
      apply app_eq_len in Hy; [|symmetry; exact Hlen1]. destruct Hy as [Y1 Y2].
      replace (l1 + l2 - l1) with l2 in Y2 by lia.
      apply (fold_left_reach _ (has (c_lhs r)) _ l1).
      + apply in_seq. lia.
      + intros acc. replace (l1 + l2 - l1) with l2 by lia.
        apply (combine_reach x y); auto; apply IH; auto; fold l1 l2; lia.
      + intros acc p Ha. apply combine_mono. exact Ha.
  Qed.
End Chart.

Section ParseTheorems.
  Variable g : list crule.
  Variable w : list ctoken.
  Variable start : string.

  Theorem cyk_parse_sound t : cyk_parse g w start = Some t -> cder g t (CN (NOrig start)) /\ cyield t = w.
  Proof.
    unfold cyk_parse, cyk_cell. destruct (existsb _ _); [|discriminate]. intros H.
    destruct w as [|x w'] eqn:Ew; [discriminate|]. rewrite <- Ew in *.
    assert (Hl : 1 <= length w) by (rewrite Ew; simpl; lia).
    destruct (cellF_sound g w (length w) (length w) 0 Hl (le_n _) (le_n _)) as [_ HT].
    destruct (HT _ _ H) as [Hd Hy]. rewrite span_all in Hy. auto.
  Qed.

  Hypothesis Hshape : forall r, In r g -> cnf_shape r = true.

  Theorem cyk_parse_complete c : cder g c (CN (NOrig start)) -> cyield c = w -> exists t, cyk_parse g w start = Some t.
  Proof.
    intros Hd Hy. unfold cyk_parse, cyk_cell.
    pose proof (cellF_complete g w Hshape (length w) c (NOrig start) 0 Hd) as H.
    rewrite Hy in H. specialize (H (le_n _)). rewrite span_all in H. specialize (H eq_refl).
    destruct H as [[t Ht] [r [Hr Hl]]].
    assert (E : existsb (fun r0 => cnt_eqb (c_lhs r0) (NOrig start)) (fst (cellF g w (length w) (length w) 0)) = true).
    { apply existsb_exists. exists r. split; auto. rewrite Hl. apply cnt_eqb_refl. }
    rewrite E. eauto.
  Qed.

  Theorem cyk_parse_unique c :
    cder g c (CN (NOrig start)) -> cyield c = w ->
    (forall c', cder g c' (CN (NOrig start)) -> cyield c' = w -> c' = c) ->
    cyk_parse g w start = Some c.
  Proof.
    intros Hd Hy Hu. destruct (cyk_parse_complete c Hd Hy) as [t Ht].
    destruct (cyk_parse_sound t Ht) as [Hd' Hy']. rewrite (Hu t Hd' Hy') in Ht. exact Ht.
  Qed.
End ParseTheorems.
