(* C07, contextual part, on the model parse table: the abstract parser of
   Contextual_proofs.contextual_refines_basic is instantiated with LR/Driver.v. *)
From Coq Require Import ZArith List Bool String Ascii Arith Lia Sorted Permutation.
From LV Require Import Base.Prelude Cfg.Grammar LR.Driver Lex.LexerBase Gen.LexerSortKey Lex.Lexer
     Lex.LexerOrder_proofs Lex.Lexer_proofs Lex.Unless_proofs Lex.Contextual_proofs Lex.ContextualLR.
Import ListNotations.

Lemma index_of_spec nm l :
  (index_of nm l <= List.length l)%nat /\
  (index_of nm l <> List.length l -> nth_error l (index_of nm l) = Some nm).
Proof.
  induction l as [|x r [Hle Hn]]; cbn; [split; [lia|congruence]|].
  destruct (String.eqb nm x) eqn:E; cbn; (split; [lia|]).
  - intros _. apply String.eqb_eq in E. now subst.
  - intros H. apply Hn. lia.
Qed.

Lemma assoc_sym_in X row a : assoc_sym X row = Some a -> In X (map fst row).
Proof.
  induction row as [|[Y b] r IH]; cbn; [discriminate|].
  destruct (symbol_eqb_spec X Y) as [->|_]; [now left|]. intros H. right. now apply IH.
Qed.

Lemma rows_action_choices Rw q X a : rows_action Rw q X = Some a -> In X (choices Rw q).
Proof.
  unfold rows_action, choices. destruct (row_of Rw q) as [row|]; [|discriminate]. apply assoc_sym_in.
Qed.

Lemma row_of_in Rw q row : row_of Rw q = Some row -> In (q, row) Rw.
Proof.
  induction Rw as [|[q' r'] Rw IH]; cbn; [discriminate|].
  destruct (Nat.eqb_spec q q') as [->|_].
  - intros H; injection H as ->. now left.
  - intros H. right. now apply IH.
Qed.

Section Inst.

Variable fold : ascii -> ascii.
Variable m : term -> string -> nat -> option nat.
Variable cok : list term -> bool.
Variable text : string.
Variable terms : list term.
Variable ign always : list string.
Variable R : rows.
Variable q0 qe : state.
Variable dfuel : nat.

Notation ttype := (ContextualLR.ttype terms).
Notation P := (ContextualLR.P R q0 qe).
Notation lr_accepts := (ContextualLR.lr_accepts terms R).
Notation lr_step := (ContextualLR.lr_step terms R q0 qe dfuel).
Notation run_cfg := (ContextualLR.run_cfg terms R q0 qe dfuel).
Notation cfg := (config tok).

Hypothesis Hknown : rows_known terms R = true.

Lemma known_key q k : In (T k) (choices R q) -> k <> List.length terms.
Proof.
  unfold choices. destruct (row_of R q) as [row|] eqn:E; [|intros []].
  intros Hin. apply row_of_in in E. unfold rows_known in Hknown.
  rewrite forallb_forall in Hknown. specialize (Hknown _ E). cbn in Hknown.
  rewrite forallb_forall in Hknown. apply in_map_iff in Hin. destruct Hin as ([X a] & HX & Hin).
  cbn in HX. subst X. specialize (Hknown _ Hin). cbn in Hknown.
  apply negb_true_iff, Nat.eqb_neq in Hknown. exact Hknown.
Qed.

Lemma tnum_names nm :
  tnum terms nm <> List.length terms -> In nm (sym_names terms (T (tnum terms nm))).
Proof.
  unfold tnum. cbn [sym_names]. destruct (String.eqb nm end_name) eqn:Ee.
  - intros _. rewrite Nat.eqb_refl. apply String.eqb_eq in Ee. now left.
  - destruct (index_of_spec nm (map tname terms)) as [Hle Hn]. rewrite map_length in Hle, Hn.
    intros Hne. destruct (Nat.eqb_spec (index_of nm (map tname terms)) (S (List.length terms))) as [E|_]; [lia|].
    specialize (Hn Hne). rewrite nth_error_map in Hn.
    destruct (nth_error terms (index_of nm (map tname terms))) as [t0|]; [|discriminate].
    injection Hn as <-. now left.
Qed.

Lemma lr_acc (c : cfg) t c' : lr_step c t = Some c' -> In (ktype t) (lr_accepts c).
Proof.
  unfold ContextualLR.lr_step, ContextualLR.lr_accepts. destruct dfuel as [|f]; [discriminate|]. cbn [feed].
  destruct (sstack c) as [|q ss]; [discriminate|].
  destruct (pt_action P q (T (ttype t))) as [a|] eqn:Ea; [|discriminate].
  intros _. cbn in Ea. apply rows_action_choices in Ea.
  apply in_flat_map. exists (T (ttype t)). split; [assumption|].
  apply tnum_names. exact (known_key _ _ Ea).
Qed.

Lemma run_is_run_cfg (c : cfg) ts : run cfg lr_step c ts = run_cfg c ts.
Proof. revert c. induction ts as [|t r IH]; intros c; cbn; [reflexivity|]. destruct (lr_step c t); auto. Qed.

Lemma run_cfg_feed_all (c : cfg) ts c' :
  run_cfg c ts = Some c' <-> feed_all tok ttype P dfuel c ts = Shifted c'.
Proof.
  revert c. induction ts as [|t r IH]; intros c; cbn.
  - split; intros H; injection H as <-; reflexivity.
  - unfold ContextualLR.lr_step. destruct (feed tok ttype P dfuel c t false) as [c1| | | | |]; try (split; discriminate).
    apply IH.
Qed.

Lemma feed_false_not_accepted f (c : cfg) k t : feed tok ttype P f c k false <> Accepted t.
Proof.
  revert c. induction f as [|f IH]; intros c; cbn [feed]; [discriminate|].
  destruct (sstack c) as [|q ss] eqn:Es; [discriminate|].
  destruct (pt_action P q (T (ttype k))) as [[q'|r]|]; try discriminate.
  - destruct (Nat.eqb q' (pt_end P)); discriminate.
  - match goal with |- context [match ?x with [] => _ | _ :: _ => _ end] => destruct x as [|q2 ss2] end;
      [discriminate|].
    destruct (pt_action P q2 (NT (lhs r))) as [[q3|r3]|]; try discriminate.
    cbn [andb]. apply IH.
Qed.

Lemma feed_all_not_accepted (c : cfg) ts t : feed_all tok ttype P dfuel c ts <> Accepted t.
Proof.
  revert c. induction ts as [|k r IH]; intros c; cbn; [discriminate|].
  destruct (feed tok ttype P dfuel c k false) eqn:E; try discriminate; [apply IH|].
  now apply feed_false_not_accepted in E.
Qed.

Lemma ctx_lex_fed root : forall fuel (c : cfg) p ts,
  ctx_lex fold m cok text cfg lr_accepts lr_step fuel terms ign always root c p = (ts, CEOF) ->
  exists cf, run_cfg c ts = Some cf.
Proof.
  induction fuel as [|f IH]; intros c p ts; cbn [ctx_lex]; [discriminate|].
  destruct (sub_lexer m cok cfg lr_accepts terms ign always c) as [L|]; [|discriminate].
  destruct (next_token m text (S (String.length text - p)) L p) as [r| |q|].
  - destruct (lr_step c (tok_of fold m text (lx_terms L) r)) as [c'|] eqn:Es; [|discriminate].
    destruct (ctx_lex fold m cok text cfg lr_accepts lr_step f terms ign always root c' (rstart r + rlen r))
      as [ts' e] eqn:Er.
    intros H; injection H as <- ->. destruct (IH _ _ _ Er) as (cf & Hcf).
    exists cf. cbn. now rewrite Es.
  - intros H; injection H as <-. exists c. reflexivity.
  - destruct (next_token m text (S (String.length text - q)) root q); discriminate.
  - discriminate.
Qed.

Notation st := (sort_terms terms).

Hypothesis Hcok : forall l, cok l = true.
Hypothesis Hun : uniq_names terms.
Hypothesis Hstr : str_oracle fold m text st.
Hypothesis Hbound : bounded_oracle m text st.
Hypothesis Hpos : forall t p n, In t st -> m t text p = Some n -> (0 < n)%nat.
Hypothesis Hsem : embedding_semantic m text st.
Hypothesis Hdisj : regexps_disjoint m text st.
Hypothesis Hign : ignore_agrees m st ign.
Hypothesis Hiso : forall c : cfg,
  keywords_isolated m text st (sort_terms (sub_terms cfg lr_accepts terms ign always c)).

(* whenever the basic lexer + the LALR driver on table R produce a tree, the contextual lexer
   driven by the same table yields the same tokens, and the run returns the same tree *)
Theorem contextual_refines_basic_lr root ts tree end_tok :
  make_lexer m cok terms ign = Some root ->
  lex_from fold m text root 0 = (ts, AtEOF) ->
  parse tok ttype P dfuel ts end_tok = Accepted tree ->
  forall fuel, (List.length ts < fuel)%nat ->
  ctx_lex fold m cok text cfg lr_accepts lr_step fuel terms ign always root (init_config P) 0 = (ts, CEOF) /\
  ctx_parse fold m cok text terms ign always R q0 qe dfuel fuel root end_tok = CxTree tree.
Proof.
  intros Hroot Hlex Hparse fuel Hf.
  unfold parse in Hparse.
  destruct (feed_all tok ttype P dfuel (init_config P) ts) as [cf| | | | |] eqn:Efa;
    try discriminate.
  2:{ now apply feed_all_not_accepted in Efa. }
  apply run_cfg_feed_all in Efa.
  assert (Hctx : ctx_lex fold m cok text cfg lr_accepts lr_step fuel terms ign always root (init_config P) 0 = (ts, CEOF)).
  { apply (contextual_refines_basic fold m cok text Hcok cfg lr_accepts lr_step terms ign always
             Hun Hstr Hbound Hpos Hsem Hdisj Hign Hiso lr_acc root ts cf (init_config P) Hroot Hlex);
      [now rewrite run_is_run_cfg|assumption]. }
  split; [exact Hctx|].
  unfold ctx_parse. rewrite Hctx, Efa, Hparse. reflexivity.
Qed.

End Inst.

Section Shared.

Variable m : term -> string -> nat -> option nat.
Variable cok : list term -> bool.
Variable terms : list term.
Variable ign always : list string.

Notation lexer_for := (ContextualLR.lexer_for m cok terms ign always).
Notation build_lexers := (ContextualLR.build_lexers m cok terms ign always).

Lemma set_eqb_mem a b x : set_eqb a b = true -> mem_string x a = mem_string x b.
Proof.
  unfold set_eqb. rewrite andb_true_iff, !forallb_forall. intros [Hab Hba].
  destruct (mem_string x a) eqn:Ea, (mem_string x b) eqn:Eb; try reflexivity.
  - apply mem_string_In in Ea. apply Hab in Ea. congruence.
  - apply mem_string_In in Eb. apply Hba in Eb. congruence.
Qed.

(* the lexer depends on the accept SET only: sharing by frozenset(accepts) is sound *)
Lemma lexer_for_set a b : set_eqb a b = true -> lexer_for a = lexer_for b.
Proof.
  intros H. unfold ContextualLR.lexer_for. f_equal. apply filter_ext. intros t.
  now rewrite (set_eqb_mem a b _ H).
Qed.

Definition cache_sound (cache : list (list string * option blexer)) : Prop :=
  forall k L, In (k, L) cache -> L = lexer_for k.

Lemma cache_find_sound cache k L : cache_sound cache -> cache_find k cache = Some L -> L = lexer_for k.
Proof.
  induction cache as [|[k' L'] r IH]; cbn; [discriminate|]. intros Hs.
  destruct (set_eqb k k') eqn:E.
  - intros H; injection H as <-. rewrite (lexer_for_set _ _ E). apply Hs. now left.
  - apply IH. intros k0 L0 H0. apply Hs. now right.
Qed.

Theorem build_lexers_spec states : forall cache, cache_sound cache ->
  map (fun x => (fst (fst x), snd (fst x))) (build_lexers states cache) =
  map (fun qa : state * list string => (fst qa, lexer_for (snd qa))) states.
Proof.
  induction states as [|[q acc] r IH]; intros cache Hs; cbn; [reflexivity|].
  destruct (cache_find acc cache) as [L|] eqn:E; cbn.
  - rewrite (cache_find_sound _ _ _ Hs E). f_equal. now apply IH.
  - f_equal. apply IH. intros k L [H|H]; [injection H as <- <-; reflexivity|now apply Hs].
Qed.

(* a lexer is built anew exactly for the first state of each accept set *)
Theorem build_lexers_fresh states : forall cache,
  map snd (build_lexers states cache) =
  (fix go (l : list (state * list string)) (seen : list (list string)) : list bool :=
     match l with
     | [] => []
     | (q, acc) :: r => if existsb (set_eqb acc) seen then false :: go r seen else true :: go r (acc :: seen)
     end) states (map fst cache).
Proof.
  induction states as [|[q acc] r IH]; intros cache; cbn; [reflexivity|].
  assert (E : cache_find acc cache = None <-> existsb (set_eqb acc) (map fst cache) = false).
  { induction cache as [|[k L] c IHc]; cbn; [tauto|]. destruct (set_eqb acc k); cbn; [split; discriminate|apply IHc]. }
  destruct (cache_find acc cache) as [L|] eqn:Ec.
  - destruct (existsb (set_eqb acc) (map fst cache)) eqn:Ee; [|destruct E as [_ E]; now specialize (E eq_refl)].
    cbn. f_equal. apply IH.
  - destruct E as [E _]. rewrite (E eq_refl). cbn. f_equal. apply (IH ((acc, lexer_for acc) :: cache)).
Qed.

Lemma sub_lexer_is_lexer_for (pstate : Type) (accepts : pstate -> list string) s :
  sub_lexer m cok pstate accepts terms ign always s = lexer_for (accepts s).
Proof. reflexivity. Qed.

End Shared.
