(* Every canonical LR(1) look-ahead is a look-ahead of the model of
   lalr_analysis.py.  The canonical LR(1) construction is specified inductively, path-wise
   (an item with look-ahead is valid for a symbol string g: initial item, goto, closure with
   FIRST of the remainder followed by the parent's look-ahead); the LALR(1) look-ahead set of a
   complete item in the LR(0) state q is the union over all g leading to q.  Invariant: a valid
   item [A -> alpha . beta, a] for g = delta alpha has a in Follow(goto*(0, delta), A); the
   closure step is DR/reads (FIRST of the remainder) or includes (nullable remainder), the
   final step is lookback. *)
From Coq Require Import List Arith Bool ZArith Lia.
From LV Require Import Cfg.Grammar LR.Driver LR.Driver_proofs LR.Automaton LR.Automaton_proofs
     LR.Automaton_wf LR.Automaton_la LR.Automaton_complete LR.La_complete LR.Lr1Merge.
Import ListNotations.

Section Spec.
  Variable rules : list rule.
  Variable r0 tEND : nat.
  Notation rule_at := (rule_at rules).
  Notation nullable := (nullable rules).

  Inductive first_sym : symbol -> nat -> Prop :=
  | fs_t t : first_sym (T t) t
  | fs_nt j pre Y post b :
      j < length rules -> rhs (rule_at j) = pre ++ Y :: post -> forallb nullable pre = true ->
      first_sym Y b -> first_sym (NT (lhs (rule_at j))) b.

  Definition first_str (ss : list symbol) (b : nat) : Prop :=
    exists pre Y post, ss = pre ++ Y :: post /\ forallb nullable pre = true /\ first_sym Y b.

  Lemma first_str_head Y rest b : first_sym Y b -> first_str (Y :: rest) b.
  Proof. intros H. exists [], Y, rest. auto. Qed.

  Lemma first_str_skip X rest b : nullable X = true -> first_str rest b -> first_str (X :: rest) b.
  Proof.
    intros HX (pre & Y & post & -> & Hnu & Hf). exists (X :: pre), Y, post. simpl. now rewrite HX.
  Qed.

  Lemma first_str_inv X rest b :
    first_str (X :: rest) b -> first_sym X b \/ (nullable X = true /\ first_str rest b).
  Proof.
    intros ([|p pre] & Y & post & E & Hnu & Hf); inversion E; subst; [now left|right].
    simpl in Hnu. apply andb_true_iff in Hnu. split; [tauto|]. exists pre, Y, post. tauto.
  Qed.

  Lemma first_sym_rule r b : In r rules -> first_str (rhs r) b -> first_sym (NT (lhs r)) b.
  Proof.
    intros Hr (pre & Y & post & E & Hnu & Hf). destruct (rule_index rules r Hr) as (j & Hj & <-).
    eapply fs_nt; eauto.
  Qed.

  (* canonical LR(1): [rule i, dot d, look-ahead a] is valid for the symbol string g *)
  Inductive lr1_valid : list symbol -> nat -> nat -> nat -> Prop :=
  | v_init : lr1_valid [] r0 0 tEND
  | v_goto g i d a X :
      lr1_valid g i d a -> nth_error (rhs (rule_at i)) d = Some X -> lr1_valid (g ++ [X]) i (S d) a
  | v_clos g i d a B j b :
      lr1_valid g i d a -> nth_error (rhs (rule_at i)) d = Some (NT B) ->
      j < length rules -> lhs (rule_at j) = B ->
      (first_str (skipn (S d) (rhs (rule_at i))) b \/
       (forallb nullable (skipn (S d) (rhs (rule_at i))) = true /\ b = a)) ->
      lr1_valid g j 0 b.
End Spec.

Section Sound.
  Variable rules : list rule.
  Variable tEND fuel : nat.
  Variable A : lr0.
  Variable r0 rootnt start : nat.
  Hypothesis HB : build_lr0 rules [r0] fuel = Some A.
  Hypothesis Hv : r0 < length rules.
  Hypothesis Hr0 : rule_at rules r0 = mkRule rootnt [NT start].

  Notation rule_at := (rule_at rules).
  Notation next_sym := (next_sym rules).
  Notation nts := (nt_transitions rules A).
  Notation ReadOf := (ReadOf rules tEND A r0).
  Notation FollowOf := (FollowOf rules tEND A r0).
  Notation first_sym := (first_sym rules).
  Notation first_str := (first_str rules).
  Notation lr1_valid := (lr1_valid rules r0 tEND).
  Notation goto_star := (goto_star A).
  Let ND := NoDup_one r0.

  (* reading over a nullable prefix.  [HY] says that [b] can be read once the dot stands before [Y]: read_first_sym
     passes its induction hypothesis for the body of a rule of [Y], read_first_str passes read_first_sym itself *)
  Lemma skip_nullable Y b i post
        (HY : forall p e, In (i, e) (closure_of A p) -> next_sym (i, e) = Some Y ->
                          forall x, In x nts -> trans A (fst x) (NT (snd x)) = Some p -> ReadOf x b) :
    forall pre p e, In (i, e) (closure_of A p) -> skipn e (rhs (rule_at i)) = pre ++ Y :: post ->
      forallb (nullable rules) pre = true ->
      forall x, In x nts -> trans A (fst x) (NT (snd x)) = Some p -> ReadOf x b.
  Proof.
    induction pre as [|N pre IH]; intros p e Hit Hsk Hnu x Hx Htx.
    - destruct (skipn_cons_inv _ _ _ _ Hsk) as (Hn & _). eapply HY; eauto.
    - simpl in Hsk. destruct (skipn_cons_inv _ _ _ _ Hsk) as (Hn & Hrest).
      simpl in Hnu. apply andb_true_iff in Hnu. destruct Hnu as (HnN & Hnu).
      destruct N as [t|c]; [discriminate|].
      assert (Hn' : next_sym (i, e) = Some (NT c)) by exact Hn.
      destruct (item_trans HB _ _ _ Hit Hn') as (p1 & Hp1).
      assert (Hy : In (p, c) nts) by (apply (nts_In HB); eauto).
      apply (read_reads rules tEND A r0 x (p, c)); auto.
      { apply reads_In. simpl. eauto. }
      apply (IH p1 (S e)); auto.
      eapply (item_advance HB ND); eauto.
  Qed.

  Lemma read_first_sym Y b : first_sym Y b ->
    forall p i e, In (i, e) (closure_of A p) -> next_sym (i, e) = Some Y ->
    forall x, In x nts -> trans A (fst x) (NT (snd x)) = Some p -> ReadOf x b.
  Proof.
    induction 1 as [t | j pre Y post b Hj Hr Hnu Hf IH]; intros p i e Hit Hn x Hx Htx.
    - apply (read_dr rules tEND A r0); auto. apply directly_reads_In. right. eauto.
    - assert (Hj0 : In (j, 0) (closure_of A p)) by (eapply (predicted rules fuel A r0 HB); eauto).
      apply (skip_nullable Y b j post (fun p' e' => IH p' j e') pre p 0); auto.
  Qed.

  Lemma read_first_str p i e b :
    In (i, e) (closure_of A p) -> first_str (skipn e (rhs (rule_at i))) b ->
    forall x, In x nts -> trans A (fst x) (NT (snd x)) = Some p -> ReadOf x b.
  Proof.
    intros Hit (pre & Y & post & Hsk & Hnu & Hf).
    apply (skip_nullable Y b i post (fun p' e' => read_first_sym Y b Hf p' i e') pre p e); auto.
  Qed.

  Definition inv (g : list symbol) (i d a : nat) : Prop :=
    (exists q, goto_star 0 g = Some q /\ In (i, d) (closure_of A q)) /\
    ((i = r0 /\ a = tEND /\ g = firstn d (rhs (rule_at r0))) \/
     (exists delta qo, g = delta ++ firstn d (rhs (rule_at i)) /\ goto_star 0 delta = Some qo /\
                       In (qo, lhs (rule_at i)) nts /\ In (i, 0) (closure_of A qo) /\
                       FollowOf (qo, lhs (rule_at i)) a)).

  Lemma valid_inv g i d a : lr1_valid g i d a -> inv g i d a.
  Proof.
    induction 1 as [| g i d a X Hval IH Hn | g i d a B j b Hval IH Hn Hj Hl Hb].
    - split.
      + exists 0. split; auto. apply (root_item0 HB).
      + left. auto.
    - destruct IH as ((q & Hg & Hit) & Hc).
      assert (Hn' : next_sym (i, d) = Some X) by exact Hn.
      destruct (item_trans HB _ _ _ Hit Hn') as (q' & Hq').
      split.
      + exists q'. split; [rewrite goto_star_app, Hg; simpl; now rewrite Hq'|].
        eapply (item_advance HB ND); eauto.
      + destruct Hc as [(-> & -> & ->)|(delta & qo & -> & Hgo & Hy & Hi0 & HF)].
        * left. repeat split; auto. now rewrite (firstn_S_nth_error _ _ _ Hn).
        * right. exists delta, qo. rewrite (firstn_S_nth_error _ _ _ Hn), app_assoc. auto.
    - destruct IH as ((q & Hg & Hit) & Hc).
      assert (Hn' : next_sym (i, d) = Some (NT B)) by exact Hn.
      assert (Hj0 : In (j, 0) (closure_of A q)) by (eapply (predicted rules fuel A r0 HB); eauto).
      split; [exists q; auto|]. right. exists g, q. rewrite Hl.
      assert (HyB : In (q, B) nts) by (apply (nts_In HB); eauto).
      split; [simpl; now rewrite app_nil_r|]. split; auto. split; auto. split; auto.
      destruct (item_trans HB _ _ _ Hit Hn') as (p & Hp).
      destruct Hb as [Hfs | (Hnu & ->)].
      + apply follow_read. apply (read_first_str p i (S d)); auto.
        eapply (item_advance HB ND); eauto.
      + destruct Hc as [(-> & -> & Eg)|(delta & qo & Eg & Hgo & Hy & Hi0 & HF)].
        * rewrite Hr0 in Hn. simpl in Hn. destruct d as [|[|d]]; simpl in Hn; try discriminate.
          inversion Hn as [EB]. rewrite Hr0 in Eg. simpl in Eg. subst g. simpl in Hg. inversion Hg; subst q.
          rewrite <- EB. exact (follow_root HB rootnt start Hr0).
        * apply (follow_includes rules tEND A r0 (q, B) (qo, lhs (rule_at i))); auto.
          apply includes_In. split; auto.
          exists i, (firstn d (rhs (rule_at i))), (skipn (S d) (rhs (rule_at i))).
          rewrite (start_items_In rules A). simpl. repeat split; auto.
          -- now apply split_at_nth.
          -- rewrite Eg, goto_star_app, Hgo in Hg. exact Hg.
  Qed.

  (* every canonical LR(1) look-ahead of a complete item of a non-root rule, for a path g leading
     to the LR(0) state q, is a look-ahead of the model *)
  Theorem lr1_subset_la g i a q :
    lr1_valid g i (length (rhs (rule_at i))) a -> i <> r0 -> goto_star 0 g = Some q ->
    In (q, a, i) (la_triples (compute_relations rules [r0] tEND A)).
  Proof.
    intros Hval Hne Hg. destruct (valid_inv _ _ _ _ Hval) as (_ & [(E & _)|(delta & qo & Eg & Hgo & Hy & Hi0 & HF)]).
    - contradiction.
    - apply (la_complete_reduce rules tEND fuel A r0 HB (qo, lhs (rule_at i)) i q a); auto.
      simpl. rewrite firstn_all in Eg. rewrite Eg, goto_star_app, Hgo in Hg. exact Hg.
  Qed.
End Sound.

Lemma item1_eqb_eq (a b : item1) : item1_eqb a b = true <-> a = b.
Proof.
  destruct a as ((i, d), t), b as ((j, e), u). simpl. rewrite !andb_true_iff, !Nat.eqb_eq.
  split; [intros ((-> & ->) & ->); auto | intros H; inversion H; auto].
Qed.

Lemma sort1_In x l : In x (sort1 l) <-> In x l.
Proof. apply (insertion_sort_In item1_eqb item1_ltb insert1); auto. intros a b. apply item1_eqb_eq. Qed.

Section Exec.
  Variable rules : list rule.
  Variable r0 tEND : nat.
  Notation rule_at := (rule_at rules).
  Notation first_sym := (first_sym rules).
  Notation first_str := (first_str rules).
  Notation lr1_valid := (lr1_valid rules r0 tEND).

  Definition tbl_sound (F : list (nat * list nat)) : Prop :=
    forall a b, In b (first_of F a) -> first_sym (NT a) b.

  Lemma first_seq_sound F : tbl_sound F -> forall ss b, In b (first_seq rules F ss) -> first_str ss b.
  Proof.
    intros HF. induction ss as [|X ss IH]; intros b Hb; cbn [first_seq] in Hb; [contradiction|].
    destruct X as [t|c].
    - destruct Hb as [<-|[]]. apply first_str_head. constructor.
    - apply in_app_iff in Hb. destruct Hb as [Hb|Hb].
      + apply first_str_head. now apply HF.
      + destruct (nullable rules (NT c)) eqn:En; [|contradiction]. apply first_str_skip; auto.
  Qed.

  Lemma first_step_sound F : tbl_sound F -> tbl_sound (first_step rules F).
  Proof.
    intros HF a b Hb. unfold first_of, first_step in Hb. apply in_flat_map in Hb.
    destruct Hb as ((a', l) & Hin & Hb). simpl in Hb. destruct (Nat.eqb_spec a' a); [|contradiction]. subst a'.
    apply in_map_iff in Hin. destruct Hin as (a0 & E & _). inversion E; subst a0 l.
    apply (proj1 (dedup_nat_In _ _)) in Hb. apply in_flat_map in Hb. destruct Hb as (r & Hr & Hb).
    destruct (Nat.eqb_spec (lhs r) a); [|contradiction].
    subst a. apply first_sym_rule; auto. eapply first_seq_sound; eauto.
  Qed.

  Lemma first_tbl_sound : tbl_sound (first_tbl rules).
  Proof.
    unfold first_tbl.
    assert (G : forall n F, tbl_sound F -> tbl_sound (iter n (first_step rules) F)).
    { induction n; simpl; auto. intros F HF. apply IHn. now apply first_step_sound. }
    apply G. intros a b Hb. unfold first_of in Hb. apply in_flat_map in Hb.
    destruct Hb as ((a', l) & Hin & Hb). apply in_map_iff in Hin. destruct Hin as (a0 & E & _).
    inversion E; subst. simpl in Hb. destruct (Nat.eqb a' a); contradiction.
  Qed.

  Lemma first_str_snoc rest a b :
    first_str (rest ++ [T a]) b ->
    first_str rest b \/ (forallb (nullable rules) rest = true /\ b = a).
  Proof.
    induction rest as [|X rest IH]; simpl; intros H; apply first_str_inv in H.
    - right. destruct H as [H|(H & _)]; [now inversion H|discriminate].
    - destruct H as [H|(HX & H)]; [left; now apply first_str_head|].
      destruct (IH H) as [H'|(Hn & ->)]; [left; now apply first_str_skip|right].
      now rewrite HX.
  Qed.

  Definition all_valid (g : list symbol) (J : list item1) : Prop :=
    forall i d a, In (i, d, a) J -> lr1_valid g i d a.

  Section WithF.
    Variable F : list (nat * list nat).
    Hypothesis HF : tbl_sound F.

    Lemma predict_valid g it : (let '(i, d, a) := it in lr1_valid g i d a) ->
      all_valid g (predict rules F it).
    Proof.
      destruct it as ((i, d), a). intros Hv j e b Hin. unfold predict in Hin.
      destruct (nth_error (rhs (rule_at i)) d) as [[t|B]|] eqn:En; try contradiction.
      apply in_flat_map in Hin. destruct Hin as (j' & Hj' & Hin). apply in_seq in Hj'.
      destruct (Nat.eqb_spec (lhs (rule_at j')) B); [|contradiction].
      apply in_map_iff in Hin. destruct Hin as (t & E & Ht). inversion E; subst j e b.
      apply (proj1 (dedup_nat_In _ _)) in Ht.
      eapply v_clos; eauto; [lia|].
      apply first_str_snoc. eapply first_seq_sound; eauto.
    Qed.

    Lemma closure1_step_valid g J : all_valid g J -> all_valid g (closure1_step rules F J).
    Proof.
      intros HJ i d a Hin. unfold closure1_step in Hin. apply sort1_In, in_app_iff in Hin.
      destruct Hin as [Hin|Hin]; auto. apply in_flat_map in Hin. destruct Hin as (((i', d'), a') & Hit & Hin).
      apply (predict_valid g (i', d', a') (HJ _ _ _ Hit) _ _ _ Hin).
    Qed.

    Lemma closure1_valid g K : all_valid g K -> all_valid g (closure1 rules F K).
    Proof.
      intros HK. unfold closure1.
      assert (G : forall n J, all_valid g J -> all_valid g (closure1_fix rules n F J)).
      { induction n; simpl; auto. intros J HJ. pose proof (closure1_step_valid g J HJ).
        destruct (Nat.eqb _ _); auto. }
      apply G. intros i d a Hin. apply (proj1 (sort1_In _ _)) in Hin. auto.
    Qed.

    Lemma goto1_valid g J X : all_valid g J -> all_valid (g ++ [X]) (goto1 rules F J X).
    Proof.
      intros HJ. unfold goto1. apply closure1_valid. intros i d a Hin.
      apply in_flat_map in Hin. destruct Hin as (((i', d'), a') & Hit & Hin). simpl in Hin.
      destruct (nth_error (rhs (rule_at i')) d') as [Y|] eqn:En; [|contradiction].
      destruct (symbol_eqb_spec X Y); [|contradiction]. subst Y. destruct Hin as [E|[]]. inversion E; subst.
      eapply v_goto; eauto.
    Qed.

    Lemma add_new1_sub ks : forall seen K, In K (add_new1 ks seen) -> In K ks.
    Proof.
      induction ks as [|K0 ks IH]; intros seen K H; simpl in H; [contradiction|].
      destruct (existsb (state1_eqb K0) seen).
      - right. eauto.
      - destruct H as [<-|H]; [now left|right; eauto].
    Qed.

    Lemma bfs1_valid fuel : forall work seen S1,
      bfs1 rules fuel F work seen = Some S1 -> incl work seen ->
      (forall J, In J seen -> exists g, all_valid g J) ->
      forall J, In J S1 -> exists g, all_valid g J.
    Proof.
      induction fuel; intros work seen S1 H HI Inv J HJ; simpl in H.
      - destruct work; [|discriminate]. inversion H; subst. auto.
      - destruct work as [|J0 work'].
        + inversion H; subst. auto.
        + apply (IHfuel _ _ _ H); auto.
          * intros x Hx. apply in_app_iff in Hx. apply in_app_iff. destruct Hx as [Hx|Hx]; auto.
            left. apply HI. now right.
          * intros J1 HJ1. apply in_app_iff in HJ1. destruct HJ1 as [HJ1|HJ1]; auto.
            apply add_new1_sub in HJ1. apply in_map_iff in HJ1. destruct HJ1 as (X & <- & _).
            destruct (Inv J0 (HI J0 (or_introl eq_refl))) as (g & Hg).
            exists (g ++ [X]). now apply goto1_valid.
    Qed.
  End WithF.

  Theorem states1_valid fuel S1 J :
    states1 rules r0 tEND fuel = Some S1 -> In J S1 -> exists g, all_valid g J.
  Proof.
    unfold states1. intros H HJ.
    apply (bfs1_valid (first_tbl rules) first_tbl_sound fuel _ _ _ H (incl_refl _)); auto.
    intros J' [<-|[]]. exists []. apply closure1_valid; [apply first_tbl_sound|].
    intros i d a [E|[]]. inversion E; subst. constructor.
  Qed.
End Exec.

(* the executable canonical LR(1) states: every look-ahead of a complete item of a non-root rule
   is a look-ahead of the model at the LR(0) state reached by the same symbol string *)
Theorem exec_lr1_subset_la rules tEND fuel A r0 rootnt start fuel1 S1 J :
  build_lr0 rules [r0] fuel = Some A -> r0 < length rules ->
  rule_at rules r0 = mkRule rootnt [NT start] ->
  states1 rules r0 tEND fuel1 = Some S1 -> In J S1 ->
  exists g, forall i a, In (i, length (rhs (rule_at rules i)), a) J -> i <> r0 ->
    exists q, goto_star A 0 g = Some q /\
              (forall it, In it J -> In (fst it) (closure_of A q)) /\
              In (q, a, i) (la_triples (compute_relations rules [r0] tEND A)).
Proof.
  intros HB Hv Hr0 HS HJ. destruct (states1_valid rules r0 tEND fuel1 S1 J HS HJ) as (g & Hg).
  exists g. intros i a Hin Hne.
  pose proof (Hg _ _ _ Hin) as Hval.
  destruct (valid_inv rules tEND fuel A r0 rootnt start HB Hr0 _ _ _ _ Hval) as ((q & Hq & _) & _).
  exists q. split; auto. split.
  - intros ((i', d'), a') Hit. simpl.
    destruct (valid_inv rules tEND fuel A r0 rootnt start HB Hr0 _ _ _ _ (Hg _ _ _ Hit)) as ((q' & Hq' & Hit') & _).
    congruence.
  - eapply lr1_subset_la; eauto.
Qed.
