(* Proofs about Forest/Prio.v: ForestSumVisitor computes the maximum total priority, the
   resolve-mode transformer returns a derivation that is lexicographically optimal for
   PackedNode.sort_key, hence priority-optimal where emptiness is uniform. *)
From Coq Require Import ZArith List Bool String Lia ZifyBool.
From LV Require Import Forest.Sppf Forest.Sppf_proofs Gen.ForestSortKey Forest.Prio.
Import ListNotations.
Local Open Scope Z_scope.

Lemma hd_error_map {A B} (f : A -> B) l : hd_error (map f l) = option_map f (hd_error l).
Proof. destruct l; reflexivity. Qed.

Lemma fold_right_add_app {A} (g : A -> Z) a b :
  fold_right (fun x acc => g x + acc) 0 (a ++ b)
  = fold_right (fun x acc => g x + acc) 0 a + fold_right (fun x acc => g x + acc) 0 b.
Proof. induction a as [|x a IH]; cbn [app fold_right]; [reflexivity|]. rewrite IH. apply Z.add_assoc. Qed.

Lemma forallb_map_ext {A} (m : A -> A) (f h : A -> bool) l :
  Forall (fun a => f (m a) = h a) l -> forallb f (map m l) = forallb h l.
Proof. induction 1 as [|a r Ha _ IH]; [reflexivity|]. cbn. rewrite Ha, IH. reflexivity. Qed.

Lemma fold_select_spec (op : Z -> Z -> Z) (R : Z -> Z -> Prop) :
  (forall x a, (op x a = x \/ op x a = a) /\ R x (op x a) /\ R a (op x a)) ->
  (forall x y z, R x y -> R y z -> R x z) -> (forall x, R x x) ->
  forall r x, In (fold_left op r x) (x :: r) /\ forall y, In y (x :: r) -> R y (fold_left op r x).
Proof.
  intros Hop Htr Hrefl. induction r as [|a r IH]; intros x; cbn [fold_left].
  - split; [left; reflexivity|]. intros y [->|[]]. apply Hrefl.
  - destruct (IH (op x a)) as [Hin Hub]. destruct (Hop x a) as [Hsel [Hx Ha]]. split.
    + destruct Hin as [H|H]; [|right; right; exact H].
      rewrite <- H. destruct Hsel as [->| ->]; [left|right; left]; reflexivity.
    + intros y [->|[->|Hy]].
      * exact (Htr _ _ _ Hx (Hub _ (or_introl eq_refl))).
      * exact (Htr _ _ _ Ha (Hub _ (or_introl eq_refl))).
      * apply Hub. right. exact Hy.
Qed.

Lemma fold_max_spec r x :
  In (fold_left Z.max r x) (x :: r) /\ forall y, In y (x :: r) -> y <= fold_left Z.max r x.
Proof. apply (fold_select_spec Z.max Z.le); intros; lia. Qed.

Lemma fold_min_spec r x :
  In (fold_left Z.min r x) (x :: r) /\ forall y, In y (x :: r) -> fold_left Z.min r x <= y.
Proof. apply (fold_select_spec Z.min (fun a b => b <= a)); intros; lia. Qed.

Definition is_max (m : Z) (l : list Z) : Prop := In m l /\ forall y, In y l -> y <= m.
Definition is_min (m : Z) (l : list Z) : Prop := In m l /\ forall y, In y l -> m <= y.

Lemma zmax_list_is_max l : l <> [] -> is_max (zmax_list l) l.
Proof. destruct l as [|x r]; [congruence|]. intros _. exact (fold_max_spec r x). Qed.
Lemma zmin_list_is_min l : l <> [] -> is_min (zmin_list l) l.
Proof. destruct l as [|x r]; [congruence|]. intros _. exact (fold_min_spec r x). Qed.

Lemma is_max_unique m m' l : is_max m l -> is_max m' l -> m = m'.
Proof. intros [H1 H2] [H3 H4]. specialize (H2 _ H3). specialize (H4 _ H1). lia. Qed.
Lemma is_min_unique m m' l : is_min m l -> is_min m' l -> m = m'.
Proof. intros [H1 H2] [H3 H4]. specialize (H2 _ H3). specialize (H4 _ H1). lia. Qed.

Lemma is_max_eq m l : is_max m l -> zmax_list l = m.
Proof.
  intros H. apply (is_max_unique _ _ l); [|exact H]. apply zmax_list_is_max.
  destruct H as [H _]. destruct l; [destruct H|congruence].
Qed.
Lemma is_min_eq m l : is_min m l -> zmin_list l = m.
Proof.
  intros H. apply (is_min_unique _ _ l); [|exact H]. apply zmin_list_is_min.
  destruct H as [H _]. destruct l; [destruct H|congruence].
Qed.

Lemma is_max_map {A} (f : A -> Z) D m :
  is_max m (map f D) <-> (exists d, In d D /\ f d = m) /\ (forall d, In d D -> f d <= m).
Proof.
  unfold is_max. rewrite in_map_iff. split; intros [[d [H1 H2]] Hub]; (split; [exists d; auto|]).
  - intros d' Hd. apply Hub, in_map, Hd.
  - intros y Hy. apply in_map_iff in Hy. destruct Hy as [d' [<- Hd]]. apply Hub, Hd.
Qed.

Lemma zcombine_is_max l : zcombine_list l = zmax_list l.
Proof. reflexivity. Qed.

Lemma is_max_opp m l : is_min m l -> is_max (- m) (map Z.opp l).
Proof.
  intros [H1 H2]. split.
  - apply in_map. exact H1.
  - intros y Hy. apply in_map_iff in Hy. destruct Hy as [x [<- Hx]]. specialize (H2 _ Hx). lia.
Qed.

Lemma zmax_list_opp l : l <> [] -> zmax_list (map Z.opp l) = - zmin_list l.
Proof. intros H. apply is_max_eq, is_max_opp, zmin_list_is_min, H. Qed.

Definition kle (a b : key) : bool := negb (klt b a).

Lemma klt_irrefl a : klt a a = false.
Proof. destruct a as [[a1 a2] a3]. unfold klt. lia. Qed.
Lemma kle_refl a : kle a a = true.
Proof. unfold kle. rewrite klt_irrefl. reflexivity. Qed.
Lemma kle_trans a b c : kle a b = true -> kle b c = true -> kle a c = true.
Proof. destruct a as [[a1 a2] a3], b as [[b1 b2] b3], c as [[c1 c2] c3]. unfold kle, klt. lia. Qed.
Lemma klt_kle a b : klt a b = true -> kle a b = true.
Proof. destruct a as [[a1 a2] a3], b as [[b1 b2] b3]. unfold kle, klt. lia. Qed.
Lemma kle_total a b : kle a b = false -> klt b a = true.
Proof. unfold kle. destruct (klt b a); cbn; congruence. Qed.
Lemma kle_antisym a b : kle a b = true -> kle b a = true -> a = b.
Proof.
  destruct a as [[a1 a2] a3], b as [[b1 b2] b3]. unfold kle, klt. intros H1 H2.
  assert (a1 = b1 /\ a2 = b2 /\ a3 = b3) as [-> [-> ->]] by lia. reflexivity.
Qed.

(* what the regenerated tuple means: non-empty before empty, then greater priority, then
   smaller rule order *)
Lemma sort_key_lt e1 p1 o1 e2 p2 o2 :
  klt (sort_key e1 p1 o1) (sort_key e2 p2 o2) = true <->
  (e1 = false /\ e2 = true) \/ (e1 = e2 /\ (p1 > p2 \/ (p1 = p2 /\ o1 < o2))).
Proof. unfold sort_key, klt. destruct e1, e2; cbn [Z.b2z]; split; intros H; lia. Qed.

Lemma sort_key_le e1 p1 o1 e2 p2 o2 :
  kle (sort_key e1 p1 o1) (sort_key e2 p2 o2) = true <->
  (e1 = false /\ e2 = true) \/ (e1 = e2 /\ (p1 > p2 \/ (p1 = p2 /\ o1 <= o2))).
Proof. unfold sort_key, kle, klt. destruct e1, e2; cbn [Z.b2z]; split; intros H; lia. Qed.

Fixpoint best_by {A} (k : A -> key) (l : list A) : option A :=
  match l with
  | [] => None
  | x :: r => match best_by k r with
              | None => Some x
              | Some y => if klt (k y) (k x) then Some y else Some x
              end
  end.

Lemma hd_kinsert {A} (x : key * A) l :
  hd_error (kinsert x l) =
  match hd_error l with None => Some x | Some y => if klt (fst y) (fst x) then Some y else Some x end.
Proof. destruct l as [|y r]; cbn; [reflexivity|]. destruct (klt (fst y) (fst x)); reflexivity. Qed.

Lemma hd_ksort {A} (l : list (key * A)) : hd_error (ksort l) = kbest l.
Proof.
  induction l as [|x r IH]; [reflexivity|].
  unfold ksort in *. cbn [fold_right kbest]. rewrite hd_kinsert, IH. reflexivity.
Qed.

Lemma kbest_map {A B} (k : A -> key) (f : A -> B) l :
  kbest (map (fun a => (k a, f a)) l) = option_map (fun a => (k a, f a)) (best_by k l).
Proof.
  induction l as [|x r IH]; [reflexivity|]. cbn [map kbest best_by]. rewrite IH.
  destruct (best_by k r) as [y|]; cbn; [|reflexivity]. destruct (klt (k y) (k x)); reflexivity.
Qed.

(* the first of [sorted(l, key=k)], read through [f] *)
Lemma hd_sorted {A B} (k : A -> key) (f : A -> B) l :
  hd_error (map snd (ksort (map (fun a => (k a, f a)) l))) = option_map f (best_by k l).
Proof. rewrite hd_error_map, hd_ksort, kbest_map. destruct (best_by k l); reflexivity. Qed.

Lemma best_by_none {A} (k : A -> key) l : best_by k l = None -> l = [].
Proof.
  destruct l as [|x r]; [reflexivity|]. cbn. destruct (best_by k r); [|congruence].
  destruct (klt _ _); congruence.
Qed.

Lemma best_by_spec {A} (k : A -> key) l b :
  best_by k l = Some b ->
  exists l1 l2, l = l1 ++ b :: l2 /\
                (forall y, In y l1 -> klt (k b) (k y) = true) /\
                (forall y, In y l2 -> kle (k b) (k y) = true).
Proof.
  revert b. induction l as [|x r IH]; intros b; cbn [best_by]; [congruence|].
  destruct (best_by k r) as [y|] eqn:E.
  - destruct (IH y eq_refl) as [l1 [l2 [-> [H1 H2]]]].
    destruct (klt (k y) (k x)) eqn:Elt; intros [= <-].
    + exists (x :: l1), l2. split; [reflexivity|]. split; [|exact H2].
      intros z [<-|Hz]; [exact Elt|apply H1; exact Hz].
    + exists [], (l1 ++ y :: l2). split; [reflexivity|]. split; [intros z []|].
      assert (Hxy : kle (k x) (k y) = true) by (unfold kle; rewrite Elt; reflexivity).
      intros z Hz. apply in_app_or in Hz. destruct Hz as [Hz|[<-|Hz]].
      * apply (kle_trans _ (k y)); [exact Hxy|]. apply klt_kle. apply H1. exact Hz.
      * exact Hxy.
      * apply (kle_trans _ (k y)); [exact Hxy|]. apply H2. exact Hz.
  - apply best_by_none in E. subst r. intros [= <-]. exists [], []. split; [reflexivity|].
    split; intros z [].
Qed.

Lemma best_by_in {A} (k : A -> key) l b : best_by k l = Some b -> In b l.
Proof.
  intros H. destruct (best_by_spec k l b H) as [l1 [l2 [-> _]]]. apply in_or_app. right. left. reflexivity.
Qed.

Lemma best_by_least {A} (k : A -> key) l b y : best_by k l = Some b -> In y l -> kle (k b) (k y) = true.
Proof.
  intros H Hy. destruct (best_by_spec k l b H) as [l1 [l2 [-> [H1 H2]]]].
  apply in_app_or in Hy. destruct Hy as [Hy|[<-|Hy]].
  - apply klt_kle. apply H1. exact Hy.
  - apply kle_refl.
  - apply H2. exact Hy.
Qed.

Lemma best_by_max {A} (e : A -> bool) (p o : A -> Z) l b :
  (forall x y, In x l -> In y l -> e x = e y) ->
  best_by (fun a => sort_key (e a) (p a) (o a)) l = Some b -> is_max (p b) (map p l).
Proof.
  intros Hu Hb. pose proof (best_by_in _ _ _ Hb) as Hin. split; [apply in_map; exact Hin|].
  intros y Hy. apply in_map_iff in Hy. destruct Hy as [q [<- Hq]].
  pose proof (best_by_least _ _ _ q Hb Hq) as Hle. cbv beta in Hle. apply sort_key_le in Hle.
  rewrite (Hu b q Hin Hq) in Hle. destruct Hle as [[H1 H2]|[_ H]]; [congruence|lia].
Qed.

Lemma best_by_map {A B} (k : B -> key) (m : A -> B) l :
  best_by k (map m l) = option_map m (best_by (fun a => k (m a)) l).
Proof.
  induction l as [|x r IH]; [reflexivity|]. cbn [map best_by]. rewrite IH.
  destruct (best_by _ r) as [y|]; cbn; [|reflexivity]. destruct (klt _ _); reflexivity.
Qed.

Lemma best_by_ext {A} (k k' : A -> key) l : (forall a, In a l -> k a = k' a) -> best_by k l = best_by k' l.
Proof.
  induction l as [|x r IH]; intros H; [reflexivity|]. cbn [best_by].
  rewrite IH by (intros a Ha; apply H; right; exact Ha).
  destruct (best_by k' r) as [y|] eqn:E; [|reflexivity].
  rewrite (H x (or_introl eq_refl)), (H y); [reflexivity|]. right. apply (best_by_in k' r). exact E.
Qed.

Lemma kinsert_in {A} (x y : key * A) l : In y (kinsert x l) <-> y = x \/ In y l.
Proof.
  induction l as [|z r IH]; cbn; [intuition congruence|].
  destruct (klt (fst z) (fst x)); cbn; rewrite ?IH; intuition congruence.
Qed.
Lemma ksort_in {A} (y : key * A) l : In y (ksort l) <-> In y l.
Proof.
  induction l as [|x r IH]; [reflexivity|]. unfold ksort in *. cbn [fold_right].
  rewrite kinsert_in, IH. cbn. intuition congruence.
Qed.
Lemma ksort_snd_in {A B} (k : A -> key) (f : A -> B) l y :
  In y (map snd (ksort (map (fun a => (k a, f a)) l))) <-> In y (map f l).
Proof.
  rewrite !in_map_iff. split.
  - intros [[kk z] [<- H]]. apply (proj1 (ksort_in _ _)), in_map_iff in H. destruct H as [a [[= _ <-] Ha]].
    exists a. split; [reflexivity|exact Ha].
  - intros [a [<- Ha]]. exists (k a, f a). split; [reflexivity|]. apply ksort_in, (in_map (fun a => (k a, f a))). exact Ha.
Qed.
Lemma kinsert_length {A} (x : key * A) l : List.length (kinsert x l) = S (List.length l).
Proof. induction l as [|z r IH]; cbn; [reflexivity|]. destruct (klt _ _); cbn; rewrite ?IH; reflexivity. Qed.
Lemma ksort_length {A} (l : list (key * A)) : List.length (ksort l) = List.length l.
Proof. induction l as [|x r IH]; [reflexivity|]. unfold ksort in *. cbn [fold_right]. rewrite kinsert_length, IH. reflexivity. Qed.

Lemma fprio_app a b : fprio (a ++ b) = fprio a + fprio b.
Proof. apply fold_right_add_app. Qed.

(* what a family contributes to its parent: the children list below an intermediate
   parent, a tree for the family's rule below a completed symbol *)
Definition wrap (inter : bool) (p : packed) (d : dforest) : dforest :=
  if inter then d else [DNode (p_rule p) d].

Lemma derivs_sym l fams :
  derivs (Sym l fams) = flat_map (fun p => map (wrap (l_inter l) p) (derivs_p p)) fams.
Proof.
  cbn [derivs]. unfold wrap. destruct (l_inter l); [|reflexivity].
  induction fams as [|p r IH]; [reflexivity|]. cbn [flat_map]. rewrite IH, map_id. reflexivity.
Qed.

Definition rule_part (inter : bool) (p : packed) : Z := if inter then 0 else rp (p_rule p).

Lemma fprio_wrap inter p d : fprio (wrap inter p d) = rule_part inter p + fprio d.
Proof.
  unfold wrap, rule_part. destruct inter; cbv beta iota; [lia|]. unfold fprio. cbn [fold_right prio]. lia.
Qed.

Definition sv_o (o : option sym) : Z := match o with None => 0 | Some s => sv s end.

Lemma sv_p_eq inter p : sv_p inter p = rule_part inter p + (sv_o (p_right p) + sv_o (p_left p)).
Proof.
  destruct p as [r lft rgt]. cbn [sv_p p_right p_left p_rule].
  change (match rgt with Some s => sv s | None => 0 end) with (sv_o rgt).
  change (match lft with Some s => sv s | None => 0 end) with (sv_o lft).
  generalize (sv_o rgt) (sv_o lft). intros a b.
  unfold rule_part, rule_prio_counts. cbn [p_rule].
  destruct inter; cbn [negb andb]; [lia|].
  unfold truthy, rp. destruct (r_prio r) as [z|]; [|lia].
  destruct (z =? 0) eqn:E; cbn [negb]; lia.
Qed.

Lemma sv_sym l fams : sv (Sym l fams) = zmax_list (map (sv_p (l_inter l)) fams).
Proof. rewrite <- zcombine_is_max. reflexivity. Qed.

Lemma is_max_opt o : (forall s, o = Some s -> wfb s = true -> is_max (sv s) (map fprio (derivs s))) ->
  (forall s, o = Some s -> wfb s = true) -> is_max (sv_o o) (map fprio (derivs_o o)).
Proof.
  intros IH Hwf. destruct o as [s|]; cbn [derivs_o sv_o].
  - apply IH; [reflexivity|]. apply Hwf. reflexivity.
  - split; [left; reflexivity|]. intros y [<-|[]]. cbn. lia.
Qed.

Lemma is_max_cross L R a b :
  is_max a (map fprio L) -> is_max b (map fprio R) -> is_max (b + a) (map fprio (cross L R)).
Proof.
  rewrite !is_max_map. intros [[dl [Hdl Hal]] HL] [[dr [Hdr Hbr]] HR]. split.
  - exists (dl ++ dr). split; [apply in_cross; assumption|]. rewrite fprio_app. lia.
  - intros d Hd. apply in_cross_inv in Hd. destruct Hd as [l [r [-> [Hl Hr]]]].
    rewrite fprio_app. specialize (HL _ Hl). specialize (HR _ Hr). lia.
Qed.

Lemma is_max_sym inter fams :
  fams <> [] ->
  Forall (fun p => is_max (sv_o (p_right p) + sv_o (p_left p)) (map fprio (derivs_p p))) fams ->
  is_max (zmax_list (map (sv_p inter) fams))
         (map fprio (flat_map (fun p => map (wrap inter p) (derivs_p p)) fams)).
Proof.
  intros Hne Hall. rewrite Forall_forall in Hall.
  destruct (zmax_list_is_max (map (sv_p inter) fams)) as [Hin Hub].
  { destruct fams; [congruence|discriminate]. }
  apply is_max_map. split.
  - apply in_map_iff in Hin. destruct Hin as [p [Hp Hpin]].
    destruct (proj1 (is_max_map _ _ _) (Hall p Hpin)) as [[d [Hd Hdv]] _].
    exists (wrap inter p d). split.
    + apply in_flat_map. exists p. split; [exact Hpin|]. apply in_map. exact Hd.
    + rewrite fprio_wrap, Hdv, <- Hp, sv_p_eq. reflexivity.
  - intros d Hd. apply in_flat_map in Hd. destruct Hd as [p [Hpin Hd]].
    apply in_map_iff in Hd. destruct Hd as [d0 [<- Hd0]].
    destruct (proj1 (is_max_map _ _ _) (Hall p Hpin)) as [_ Hb]. specialize (Hb _ Hd0).
    specialize (Hub (sv_p inter p) (in_map _ _ _ Hpin)).
    rewrite fprio_wrap. rewrite sv_p_eq in Hub. lia.
Qed.

Lemma sum_visitor_max :
  (forall s, wfb s = true -> is_max (sv s) (map fprio (derivs s))) /\
  (forall p, wfb_p p = true -> is_max (sv_o (p_right p) + sv_o (p_left p)) (map fprio (derivs_p p))).
Proof.
  apply sym_packed_ind.
  - intros a b c _. cbn [derivs sv]. split; [left; cbn; lia|]. intros y [<-|[]]. cbn. lia.
  - intros l fams IH Hwf. apply wfb_sym in Hwf. destruct Hwf as [Hne Hwf].
    rewrite derivs_sym, sv_sym. apply is_max_sym; [exact Hne|].
    rewrite Forall_forall in *. intros p Hp. apply IH; [exact Hp|]. apply Hwf. exact Hp.
  - intros r lft rgt IHl IHr Hwf. apply wfb_pack in Hwf. destruct Hwf as [Hwl Hwr].
    rewrite derivs_pack. cbn [p_right p_left]. apply is_max_cross; apply is_max_opt; assumption.
Qed.

Lemma derivs_p_nonempty p : wfb_p p = true -> derivs_p p <> [].
Proof.
  intros H. destruct (proj2 sum_visitor_max p H) as [Hd _]. destruct (derivs_p p); [destruct Hd|congruence].
Qed.

(* ForestSumVisitor: the priority of a node is the maximum total priority of its derivations *)
Theorem sum_visitor_is_max s :
  wfb s = true -> derivs s <> [] /\ sv s = zmax_list (map fprio (derivs s)).
Proof.
  intros Hwf. destruct sum_visitor_max as [H _]. specialize (H s Hwf). split.
  - destruct H as [Hd _]. destruct (derivs s); [destruct Hd|congruence].
  - symmetry. apply is_max_eq. exact H.
Qed.

Theorem sum_visitor_packed inter p :
  wfb_p p = true ->
  sv_p inter p = rule_part inter p + zmax_list (map fprio (derivs_p p)).
Proof.
  intros Hwf. destruct sum_visitor_max as [_ H]. specialize (H p Hwf).
  rewrite sv_p_eq. f_equal. symmetry. apply is_max_eq. exact H.
Qed.

Lemma resolve_with_sym keyf l fams :
  resolve_with keyf (Sym l fams) =
  match best_by (keyf (l_inter l)) fams with
  | None => []
  | Some p => wrap (l_inter l) p (resolve_with_p keyf p)
  end.
Proof.
  pose proof (hd_sorted (keyf (l_inter l)) (fun p => wrap (l_inter l) p (resolve_with_p keyf p)) fams) as H.
  change (resolve_with keyf (Sym l fams)) with
    (match ksort (map (fun p => (keyf (l_inter l) p, wrap (l_inter l) p (resolve_with_p keyf p))) fams)
     with [] => [] | (_, t) :: _ => t end).
  destruct (ksort _) as [|[k t] L], (best_by _ fams); cbn in H; congruence.
Qed.

Lemma resolve_with_pack keyf r lft rgt :
  resolve_with_p keyf (Pack r lft rgt) =
  (match lft with None => [] | Some s => resolve_with keyf s end)
  ++ (match rgt with None => [] | Some s => resolve_with keyf s end).
Proof. reflexivity. Qed.

Lemma chosen_sym l fams : chosen (Sym l fams) = best_by (pkey (l_inter l)) fams.
Proof.
  cbn [chosen]. unfold children_sorted. rewrite hd_sorted. destruct (best_by _ fams); reflexivity.
Qed.

Theorem resolve_unfold l fams :
  resolve (Sym l fams) =
  match chosen (Sym l fams) with
  | None => []
  | Some p => wrap (l_inter l) p (resolve_p p)
  end.
Proof. rewrite chosen_sym. apply resolve_with_sym. Qed.

Theorem resolve_p_unfold r lft rgt :
  resolve_p (Pack r lft rgt) =
  (match lft with None => [] | Some s => resolve s end) ++ (match rgt with None => [] | Some s => resolve s end).
Proof. reflexivity. Qed.

(* At every symbol node the family kept is the least for sort_key, and the first such in
   insertion order. *)
Theorem resolve_lex_optimal l fams p :
  chosen (Sym l fams) = Some p ->
  exists before after, fams = before ++ p :: after /\
    (forall q, In q before -> klt (pkey (l_inter l) p) (pkey (l_inter l) q) = true) /\
    (forall q, In q after -> kle (pkey (l_inter l) p) (pkey (l_inter l) q) = true).
Proof. rewrite chosen_sym. apply best_by_spec. Qed.

Lemma chosen_some l fams : fams <> [] -> exists p, chosen (Sym l fams) = Some p.
Proof.
  intros H. rewrite chosen_sym. destruct (best_by _ fams) eqn:E; [eauto|].
  apply best_by_none in E. congruence.
Qed.

Lemma resolve_with_in keyf :
  (forall s, wfb s = true -> In (resolve_with keyf s) (derivs s)) /\
  (forall p, wfb_p p = true -> In (resolve_with_p keyf p) (derivs_p p)).
Proof.
  apply sym_packed_ind.
  - intros a b c _. left. reflexivity.
  - intros l fams IH Hwf. apply wfb_sym in Hwf. destruct Hwf as [Hne Hwf].
    rewrite resolve_with_sym, derivs_sym.
    destruct (best_by (keyf (l_inter l)) fams) as [p|] eqn:E.
    + pose proof (best_by_in _ _ _ E) as Hp. apply in_flat_map. exists p. split; [exact Hp|].
      apply in_map. rewrite Forall_forall in *. apply IH; [exact Hp|]. apply Hwf. exact Hp.
    + apply best_by_none in E. congruence.
  - intros r lft rgt IHl IHr Hwf. apply wfb_pack in Hwf. destruct Hwf as [Hwl Hwr].
    rewrite resolve_with_pack, derivs_pack. apply in_cross.
    + destruct lft as [s|]; [|left; reflexivity]. apply IHl; [reflexivity|]. apply Hwl. reflexivity.
    + destruct rgt as [s|]; [|left; reflexivity]. apply IHr; [reflexivity|]. apply Hwr. reflexivity.
Qed.

Theorem resolve_in_derivs s : wfb s = true -> In (resolve s) (derivs s).
Proof. apply (proj1 (resolve_with_in pkey)). Qed.
Theorem resolve_none_in_derivs s : wfb s = true -> In (resolve_none s) (derivs s).
Proof. apply (proj1 (resolve_with_in (fun _ => pkey_none))). Qed.

Lemma uniformb_eq fams : uniformb fams = true -> forall p q, In p fams -> In q fams -> is_empty p = is_empty q.
Proof.
  unfold uniformb. intros H p q Hp Hq. apply orb_true_iff in H. destruct H as [H|H];
    rewrite forallb_forall in H; pose proof (H _ Hp) as H1; pose proof (H _ Hq) as H2.
  - destruct (is_empty p), (is_empty q); cbn in *; congruence.
  - congruence.
Qed.

Lemma uniform_sym l fams : uniform_emptyb (Sym l fams) = true ->
  uniformb fams = true /\ Forall (fun p => uniform_emptyb_p p = true) fams.
Proof.
  cbn [uniform_emptyb]. intros H. apply andb_true_iff in H. destruct H as [H1 H2]. split; [exact H1|].
  apply Forall_forall. apply forallb_forall. exact H2.
Qed.

Lemma uniform_pack r lft rgt : uniform_emptyb_p (Pack r lft rgt) = true ->
  (forall s, lft = Some s -> uniform_emptyb s = true) /\ (forall s, rgt = Some s -> uniform_emptyb s = true).
Proof.
  cbn [uniform_emptyb_p]. intros H. apply andb_true_iff in H. destruct H as [H1 H2].
  split; intros s ->; assumption.
Qed.

Lemma chosen_max inter fams p :
  uniformb fams = true -> best_by (pkey inter) fams = Some p ->
  is_max (sv_p inter p) (map (sv_p inter) fams).
Proof. intros Hu. apply (best_by_max is_empty). exact (uniformb_eq fams Hu). Qed.

Lemma resolve_optimal_aux :
  (forall s, wfb s = true -> uniform_emptyb s = true -> fprio (resolve s) = sv s) /\
  (forall p, wfb_p p = true -> uniform_emptyb_p p = true ->
             fprio (resolve_p p) = sv_o (p_right p) + sv_o (p_left p)).
Proof.
  apply sym_packed_ind.
  - intros a b c _ _. cbn. lia.
  - intros l fams IH Hwf Hu. apply wfb_sym in Hwf. destruct Hwf as [Hne Hwf].
    apply uniform_sym in Hu. destruct Hu as [Hu Hus].
    unfold resolve. rewrite resolve_with_sym, sv_sym.
    destruct (best_by (pkey (l_inter l)) fams) as [p|] eqn:E.
    + pose proof (best_by_in _ _ _ E) as Hp.
      rewrite (is_max_eq _ _ (chosen_max _ _ _ Hu E)).
      rewrite fprio_wrap, sv_p_eq. f_equal.
      rewrite Forall_forall in *. apply IH; [exact Hp|apply Hwf; exact Hp|apply Hus; exact Hp].
    + apply best_by_none in E. congruence.
  - intros r lft rgt IHl IHr Hwf Hu. apply wfb_pack in Hwf. destruct Hwf as [Hwl Hwr].
    apply uniform_pack in Hu. destruct Hu as [Hul Hur].
    unfold resolve_p. rewrite resolve_with_pack, fprio_app. cbn [p_right p_left].
    transitivity (sv_o lft + sv_o rgt); [|lia]. f_equal.
    + destruct lft as [s|]; [|reflexivity]. apply IHl; [reflexivity|apply Hwl; reflexivity|apply Hul; reflexivity].
    + destruct rgt as [s|]; [|reflexivity]. apply IHr; [reflexivity|apply Hwr; reflexivity|apply Hur; reflexivity].
Qed.

(* Where emptiness is uniform in every symbol node, the resolved derivation has the
   greatest total priority among all derivations. *)
Theorem resolve_optimal_uniform s :
  wfb s = true -> uniform_emptyb s = true ->
  In (resolve s) (derivs s) /\ fprio (resolve s) = zmax_list (map fprio (derivs s)).
Proof.
  intros Hwf Hu. split; [apply resolve_in_derivs; exact Hwf|].
  rewrite (proj1 resolve_optimal_aux s Hwf Hu). apply sum_visitor_is_max. exact Hwf.
Qed.

Lemma no_empty_uniform :
  (forall s, no_emptyb s = true -> uniform_emptyb s = true) /\
  (forall p, no_emptyb_p p = true -> uniform_emptyb_p p = true).
Proof.
  apply sym_packed_ind.
  - reflexivity.
  - intros l fams IH H. cbn [no_emptyb] in H. cbn [uniform_emptyb].
    rewrite forallb_forall in H. rewrite Forall_forall in IH. apply andb_true_iff. split.
    + unfold uniformb. apply orb_true_iff. left. apply forallb_forall. intros p Hp.
      specialize (H p Hp). destruct p as [r lft rgt]. cbn [no_emptyb_p] in H.
      apply andb_true_iff in H. destruct H as [H _]. apply andb_true_iff in H. destruct H as [H _]. exact H.
    + apply forallb_forall. intros p Hp. apply IH; [exact Hp|]. apply H. exact Hp.
  - intros r lft rgt IHl IHr H. cbn [no_emptyb_p] in H. cbn [uniform_emptyb_p].
    apply andb_true_iff in H. destruct H as [H Hr]. apply andb_true_iff in H. destruct H as [_ Hl].
    apply andb_true_iff. split.
    + destruct lft as [s|]; [|reflexivity]. apply IHl; [reflexivity|exact Hl].
    + destruct rgt as [s|]; [|reflexivity]. apply IHr; [reflexivity|exact Hr].
Qed.

(* C05, exact optimum for forests without directly empty families *)
Theorem resolve_optimal s :
  wfb s = true -> no_emptyb s = true ->
  In (resolve s) (derivs s) /\ fprio (resolve s) = zmax_list (map fprio (derivs s)).
Proof. intros Hwf Hn. apply resolve_optimal_uniform; [exact Hwf|]. apply no_empty_uniform. exact Hn. Qed.

(* the built-in precedence: an empty family is kept only when every family of its node is
   empty (and then, families being distinct in (left, right), it is the only one) *)
Theorem empty_precedence l fams p :
  chosen (Sym l fams) = Some p -> is_empty p = true -> forall q, In q fams -> is_empty q = true.
Proof.
  rewrite chosen_sym. intros Hb He q Hq.
  pose proof (best_by_least _ _ _ q Hb Hq) as Hle. unfold pkey in Hle. apply sort_key_le in Hle.
  rewrite He in Hle. destruct Hle as [[H _]|[H _]]; congruence.
Qed.

(* ... and conversely a non-empty family is preferred whatever the priorities are *)
Theorem nonempty_preferred l fams p q :
  chosen (Sym l fams) = Some p -> In q fams -> is_empty q = false -> is_empty p = false.
Proof.
  intros Hc Hq Hqe. destruct (is_empty p) eqn:E; [|reflexivity].
  rewrite (empty_precedence l fams p Hc E q Hq) in Hqe. discriminate.
Qed.

Lemma p_rule_map f g p : p_rule (map_prio_p f g p) = map_rinfo f (p_rule p).
Proof. destruct p; reflexivity. Qed.
Lemma is_empty_map f g p : is_empty (map_prio_p f g p) = is_empty p.
Proof. destruct p as [r [l|] [rt|]]; reflexivity. Qed.

Lemma wrap_map f g inter p d :
  wrap inter (map_prio_p f g p) (map (map_prio_t f g) d) = map (map_prio_t f g) (wrap inter p d).
Proof. unfold wrap. destruct inter; [reflexivity|]. rewrite p_rule_map. reflexivity. Qed.

Lemma derivs_map_prio f g :
  (forall s, derivs (map_prio f g s) = map (map (map_prio_t f g)) (derivs s)) /\
  (forall p, derivs_p (map_prio_p f g p) = map (map (map_prio_t f g)) (derivs_p p)).
Proof.
  apply sym_packed_ind.
  - reflexivity.
  - intros l fams IH. cbn [map_prio]. rewrite !derivs_sym.
    induction IH as [|p r Hp _ IHr]; [reflexivity|].
    cbn [map flat_map]. rewrite map_app, IHr. f_equal.
    rewrite Hp, !map_map. apply map_ext. intros d. apply wrap_map.
  - intros r lft rgt IHl IHr. cbn [map_prio_p]. rewrite !derivs_pack, <- map_cross. f_equal.
    + destruct lft as [s|]; [|reflexivity]. apply IHl. reflexivity.
    + destruct rgt as [s|]; [|reflexivity]. apply IHr. reflexivity.
Qed.

Lemma wfb_map_prio f g :
  (forall s, wfb (map_prio f g s) = wfb s) /\ (forall p, wfb_p (map_prio_p f g p) = wfb_p p).
Proof.
  apply sym_packed_ind.
  - reflexivity.
  - intros l fams IH. cbn [map_prio wfb]. rewrite (forallb_map_ext _ _ wfb_p _ IH).
    destruct fams; reflexivity.
  - intros r lft rgt IHl IHr. cbn [map_prio_p wfb_p]. f_equal.
    + destruct lft as [s|]; [|reflexivity]. apply IHl. reflexivity.
    + destruct rgt as [s|]; [|reflexivity]. apply IHr. reflexivity.
Qed.

Lemma uniform_map_prio f g :
  (forall s, uniform_emptyb (map_prio f g s) = uniform_emptyb s) /\
  (forall p, uniform_emptyb_p (map_prio_p f g p) = uniform_emptyb_p p).
Proof.
  apply sym_packed_ind.
  - reflexivity.
  - intros l fams IH. cbn [map_prio uniform_emptyb]. rewrite (forallb_map_ext _ _ uniform_emptyb_p _ IH).
    f_equal. unfold uniformb. f_equal; apply forallb_map_ext; apply Forall_forall; intros p _;
      rewrite is_empty_map; reflexivity.
  - intros r lft rgt IHl IHr. cbn [map_prio_p uniform_emptyb_p]. f_equal.
    + destruct lft as [s|]; [|reflexivity]. apply IHl. reflexivity.
    + destruct rgt as [s|]; [|reflexivity]. apply IHr. reflexivity.
Qed.

Definition neg : sym -> sym := map_prio (option_map Z.opp) Z.opp.
Definition neg_t : dtree -> dtree := map_prio_t (option_map Z.opp) Z.opp.

Lemma rp_neg r : rp (map_rinfo (option_map Z.opp) r) = - rp r.
Proof. unfold rp, map_rinfo. cbn. destruct (r_prio r); cbn; lia. Qed.

Lemma prio_neg : forall t, prio (neg_t t) = - prio t.
Proof.
  fix IH 1. intros [r cs|a b c]; [|reflexivity].
  unfold neg_t in *. cbn [map_prio_t prio]. rewrite rp_neg.
  assert (H : fold_right (fun c acc => prio c + acc) 0 (map (map_prio_t (option_map Z.opp) Z.opp) cs)
              = - fold_right (fun c acc => prio c + acc) 0 cs).
  { induction cs as [|c cs IHcs]; [reflexivity|]. cbn [map fold_right]. rewrite IH, IHcs. lia. }
  rewrite H. lia.
Qed.

Lemma fprio_neg d : fprio (map neg_t d) = - fprio d.
Proof. unfold fprio. induction d as [|t d IH]; [reflexivity|]. cbn [map fold_right]. rewrite prio_neg, IH. lia. Qed.

(* C05, priority='invert': resolving the forest with all priorities negated yields (the
   negated copy of) a derivation whose total priority is the MINIMUM *)
Theorem resolve_invert_uniform s :
  wfb s = true -> uniform_emptyb s = true ->
  exists d, In d (derivs s) /\ resolve (neg s) = map neg_t d /\
            fprio d = zmin_list (map fprio (derivs s)).
Proof.
  intros Hwf Hu.
  assert (Hwf' : wfb (neg s) = true) by (unfold neg; rewrite (proj1 (wfb_map_prio _ _)); exact Hwf).
  assert (Hu' : uniform_emptyb (neg s) = true) by (unfold neg; rewrite (proj1 (uniform_map_prio _ _)); exact Hu).
  destruct (resolve_optimal_uniform (neg s) Hwf' Hu') as [Hin Hmax].
  unfold neg in Hin, Hmax. rewrite (proj1 (derivs_map_prio _ _)) in Hin, Hmax.
  apply in_map_iff in Hin. destruct Hin as [d [Hd Hdin]].
  exists d. split; [exact Hdin|]. split; [symmetry; exact Hd|].
  fold neg in Hmax, Hd. rewrite <- Hd in Hmax. fold neg_t in Hmax.
  rewrite fprio_neg, map_map, (map_ext _ (fun x => - fprio x) fprio_neg), <- (map_map fprio Z.opp) in Hmax.
  rewrite zmax_list_opp in Hmax; [lia|]. destruct (derivs s); [destruct Hdin|discriminate].
Qed.

Lemma zmax_list_zero l : (forall x, In x l -> x = 0) -> zmax_list l = 0.
Proof.
  intros H. destruct l as [|a r] eqn:E; [reflexivity|]. rewrite <- E in *. apply is_max_eq. split.
  - rewrite E. left. apply H. rewrite E. left. reflexivity.
  - intros y Hy. rewrite (H y Hy). lia.
Qed.

Lemma all_zero_pack r lft rgt : all_zerob_p (Pack r lft rgt) = true ->
  truthy (r_prio r) = false /\ (forall s, lft = Some s -> all_zerob s = true) /\
  (forall s, rgt = Some s -> all_zerob s = true).
Proof.
  cbn [all_zerob_p]. intros H. apply andb_true_iff in H. destruct H as [H Hr].
  apply andb_true_iff in H. destruct H as [Ht Hl]. split; [destruct (truthy (r_prio r)); [discriminate|reflexivity]|].
  split; intros s ->; assumption.
Qed.

Lemma rp_not_truthy r : truthy (r_prio r) = false -> rp r = 0.
Proof. unfold truthy, rp. destruct (r_prio r) as [z|]; [|reflexivity]. intros H. lia. Qed.

Lemma all_zero_sv :
  (forall s, all_zerob s = true -> sv s = 0) /\
  (forall p, all_zerob_p p = true -> forall inter, sv_p inter p = 0).
Proof.
  apply sym_packed_ind.
  - intros a b c H. cbn in *. lia.
  - intros l fams IH H. cbn [all_zerob] in H. rewrite forallb_forall in H. rewrite Forall_forall in IH.
    rewrite sv_sym. apply zmax_list_zero. intros x Hx. apply in_map_iff in Hx.
    destruct Hx as [p [<- Hp]]. apply IH; [exact Hp|]. apply H. exact Hp.
  - intros r lft rgt IHl IHr H inter. apply all_zero_pack in H. destruct H as [Ht [Hl Hr]].
    rewrite sv_p_eq. cbn [p_right p_left]. unfold rule_part. cbn [p_rule]. rewrite (rp_not_truthy r Ht).
    assert (sv_o lft = 0) as -> by (destruct lft as [s|]; [apply IHl; [reflexivity|apply Hl; reflexivity]|reflexivity]).
    assert (sv_o rgt = 0) as -> by (destruct rgt as [s|]; [apply IHr; [reflexivity|apply Hr; reflexivity]|reflexivity]).
    destruct inter; reflexivity.
Qed.

(* when every priority is absent or zero the walk is superfluous: the keys with and
   without it order the families in the same way *)
Lemma all_zero_resolve :
  (forall s, all_zerob s = true -> resolve_none s = resolve s) /\
  (forall p, all_zerob_p p = true -> resolve_with_p (fun _ => pkey_none) p = resolve_p p).
Proof.
  apply sym_packed_ind.
  - reflexivity.
  - intros l fams IH H. cbn [all_zerob] in H. rewrite forallb_forall in H. rewrite Forall_forall in IH.
    unfold resolve_none, resolve. rewrite !resolve_with_sym. cbv beta.
    rewrite (best_by_ext pkey_none (pkey (l_inter l)) fams).
    + destruct (best_by (pkey (l_inter l)) fams) as [p|] eqn:E; [|reflexivity].
      pose proof (best_by_in _ _ _ E) as Hp. f_equal. apply IH; [exact Hp|]. apply H. exact Hp.
    + intros p Hp. unfold pkey, pkey_none. rewrite (proj2 all_zero_sv p (H p Hp)). reflexivity.
  - intros r lft rgt IHl IHr H. apply all_zero_pack in H. destruct H as [_ [Hl Hr]].
    unfold resolve_p. rewrite !resolve_with_pack. f_equal.
    + destruct lft as [s|]; [|reflexivity]. apply IHl; [reflexivity|apply Hl; reflexivity].
    + destruct rgt as [s|]; [|reflexivity]. apply IHr; [reflexivity|apply Hr; reflexivity].
Qed.

(* without the walk the choice does not look at priorities at all *)
Lemma resolve_none_map_prio f g :
  (forall s, resolve_none (map_prio f g s) = map (map_prio_t f g) (resolve_none s)) /\
  (forall p, resolve_with_p (fun _ => pkey_none) (map_prio_p f g p)
             = map (map_prio_t f g) (resolve_with_p (fun _ => pkey_none) p)).
Proof.
  apply sym_packed_ind.
  - reflexivity.
  - intros l fams IH. rewrite Forall_forall in IH. cbn [map_prio]. unfold resolve_none.
    rewrite !resolve_with_sym. cbv beta. rewrite best_by_map.
    rewrite (best_by_ext (fun a => pkey_none (map_prio_p f g a)) pkey_none fams).
    + destruct (best_by pkey_none fams) as [p|] eqn:E; cbn [option_map]; [|reflexivity].
      rewrite (IH p (best_by_in _ _ _ E)). apply wrap_map.
    + intros p _. unfold pkey_none. rewrite is_empty_map, p_rule_map. reflexivity.
  - intros r lft rgt IHl IHr. cbn [map_prio_p]. rewrite !resolve_with_pack, map_app. f_equal.
    + destruct lft as [s|]; [|reflexivity]. apply IHl. reflexivity.
    + destruct rgt as [s|]; [|reflexivity]. apply IHr. reflexivity.
Qed.

Definition strip : sym -> sym := map_prio (fun _ => None) (fun _ => 0).
Definition strip_t : dtree -> dtree := map_prio_t (fun _ => None) (fun _ => 0).

Lemma all_zero_strip :
  (forall s, all_zerob (strip s) = true) /\
  (forall p, all_zerob_p (map_prio_p (fun _ => None) (fun _ => 0) p) = true).
Proof.
  apply sym_packed_ind.
  - reflexivity.
  - intros l fams IH. unfold strip. cbn [map_prio all_zerob]. rewrite Forall_forall in IH.
    apply forallb_forall. intros p Hp. apply in_map_iff in Hp. destruct Hp as [q [<- Hq]]. apply IH. exact Hq.
  - intros r lft rgt IHl IHr. cbn [map_prio_p all_zerob_p map_rinfo r_prio truthy negb andb].
    apply andb_true_iff. split.
    + destruct lft as [s|]; [|reflexivity]. apply IHl. reflexivity.
    + destruct rgt as [s|]; [|reflexivity]. apply IHr. reflexivity.
Qed.

(* C05, priority=None: the result is the one the all-zero assignment gives, and it is the
   same derivation (up to the stripped annotations) whatever priorities were written *)
Theorem resolve_stripped s :
  resolve_none (strip s) = resolve (strip s) /\
  resolve_none (strip s) = map strip_t (resolve_none s).
Proof.
  split.
  - apply (proj1 all_zero_resolve). apply all_zero_strip.
  - apply (proj1 (resolve_none_map_prio _ _)).
Qed.

Lemma map_rinfo_id r : map_rinfo (fun p => p) r = r.
Proof. destruct r; reflexivity. Qed.

Lemma map_prio_id :
  (forall s, map_prio (fun p => p) (fun p => p) s = s) /\
  (forall p, map_prio_p (fun p => p) (fun p => p) p = p).
Proof.
  apply sym_packed_ind.
  - reflexivity.
  - intros l fams IH. cbn [map_prio]. f_equal. induction IH as [|p r Hp _ IHr]; [reflexivity|].
    cbn [map]. rewrite Hp, IHr. reflexivity.
  - intros r lft rgt IHl IHr. cbn [map_prio_p]. rewrite map_rinfo_id. f_equal.
    + destruct lft as [s|]; [|reflexivity]. f_equal. apply IHl. reflexivity.
    + destruct rgt as [s|]; [|reflexivity]. f_equal. apply IHr. reflexivity.
Qed.

Lemma apply_normal s : apply_mode PNormal s = s.
Proof. apply (proj1 map_prio_id). Qed.
Lemma apply_invert s : apply_mode PInvert s = neg s.
Proof. reflexivity. Qed.
Lemma apply_none s : apply_mode PNone s = strip s.
Proof. reflexivity. Qed.

Lemma all_zero_neg :
  (forall s, all_zerob (neg s) = all_zerob s) /\
  (forall p, all_zerob_p (map_prio_p (option_map Z.opp) Z.opp p) = all_zerob_p p).
Proof.
  apply sym_packed_ind.
  - intros a b c. cbn. lia.
  - intros l fams IH. unfold neg. cbn [map_prio all_zerob]. apply forallb_map_ext. exact IH.
  - intros r lft rgt IHl IHr. cbn [map_prio_p all_zerob_p map_rinfo r_prio]. f_equal; [f_equal|].
    + unfold truthy. destruct (r_prio r) as [z|]; cbn [option_map]; [|reflexivity]. f_equal. lia.
    + destruct lft as [s|]; [|reflexivity]. apply IHl. reflexivity.
    + destruct rgt as [s|]; [|reflexivity]. apply IHr. reflexivity.
Qed.

Lemma uses_visitor_none basic rps tps : uses_visitor PNone basic rps tps = false.
Proof.
  unfold uses_visitor. apply orb_false_iff. split.
  - induction rps as [|a r IH]; [reflexivity|]. cbn. exact IH.
  - destruct basic; [reflexivity|]. cbn [negb andb].
    induction tps as [|a r IH]; [reflexivity|]. cbn. exact IH.
Qed.

Theorem lark_optimal basic rps tps s :
  wfb s = true -> no_emptyb s = true ->
  (uses_visitor PNormal basic rps tps = false -> all_zerob s = true) ->
  In (lark_resolve PNormal basic rps tps s) (derivs s) /\
  fprio (lark_resolve PNormal basic rps tps s) = zmax_list (map fprio (derivs s)).
Proof.
  intros Hwf Hn Hz. unfold lark_resolve. rewrite apply_normal.
  destruct (uses_visitor PNormal basic rps tps).
  - apply resolve_optimal; assumption.
  - rewrite (proj1 all_zero_resolve s (Hz eq_refl)). apply resolve_optimal; assumption.
Qed.

Theorem lark_invert basic rps tps s :
  wfb s = true -> no_emptyb s = true ->
  (uses_visitor PInvert basic rps tps = false -> all_zerob s = true) ->
  exists d, In d (derivs s) /\ lark_resolve PInvert basic rps tps s = map neg_t d /\
            fprio d = zmin_list (map fprio (derivs s)).
Proof.
  intros Hwf Hn Hz. unfold lark_resolve. rewrite apply_invert.
  assert (Hu : uniform_emptyb s = true) by (apply no_empty_uniform; exact Hn).
  destruct (uses_visitor PInvert basic rps tps).
  - apply resolve_invert_uniform; assumption.
  - rewrite (proj1 all_zero_resolve (neg s)).
    + apply resolve_invert_uniform; assumption.
    + rewrite (proj1 all_zero_neg). apply Hz. reflexivity.
Qed.

Theorem lark_none basic rps tps s :
  uses_visitor PNone basic rps tps = false /\
  lark_resolve PNone basic rps tps s = resolve (strip s) /\
  lark_resolve PNone basic rps tps s = map strip_t (resolve_none s).
Proof.
  unfold lark_resolve. rewrite uses_visitor_none, apply_none. split; [reflexivity|].
  destruct (resolve_stripped s) as [H1 H2]. rewrite <- H1. split; [reflexivity|exact H2].
Qed.

(* the model is a function of the forest (ordered families), the mode and the tables *)
Theorem lark_resolve_deterministic m basic rps tps s1 s2 :
  s1 = s2 -> lark_resolve m basic rps tps s1 = lark_resolve m basic rps tps s2.
Proof. intros ->. reflexivity. Qed.
