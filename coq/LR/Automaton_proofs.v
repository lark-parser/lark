(* Theorems about the model of compute_lalr1_states (LR/Automaton.v):
   shift preference, reduce entries only without a shift, the reduce/reduce rule (strict
   priority maximum, else collision), and "GrammarError iff some collision". *)
From Coq Require Import List Arith Bool ZArith Lia Permutation Sorted.
From LV Require Import Cfg.Grammar LR.Driver LR.Driver_proofs LR.Automaton.
Import ListNotations.

Lemma assoc_sym_app X l1 l2 :
  assoc_sym X (l1 ++ l2) = match assoc_sym X l1 with Some a => Some a | None => assoc_sym X l2 end.
Proof.
  induction l1 as [|[Y a] l1 IH]; simpl; auto. destruct (symbol_eqb X Y); auto.
Qed.

Lemma mem_sym_In X l : mem_sym X l = true <-> In X l.
Proof.
  induction l as [|Y l IH]; simpl.
  - split; [discriminate|tauto].
  - rewrite orb_true_iff, IH. destruct (symbol_eqb_spec X Y); split; intros H; auto.
    + destruct H as [H|H]; [discriminate|auto].
    + destruct H as [H|H]; [congruence|auto].
Qed.

Lemma mem_nat_In x l : mem_nat x l = true <-> In x l.
Proof.
  induction l as [|y l IH]; simpl.
  - split; [discriminate|tauto].
  - rewrite orb_true_iff, IH, Nat.eqb_eq. split; intros [H|H]; auto.
Qed.

Section Dedup.
  Variable A : Type.
  Variable eqb : A -> A -> bool.
  Hypothesis eqb_eq : forall x y, eqb x y = true <-> x = y.

  Lemma existsb_eqb_In x l : existsb (eqb x) l = true <-> In x l.
  Proof.
    rewrite existsb_exists. split.
    - intros (y & Hy & E). apply eqb_eq in E. now subst.
    - intros H. exists x. split; auto. now apply eqb_eq.
  Qed.

  Lemma dedup_In x l : In x (dedup_with eqb l) <-> In x l.
  Proof.
    induction l as [|y l IH]; simpl; [tauto|].
    destruct (existsb (eqb y) l) eqn:E.
    - rewrite IH. split; auto. intros [->|H]; auto. now apply existsb_eqb_In.
    - simpl. rewrite IH. tauto.
  Qed.

  Lemma dedup_NoDup l : NoDup (dedup_with eqb l).
  Proof.
    induction l as [|y l IH]; simpl; [constructor|].
    destruct (existsb (eqb y) l) eqn:E; auto.
    constructor; auto. rewrite dedup_In. intros H. apply existsb_eqb_In in H. congruence.
  Qed.
End Dedup.

Lemma dedup_nat_In x l : In x (dedup_nat l) <-> In x l.
Proof. apply dedup_In. apply Nat.eqb_eq. Qed.
Lemma dedup_nat_NoDup l : NoDup (dedup_nat l).
Proof. apply dedup_NoDup. apply Nat.eqb_eq. Qed.

Definition ge_fst (a b : Z * nat) : Prop := (fst b <= fst a)%Z.

Lemma insert_desc_perm x l : Permutation (insert_desc x l) (x :: l).
Proof.
  induction l as [|y l IH]; simpl; auto.
  destruct (Z.ltb (fst y) (fst x)); auto.
  rewrite IH. apply perm_swap.
Qed.

Lemma sort_desc_perm l : Permutation (sort_desc l) l.
Proof.
  induction l as [|x l IH]; simpl; auto.
  rewrite insert_desc_perm. now constructor.
Qed.

Lemma insert_desc_sorted x l : StronglySorted ge_fst l -> StronglySorted ge_fst (insert_desc x l).
Proof.
  induction 1 as [|y l Hs IH Hall]; simpl.
  - repeat constructor.
  - destruct (Z.ltb_spec (fst y) (fst x)).
    + constructor. constructor; auto. constructor.
      * unfold ge_fst; lia.
      * eapply Forall_impl; [|exact Hall]. unfold ge_fst; intros; lia.
    + constructor; auto.
      assert (Hp : Permutation (x :: l) (insert_desc x l)) by (symmetry; apply insert_desc_perm).
      apply (Permutation_Forall Hp). constructor; auto.
  Qed.

Lemma sort_desc_sorted l : StronglySorted ge_fst (sort_desc l).
Proof. induction l; simpl; [constructor|]. now apply insert_desc_sorted. Qed.

Section Rules.
  Variable rules : list rule.
  Variable prio : list Z.
  Variable roots : list nat.
  Variable tEND : nat.

  Notation prio_of := (prio_of prio).
  Notation decide := (decide prio).

  Definition strict_max (rs : list nat) (r : nat) : Prop :=
    In r rs /\ forall r', In r' rs -> r' <> r -> (prio_of r' < prio_of r)%Z.

  Lemma in_map_pair rs p r : In (p, r) (map (fun r => (prio_of r, r)) rs) <-> In r rs /\ p = prio_of r.
  Proof.
    rewrite in_map_iff. split.
    - intros (x & E & H). inversion E; subst; auto.
    - intros (H & ->). exists r; auto.
  Qed.

  (* rr_resolution: with more than one candidate the rule chosen is the strict priority
     maximum, and there is a collision exactly when no strict maximum exists
     (p.sort(reverse=True); best[0] > second_best[0]) *)
  Theorem decide_use rs r : NoDup rs -> rs <> [] -> (decide rs = Use r <-> strict_max rs r).
  Proof.
    intros ND NE. unfold Automaton.decide.
    destruct rs as [|a [|b rs']]; [congruence| |].
    - split.
      + intros H; inversion H; subst. split; [now left|]. intros r' [->|[]] Hne; congruence.
      + intros ([->|[]] & _); reflexivity.
    - set (rs := a :: b :: rs') in *.
      pose proof (sort_desc_perm (map (fun r => (prio_of r, r)) rs)) as HP.
      pose proof (sort_desc_sorted (map (fun r => (prio_of r, r)) rs)) as HS.
      destruct (sort_desc (map (fun r => (prio_of r, r)) rs)) as [|[p1 r1] [|[p2 r2] rest]] eqn:E.
      + apply Permutation_length in HP. simpl in HP. rewrite map_length in HP. discriminate.
      + apply Permutation_length in HP. simpl in HP. rewrite map_length in HP. simpl in HP. discriminate.
      + assert (Hs : forall p x, In (p, x) ((p1, r1) :: (p2, r2) :: rest) <-> In x rs /\ p = prio_of x).
        { intros p x. rewrite <- in_map_pair. split; apply Permutation_in; [|symmetry]; exact HP. }
        destruct (proj1 (Hs p1 r1) (or_introl eq_refl)) as (Hin1 & ->).
        destruct (proj1 (Hs p2 r2) (or_intror (or_introl eq_refl))) as (Hin2 & ->).
        assert (Hne12 : r2 <> r1).
        { assert (NDs : NoDup (map snd ((prio_of r1, r1) :: (prio_of r2, r2) :: rest))).
          { eapply Permutation_NoDup; [apply Permutation_map; symmetry; exact HP|].
            rewrite map_map. simpl. now rewrite map_id. }
          inversion NDs as [|? ? Hn1 _]; subst. intros ->. apply Hn1. now left. }
        inversion HS as [|? ? HS' Hall1]; subst. inversion HS' as [|? ? _ Hall2]; subst.
        assert (H21 : (prio_of r2 <= prio_of r1)%Z) by (inversion Hall1; assumption).
        assert (K : forall x, In x rs -> x = r1 \/ (prio_of x <= prio_of r2)%Z).
        { intros x Hr. destruct (proj2 (Hs _ x) (conj Hr eq_refl)) as [E1|[E1|Hin]].
          - left. congruence.
          - right. inversion E1. lia.
          - right. rewrite Forall_forall in Hall2. apply (Hall2 _ Hin). }
        destruct (Z.ltb_spec (prio_of r2) (prio_of r1)) as [Hlt|Hge]; split.
        * intros H; inversion H; subst r. split; auto.
          intros r' Hin' Hne. destruct (K r' Hin'); [contradiction|lia].
        * intros (Hin & Hmax). f_equal.
          destruct (Nat.eq_dec r1 r) as [|Hne]; auto. exfalso.
          specialize (Hmax r1 Hin1 Hne). destruct (K r Hin); [congruence|lia].
        * discriminate.
        * intros (Hin & Hmax). exfalso.
          destruct (Nat.eq_dec r r1) as [->|Hne].
          -- specialize (Hmax r2 Hin2 Hne12). lia.
          -- specialize (Hmax r1 Hin1 (fun e => Hne (eq_sym e))). destruct (K r Hin); [congruence|lia].
  Qed.

  Corollary decide_collision rs : NoDup rs -> rs <> [] ->
    (decide rs = Collision <-> ~ exists r, strict_max rs r).
  Proof.
    intros ND NE. split.
    - intros H (r & Hr). apply (decide_use rs r ND NE) in Hr. congruence.
    - intros H. destruct (decide rs) as [r|] eqn:E; auto.
      exfalso. apply H. exists r. now apply (decide_use rs r ND NE).
  Qed.

  Variable A : lr0.
  Variable LA : list (nat * nat * nat).

  Notation row := (row rules prio A LA).
  Notation trans := (trans A).

  Lemma assoc_shift_entries X q :
    assoc_sym X (shift_entries A q) = option_map Shift (assoc_trans X (trans_of A q)).
  Proof.
    unfold shift_entries. induction (trans_of A q) as [|[Y q'] l IH]; simpl; auto.
    destruct (symbol_eqb X Y); auto.
  Qed.

  Lemma assoc_trans_mem X l : assoc_trans X l = None <-> mem_sym X (map fst l) = false.
  Proof.
    induction l as [|[Y q'] l IH]; simpl; [tauto|].
    destruct (symbol_eqb X Y); simpl; auto. split; discriminate.
  Qed.

  Theorem shift_preferred q X q' :
    trans q X = Some q' -> assoc_sym X (row q) = Some (Shift q').
  Proof.
    unfold Automaton.trans, Automaton.row. intros H.
    now rewrite assoc_sym_app, assoc_shift_entries, H.
  Qed.

  Theorem reduce_only_without_shift q X r :
    assoc_sym X (row q) = Some (Reduce r) ->
    trans q X = None /\ exists s i, X = T s /\ r = rule_at rules i /\ In s (la_terms LA q) /\
                                     decide (la_rules LA q s) = Use i.
  Proof.
    unfold Automaton.trans, Automaton.row. rewrite assoc_sym_app, assoc_shift_entries.
    destruct (assoc_trans X (trans_of A q)) eqn:E; simpl; [discriminate|].
    intros H. split; auto. apply assoc_sym_In in H. unfold reduce_entries in H.
    apply in_flat_map in H. destruct H as (s & Hs & H).
    destruct (Automaton.decide prio (la_rules LA q s)) as [i|] eqn:D; [|contradiction].
    destruct (mem_sym (T s) (map fst (trans_of A q))); [contradiction|].
    destruct H as [H|[]]. inversion H; subst. exists s, i. auto.
  Qed.

  Lemma la_rules_NoDup q s : NoDup (la_rules LA q s).
  Proof. apply dedup_nat_NoDup. Qed.

  Lemma la_rules_In q s r : In r (la_rules LA q s) <-> In (q, s, r) LA.
  Proof.
    unfold la_rules. rewrite dedup_nat_In, in_flat_map. split.
    - intros (((q', s'), r') & Hin & H).
      destruct (Nat.eqb_spec q q'), (Nat.eqb_spec s s'); try contradiction.
      destruct H as [->|[]]. now subst.
    - intros H. exists (q, s, r). split; auto. rewrite !Nat.eqb_refl. now left.
  Qed.

  Lemma la_terms_In q s : In s (la_terms LA q) <-> exists r, In (q, s, r) LA.
  Proof.
    unfold la_terms. rewrite dedup_nat_In, in_flat_map. split.
    - intros (((q', s'), r) & Hin & H). destruct (Nat.eqb_spec q q'); [|contradiction].
      destruct H as [->|[]]. subst. eauto.
    - intros (r & H). exists (q, s, r). split; auto. rewrite Nat.eqb_refl. now left.
  Qed.

  Lemma la_rules_nonempty q s : In s (la_terms LA q) -> la_rules LA q s <> [].
  Proof.
    rewrite la_terms_In. intros (r & H) E. apply la_rules_In in H. now rewrite E in H.
  Qed.

  Theorem collisions_spec q s rs :
    In (q, s, rs) (collisions prio A LA) <->
    q < nstates A /\ In s (la_terms LA q) /\ rs = la_rules LA q s /\ ~ exists r, strict_max rs r.
  Proof.
    unfold collisions. rewrite in_flat_map. split.
    - intros (q' & Hq & H). apply in_seq in Hq. apply in_flat_map in H. destruct H as (s' & Hs & H).
      destruct (Automaton.decide prio (la_rules LA q' s')) eqn:D; [contradiction|].
      destruct H as [H|[]]. inversion H; subst. repeat split; auto; try lia.
      apply decide_collision; auto using la_rules_NoDup, la_rules_nonempty.
    - intros (Hq & Hs & -> & Hn). exists q. split; [apply in_seq; lia|].
      apply in_flat_map. exists s. split; auto.
      apply decide_collision in Hn; auto using la_rules_NoDup, la_rules_nonempty.
      rewrite Hn. now left.
  Qed.
End Rules.

Lemma la_triples_of_In lbs fs q s r :
  In (q, s, r) (la_triples_of lbs fs) <->
  exists lb f, In (lb, f) (combine lbs fs) /\ In (q, r) lb /\ In s f.
Proof.
  unfold la_triples_of. rewrite in_flat_map. split.
  - intros ((lb, f) & Hc & H). apply in_flat_map in H. destruct H as ((q', r') & Hlb & H).
    apply in_map_iff in H. destruct H as (s' & E & Hs). simpl in E. inversion E; subst. exists lb, f. auto.
  - intros (lb & f & Hc & Hlb & Hs). exists (lb, f). split; auto.
    apply in_flat_map. exists (q, r). split; auto. apply in_map_iff. exists s. auto.
Qed.

(* conflict_iff: the model reports GrammarError exactly when some state has, for some
   look-ahead terminal, at least two rules none of which has strictly greatest priority *)
Theorem conflict_iff rules prio roots tEND fuel :
  match compute_lalr rules prio roots tEND fuel with
  | AConflict A rel LA cs =>
      cs <> [] /\ LA = la_triples rel /\
      forall q s rs, In (q, s, rs) cs <->
        q < nstates A /\ In s (la_terms LA q) /\ rs = la_rules LA q s /\ ~ exists r, strict_max prio rs r
  | ATable A rel LA R =>
      LA = la_triples rel /\ R = table_rows rules prio A LA /\
      forall q s, q < nstates A -> In s (la_terms LA q) -> exists r, strict_max prio (la_rules LA q s) r
  | AFuel => True
  end.
Proof.
  unfold compute_lalr. destruct (build_lr0 rules roots fuel) as [A|]; auto.
  set (rel := compute_relations rules roots tEND A). set (LA := la_triples rel).
  destruct (collisions prio A LA) as [|c cs] eqn:E.
  - split; auto. split; auto. intros q s Hq Hs.
    destruct (decide prio (la_rules LA q s)) as [r|] eqn:D.
    + exists r. apply (decide_use prio); auto using la_rules_NoDup, la_rules_nonempty.
    + exfalso. assert (H : In (q, s, la_rules LA q s) (collisions prio A LA)).
      { apply collisions_spec. repeat split; auto.
        apply (decide_collision prio); auto using la_rules_NoDup, la_rules_nonempty. }
      rewrite E in H. contradiction.
  - split; [discriminate|]. split; auto. intros q s rs. rewrite <- E. apply collisions_spec.
Qed.
