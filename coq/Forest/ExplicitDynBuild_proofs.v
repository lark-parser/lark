(* C04 layer A for the dynamic lexers: (1) a forest whose families have the local form ExplicitDynSound.dfam_ok stores
   only trees that spell the input (token spans + ignore paths tile the node's span); the boolean checker implies the
   local form.  (2) erasing the instrumentation of ExplicitDynBuild gives back Dyn's run.  (3) delayed_matches of the
   instrumented model as a finite map: what one scan step puts under which key. *)
From Coq Require Import List Arith Bool Lia.
From LV Require Import Cfg.Grammar Cfg.Analysis Earley.Spec Earley.Alg Earley.Dyn
  Forest.ExplicitBuild Forest.ExplicitBuild_proofs Forest.ExplicitAlgBuild Forest.ExplicitAlgBuild_proofs
  Forest.ExplicitDynBuild Forest.ExplicitDynSound.
Import ListNotations.

Lemma span_label_ilabel r d i j : span_label (ilabel nat r d i j) = ilabel span r d i j.
Proof. unfold ilabel. destruct (Nat.eqb d (length (rhs r))); reflexivity. Qed.

Lemma span_inode r d j m :
  option_map span_label (ExplicitAlgBuild.inode nat r d j m)
  = match d with 0 => None | S _ => Some (NInter span r d j m) end.
Proof. destruct d; reflexivity. Qed.

Section Sound.
  Variable G : grammar.
  Variable tokedge : nat -> nat -> nat -> Prop.
  Variable ign : nat -> nat -> Prop.

  Notation gap := (gap ign).
  Notation gtiles := (gtiles tokedge ign).
  Notation dwfd := (dwfd G tokedge).
  Notation dsound := (dsound G tokedge ign).
  Notation dfam_ok := (dfam_ok G tokedge ign).

  Lemma gap_trans i m j : gap i m -> gap m j -> gap i j.
  Proof. induction 1; auto. intros. econstructor; eauto. Qed.

  Lemma gtiles_gap_l i m j u : gap i m -> gtiles m j u -> gtiles i j u.
  Proof.
    intros Hg H. inversion H; subst.
    - constructor. eapply gap_trans; eauto.
    - econstructor; eauto. eapply gap_trans; eauto.
  Qed.

  Lemma gtiles_gap_r i e j u : gtiles i e u -> gap e j -> gtiles i j u.
  Proof.
    induction 1; intros Hg.
    - constructor. eapply gap_trans; eauto.
    - econstructor; eauto.
  Qed.

  Lemma gtiles_app i m j u v : gtiles i m u -> gtiles m j v -> gtiles i j (u ++ v).
  Proof.
    induction 1; intros Hv; simpl.
    - eapply gtiles_gap_l; eauto.
    - econstructor; eauto.
  Qed.

  Lemma dchild_sound s rn m e ds :
    dchild_ok tokedge s rn m e -> dsound rn ds -> exists d, ds = [d] /\ dwfd d s /\ gtiles m e (yield span d).
  Proof.
    destruct s as [t|a]; simpl.
    - intros (-> & Ht) ->. exists (DL span t (m, e)). repeat split; auto. constructor; auto.
      simpl. econstructor; [apply gap_refl|eauto|constructor; apply gap_refl].
    - intros -> (d & -> & Hw & Ht). eauto.
  Qed.

  Lemma dfam_ok_step lbl f : dfam_ok lbl f -> step_ok G span dwfd gtiles lbl f.
  Proof.
    assert (Hch : forall s rn m e j, dchild_ok tokedge s rn m e -> gap e j -> forall ds, dsound rn ds ->
              exists c, ds = [c] /\ dwfd c s /\ gtiles m j (yield span c)).
    { intros s rn m e j Hc Hg ds Hs. destruct (dchild_sound _ _ _ _ _ Hc Hs) as (c & -> & Hw & Ht).
      exists c. repeat split; auto. eapply gtiles_gap_r; eauto. }
    intros [r k j Hin Hr Hg|r s rn i m e j Hin Hn Hg Hc Hg2|r d s rn i m e j Hin Hd Hn Hc Hg2].
    - apply so_empty; auto. constructor; auto.
    - apply (so_child G span dwfd gtiles r 0 s rn i m j); eauto. intros _. constructor; auto.
    - destruct d; [lia|]. apply (so_child G span dwfd gtiles r (S d) s rn i m j); eauto. discriminate.
  Qed.

  Section Forest.
    Variable F : nlabel span -> family span -> Prop.
    Hypothesis F_ok : forall lbl f, F lbl f -> dfam_ok lbl f.

    Theorem dyn_sound_gen lbl ds : den span F lbl ds -> dsound lbl ds.
    Proof.
      apply (den_sound G span dwfd gtiles (dwfd_node G tokedge) gtiles_app). intros l f Hf. apply dfam_ok_step; auto.
    Qed.
  End Forest.

  Corollary dyn_log_sound (fams : list (nlabel nat * family nat)) :
    (forall f, In f fams -> dfam_ok (fst (span_fam f)) (snd (span_fam f))) ->
    forall lbl ds, den span (in_forest span (map span_fam fams)) lbl ds -> dsound lbl ds.
  Proof.
    intros H. apply dyn_sound_gen. intros lbl f Hin. apply in_map_iff in Hin. destruct Hin as (f0 & E & Hf0).
    specialize (H f0 Hf0). rewrite E in H. exact H.
  Qed.
End Sound.

Section CheckOk.
  Variable G : grammar.
  Variable te : list (nat * nat * nat).
  Variable ig : list (nat * nat).

  Notation tokedge := (tokedge_t te).
  Notation ign := (ign_t ig).
  Notation gap := (gap ign).

  Lemma gapb_gap i j : gapb ig i j = true -> gap i j.
  Proof.
    unfold gapb. generalize (length ig) as fuel. intros fuel. revert i j.
    induction fuel as [|f IH]; intros i j H; simpl in H; apply orb_true_iff in H; destruct H as [H|H];
      try (apply Nat.eqb_eq in H; subst; constructor); try discriminate.
    apply existsb_exists in H. destruct H as ([a b] & Hin & H). simpl in H.
    destruct (Nat.eqb_spec a i) as [H1|]; [|discriminate]. pose proof H as H2. simpl in *. subst a. apply (gap_step ign i b j); auto.
    unfold ign_t, ign_b. apply existsb_exists. exists (i, b). split; auto. simpl. rewrite !Nat.eqb_refl. auto.
  Qed.

  (* mem_rule_b and is_ilabel_n are ExplicitBuild's mem_rule and is_ilabel at lexemes nat *)
  Lemma mem_rule_b_In r : mem_rule_b G r = true -> In r G.
  Proof. exact (mem_rule_In G r). Qed.

  Lemma is_ilabel_n_eq lbl r d i j : is_ilabel_n lbl r d = Some (i, j) -> span_label lbl = ilabel span r d i j.
  Proof. intros H. apply (is_ilabel_eq nat) in H. subst lbl. apply span_label_ilabel. Qed.

  Lemma dchild_b_ok s rn m e : dchild_b te s rn = Some (m, e) -> dchild_ok tokedge s (span_label rn) m e.
  Proof.
    destruct s as [t|a], rn as [a' i' j'|?|t' x m' j']; simpl; try discriminate.
    - destruct (Nat.eqb_spec t t'); simpl; try discriminate. destruct (tokedge_b te t m' j') eqn:E; try discriminate.
      intros H; inversion H; subst. split; auto.
    - destruct (Nat.eqb_spec a a'); simpl; try discriminate. intros H; inversion H; subst; auto.
  Qed.

  Lemma dfam_okb_ok f : dfam_okb G te ig f = true ->
    dfam_ok G tokedge ign (fst (span_fam f)) (snd (span_fam f)).
  Proof.
    destruct f as [lbl [[r l] rt]]. unfold dfam_okb. rewrite andb_true_iff. intros (Hm & H).
    apply mem_rule_b_In in Hm. simpl fst; simpl snd. destruct l as [ln|], rt as [rn|]; try discriminate.
    - destruct ln as [|r' d i m|]; try discriminate.
      rewrite !andb_true_iff in H. destruct H as ((Hr & Hd) & H).
      destruct (rule_eq_dec r' r); [subst r'|discriminate]. apply Nat.leb_le in Hd.
      destruct (nth_error (rhs r) d) as [s|] eqn:En; try discriminate.
      destruct (is_ilabel_n lbl r (S d)) as [[i' j]|] eqn:El; try discriminate.
      rewrite andb_true_iff, Nat.eqb_eq in H. destruct H as (-> & H).
      destruct (dchild_b te s rn) as [[m' e]|] eqn:Ec; try discriminate.
      rewrite andb_true_iff, Nat.eqb_eq in H. destruct H as (-> & Hg).
      apply is_ilabel_n_eq in El. rewrite El. simpl option_map.
      apply dok_next with (s := s) (e := e); auto; [apply dchild_b_ok; auto | apply gapb_gap; auto].
    - destruct ln; discriminate.
    - destruct (nth_error (rhs r) 0) as [s|] eqn:En; try discriminate.
      destruct (is_ilabel_n lbl r 1) as [[i j]|] eqn:El; try discriminate.
      destruct (dchild_b te s rn) as [[m e]|] eqn:Ec; try discriminate.
      rewrite andb_true_iff in H. destruct H as (Hg1 & Hg2).
      apply is_ilabel_n_eq in El. rewrite El. simpl option_map.
      apply dok_first with (s := s) (m := m) (e := e); auto; [apply gapb_gap; auto | apply dchild_b_ok; auto | apply gapb_gap; auto].
    - destruct (rhs r) eqn:Er; try discriminate. destruct lbl as [a i j| |]; try discriminate.
      rewrite andb_true_iff, Nat.eqb_eq in H. destruct H as (-> & Hg). simpl.
      apply dok_empty; auto. apply gapb_gap; auto.
  Qed.

  (* a log all of whose families pass the checker stores only trees that spell the text *)
  Theorem dyn_forest_sound (fams : list (nlabel nat * family nat)) :
    forallb (dfam_okb G te ig) fams = true ->
    forall lbl ds, den span (in_forest span (map span_fam fams)) lbl ds -> dsound G tokedge ign lbl ds.
  Proof.
    intros H. apply dyn_log_sound. intros f Hf. apply dfam_okb_ok. rewrite forallb_forall in H. auto.
  Qed.
End CheckOk.

Section DErase.
  Variable G : grammar.
  Variable predictions : nat -> list rule.
  Variable start : nat.
  Variable n : nat.
  Variable rmatch : nat -> nat -> option nat.
  Variable rtrunc : nat -> nat -> nat -> option nat.
  Variable complete_lex : bool.
  Variable ignore : list nat.

  Lemma erase_extend k es dm : erase_dm (idm_extend k es dm) = dm_extend k (map erase_entry es) (erase_dm dm).
  Proof.
    induction dm as [|[k' l] dm IH]; simpl; auto.
    destruct (Nat.eqb k k'); simpl; [rewrite map_app; auto | rewrite IH; auto].
  Qed.

  Lemma erase_get k dm : map erase_entry (idm_get k dm) = dm_get k (erase_dm dm).
  Proof.
    unfold idm_get, dm_get. induction dm as [|[k' l] dm IH]; simpl; auto.
    destruct (Nat.eqb k' k); simpl; auto.
  Qed.

  Lemma erase_remove k dm : erase_dm (idm_remove k dm) = dm_remove k (erase_dm dm).
  Proof.
    unfold idm_remove, dm_remove. induction dm as [|[k' l] dm IH]; simpl; auto.
    destruct (Nat.eqb k' k); simpl; [auto | rewrite IH; auto].
  Qed.

  Lemma erase_scan_item i dm x :
    erase_dm (iscan_item rmatch rtrunc complete_lex i dm x) = scan_item rmatch rtrunc complete_lex i (erase_dm dm) x.
  Proof.
    unfold iscan_item, scan_item. destruct (expect x) as [[t|a]|]; auto.
    apply fold_left_commute. intros dm0 e. apply erase_extend.
  Qed.

  Lemma erase_scan_ignore i ts col dm x :
    erase_dm (iscan_ignore start rmatch i ts col dm x) = scan_ignore start rmatch i ts col (erase_dm dm) x.
  Proof.
    unfold iscan_ignore, scan_ignore. destruct (rmatch x i); auto.
    rewrite !erase_extend, !map_map. reflexivity.
  Qed.

  Lemma fold_place_map (es : list ientry) : forall acc,
    fold_left (fun a e => dplace a (realise (erase_entry e))) es acc
    = fold_left (fun a e => dplace a (realise e)) (map erase_entry es) acc.
  Proof. induction es; intros; simpl; auto. Qed.

  Lemma idscan_erase i ts col dm acc :
    let r := idscan start rmatch rtrunc complete_lex ignore i ts col dm acc in
    (fst (fst (fst r)), snd (fst (fst r)), erase_dm (snd (fst r)))
    = dscan start rmatch rtrunc complete_lex ignore i ts col (erase_dm dm).
  Proof.
    unfold idscan, dscan. cbn [fst snd].
    rewrite fold_place_map, erase_get, erase_remove, (fold_left_commute _ _ _ (erase_scan_ignore i ts col)),
      (fold_left_commute _ _ _ (erase_scan_item i)).
    reflexivity.
  Qed.

  Lemma erase_dm_nil dm : erase_dm dm = [] <-> dm = [].
  Proof. destruct dm; simpl; split; auto; discriminate. Qed.

  Lemma erase_keys dm : map fst (erase_dm dm) = map fst dm.
  Proof. unfold erase_dm. rewrite map_map. reflexivity. Qed.

  Lemma idloop_erase : forall rem i cols scans keys col scanq dm acc,
    fst (idloop G predictions start rmatch rtrunc complete_lex ignore rem i cols scans keys col scanq dm acc)
    = dloop G predictions start rmatch rtrunc complete_lex ignore rem i cols scans keys col scanq (erase_dm dm).
  Proof.
    induction rem as [|rem IH]; intros i cols scans keys col scanq dm acc;
      cbn [ExplicitDynBuild.idloop Dyn.dloop]; unfold ipredict_and_complete, predict_and_complete;
      destruct (ipc_loop predictions nat (pc_fuel G i) i cols (mkPC col (rev col) scanq []) acc) as [[st acc1]|] eqn:E.
    - rewrite (ipc_loop_some _ _ _ _ _ _ _ _ _ E). reflexivity.
    - rewrite (ipc_loop_none _ _ _ _ _ _ _ E). reflexivity.
    - rewrite (ipc_loop_some _ _ _ _ _ _ _ _ _ E).
      pose proof (idscan_erase i (pc_scan st) (pc_col st) dm acc1) as Hs. cbn zeta in Hs.
      destruct (idscan start rmatch rtrunc complete_lex ignore i (pc_scan st) (pc_col st) dm acc1) as [[[nc nq] dm'] acc2].
      cbn [fst snd] in *. rewrite <- Hs. cbn [fst snd].
      destruct nc as [|z nc']; [destruct dm' as [|p dm'']; [destruct nq as [|z nq']|]|]; cbn [erase_dm map];
        try reflexivity; rewrite IH; cbn [erase_dm map]; rewrite ?erase_keys; reflexivity.
    - rewrite (ipc_loop_none _ _ _ _ _ _ _ E). reflexivity.
  Qed.

  Theorem dyn_erasure :
    fst (idparse G predictions start n rmatch rtrunc complete_lex ignore)
    = dparse G predictions start n rmatch rtrunc complete_lex ignore.
  Proof. unfold idparse, dparse. cbn zeta. rewrite idloop_erase. reflexivity. Qed.
End DErase.

(* delayed_matches of the instrumented model as a finite map *)
Lemma idm_get_extend k es dm j e :
  In e (idm_get j (idm_extend k es dm)) <-> In e (idm_get j dm) \/ (j = k /\ In e es).
Proof.
  unfold idm_get. induction dm as [|[k' l] dm IH]; simpl.
  - destruct (Nat.eqb_spec k j) as [->|Hne]; simpl.
    + split; [intros H; right; auto|intros [[]|[_ H]]; auto].
    + split; [intros []|intros [[]|[E _]]; congruence].
  - destruct (Nat.eqb_spec k k') as [->|Hne]; simpl.
    + destruct (Nat.eqb_spec k' j) as [->|Hne']; simpl.
      * rewrite in_app_iff. split; [intros [?|?]; auto|intros [?|[_ ?]]; auto].
      * split; auto. intros [?|[E _]]; auto. congruence.
    + destruct (Nat.eqb_spec k' j) as [->|Hne']; simpl.
      * split; auto. intros [?|[E _]]; auto. congruence.
      * apply IH.
Qed.

Lemma idm_get_remove k dm j : idm_get j (idm_remove k dm) = if Nat.eqb j k then [] else idm_get j dm.
Proof.
  unfold idm_get, idm_remove. induction dm as [|[k' l] dm IH]; simpl.
  - destruct (Nat.eqb j k); auto.
  - destruct (Nat.eqb_spec k' k) as [->|Hne]; simpl.
    + destruct (Nat.eqb_spec k j) as [->|Hne']; simpl.
      * rewrite IH, Nat.eqb_refl. auto.
      * rewrite IH. destruct (Nat.eqb_spec j k); auto; try congruence.
    + destruct (Nat.eqb_spec k' j) as [->|Hne']; simpl.
      * destruct (Nat.eqb_spec j k); auto; try congruence.
      * apply IH.
Qed.

Lemma ifold_get_spec {A} (f : idmap -> A -> idmap) (P : A -> nat -> ientry -> Prop) :
  (forall dm a j e, In e (idm_get j (f dm a)) <-> In e (idm_get j dm) \/ P a j e) ->
  forall l dm j e, In e (idm_get j (fold_left f l dm)) <-> In e (idm_get j dm) \/ exists a, In a l /\ P a j e.
Proof.
  intros Hf. induction l as [|a l IH]; intros dm j e; simpl.
  - split; auto. intros [?|(a & [] & _)]; auto.
  - rewrite IH, Hf. split.
    + intros [[?|?]|(a' & ? & ?)]; auto; right; eauto.
    + intros [?|(a' & [<- |?] & ?)]; auto. right; eauto.
Qed.

Section DelayedMatches.
  Variable start : nat.
  Variable rmatch : nat -> nat -> option nat.
  Variable rtrunc : nat -> nat -> nat -> option nat.
  Variable complete_lex : bool.
  Variable ignore : list nat.

  Notation ends := (ends_of rmatch rtrunc complete_lex).

  (* what scan(i) with to_scan = Q and column = C puts under key j *)
  Definition iemits (Q C : list item) (i j : nat) (e : ientry) : Prop :=
    (exists x t, In x Q /\ expect x = Some (T t) /\ In j (ends t i) /\ e = (x, i, Some t)) \/
    (exists ig, In ig ignore /\ rmatch ig i = Some j /\
       ((exists x, In x Q /\ e = (x, i, None)) \/ (exists x, In x C /\ is_solution start x = true /\ e = (x, i, None)))).

  Lemma iscan_item_spec i dm x j e :
    In e (idm_get j (iscan_item rmatch rtrunc complete_lex i dm x)) <->
    In e (idm_get j dm) \/ (exists t, expect x = Some (T t) /\ In j (ends t i) /\ e = (x, i, Some t)).
  Proof.
    unfold iscan_item. destruct (expect x) as [[t|a]|] eqn:E.
    - rewrite (ifold_get_spec (fun dm e0 => idm_extend e0 [(x, i, Some t)] dm) (fun e0 j e => j = e0 /\ e = (x, i, Some t))).
      + split; intros [?|H]; auto; right.
        * destruct H as (e0 & Hin & -> & ->). eauto.
        * destruct H as (t' & Et & Hin & ->). inversion Et; subst t'. eauto.
      + intros dm0 a j0 e0. rewrite idm_get_extend. simpl. split.
        * intros [?|[? [<- |[]]]]; auto.
        * intros [?|[? ->]]; auto.
    - split; auto. intros [?|(t & F & _)]; auto. discriminate.
    - split; auto. intros [?|(t & F & _)]; auto. discriminate.
  Qed.

  Lemma iscan_ignore_spec i Q C dm x j e :
    In e (idm_get j (iscan_ignore start rmatch i Q C dm x)) <->
    In e (idm_get j dm) \/ (rmatch x i = Some j /\
        ((exists y, In y Q /\ e = (y, i, None)) \/ (exists y, In y C /\ is_solution start y = true /\ e = (y, i, None)))).
  Proof.
    unfold iscan_ignore. destruct (rmatch x i) as [e0|] eqn:E.
    - rewrite !idm_get_extend, !in_map_iff. split.
      + intros [[?|[-> (y & <- & Hy)]]|[-> (y & <- & Hy)]]; auto; right; split; auto.
        * left; eauto.
        * apply filter_In in Hy. right. exists y. tauto.
      + intros [?|[Ej [(y & Hy & ->)|(y & Hy & Hs & ->)]]]; auto; inversion Ej; subst e0.
        * left; right; split; auto. exists y; auto.
        * right; split; auto. exists y; split; auto. apply filter_In; auto.
    - split; auto. intros [?|[F _]]; auto. discriminate.
  Qed.

  Lemma idscan_dm_spec i Q C dm j e :
    In e (idm_get j (fold_left (iscan_ignore start rmatch i Q C) ignore
                               (fold_left (iscan_item rmatch rtrunc complete_lex i) Q dm))) <->
    In e (idm_get j dm) \/ iemits Q C i j e.
  Proof.
    rewrite (ifold_get_spec _ _ (fun dm0 a j0 e0 => iscan_ignore_spec i Q C dm0 a j0 e0)).
    rewrite (ifold_get_spec _ _ (fun dm0 a j0 e0 => iscan_item_spec i dm0 a j0 e0)).
    unfold iemits. split.
    - intros [[?|(x & Hx & t & He & Hj & ->)]|(ig & Hig & Hm & H)]; auto.
      + right; left. exists x, t; auto.
      + right; right. exists ig; auto.
    - intros [?|[(x & t & Hx & He & Hj & ->)|(ig & Hig & Hm & H)]]; auto.
      + left; right. exists x; split; auto. exists t; auto.
      + right. exists ig; auto.
  Qed.
End DelayedMatches.
