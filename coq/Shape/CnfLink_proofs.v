(* Over a CNF grammar g that has exactly the characterised rules (CnfLink.unit_closure_spec):
   link_complete - the pre-image cnf_of d of every derivation d of G is a CNF derivation over g;
   link_sound    - every CNF derivation over g from an original non-terminal is such a pre-image. *)
From Coq Require Import String Ascii List Bool Arith Lia.
From LV Require Import Base.Prelude Shape.Chain Shape.Spec Shape.Chain_proofs Shape.Shape_proofs Shape.Cnf Shape.Cnf_proofs Shape.CnfLink Shape.CykParse Shape.CykParse_proofs.
Import ListNotations.

Section Link.
  Variable rules : list rrec.
  Variable g : list crule.
  Notation rule_n := (rule_n rules).
  Notation cnf_parts := (cnf_parts rules).
  Notation cnf_of := (cnf_of rules).
  Notation node_of := (node_of rules).
  Notation mk_child := (mk_child rules).
  Notation exp_of := (exp_of rules).
  Notation tf_of := (tf_of rules).
  Notation e_of := (e_of rules).
  Notation head_rhs := (head_rhs rules).
  Notation origin := (origin rules).
  Notation chain := (chain rules).
  Notation canon := (canon rules).

  Hypothesis Hs : forall r, In r g -> canon r.
  Hypothesis Hc : forall r, canon r -> In r g.

  Definition tmap (tf : bool) (s : csym) : csym := if tf then termify s else s.

  Lemma e_of_map rid : e_of rid = map (tmap (tf_of rid)) (exp_of rid).
  Proof. unfold CnfLink.e_of, tmap. destruct (tf_of rid); [reflexivity|]. symmetry. apply map_id. Qed.

  Lemma unit_exp_iff rid rid' ch' :
    forall2b (ochild_ok rules) (r_exp (rule_n rid)) [ONode rid' ch'] = true <-> exp_of rid = [CN (NOrig (origin rid'))].
  Proof.
    unfold CnfLink.exp_of, CnfLink.origin, of_sym. destruct (r_exp (rule_n rid)) as [|s [|s2 e2]]; cbn.
    1, 3: split; [rewrite ?andb_false_r|]; discriminate.
    rewrite andb_true_r, andb_true_iff, negb_true_iff, String.eqb_eq.
    destruct (s_term s); split; try intros [? ?]; try discriminate; [congruence|]. intros [= <-]. auto.
  Qed.

  Definition derP (c : otree) : Prop :=
    match c with
    | ONode rid' _ => cder g (node_of c) (CN (NOrig (origin rid')))
    | OLeaf _ _ => True
    end.

  Lemma kids_derive rid tf : (tf = true -> tf_of rid = true) -> rid < length rules ->
    forall exp' ch', forall2b (ochild_ok rules) exp' ch' = true ->
      (forall s, In s exp' -> In (of_sym s) (exp_of rid)) -> Forall derP ch' ->
      Forall2 (cder g) (map (mk_child tf) ch') (map (tmap tf) (map of_sym exp')).
  Proof.
    intros Htf Hrid. induction exp' as [|s exp' IH]; intros [|c ch'] Hok Hin HP; simpl in Hok; try discriminate; [constructor|].
    apply andb_true_iff in Hok. destruct Hok as [Hc1 Hok]. inversion HP as [|? ? Pc Pr]; subst.
    simpl. constructor; [|apply IH; auto; intros; apply Hin; simpl; auto].
    specialize (Hin s (or_introl eq_refl)). unfold of_sym, tmap in *.
    destruct c as [ty v|rid' ch'']; simpl in Hc1; apply andb_true_iff in Hc1; destruct Hc1 as [Hk Hn];
      apply String.eqb_eq in Hn; rewrite <- Hn in *.
    - rewrite Hk in *. unfold Cnf_proofs.mk_child. destruct tf; simpl; [|constructor].
      apply (cder_node g (term_rule ty) [CLeaf ty v]).
      + apply Hc. apply (canon_term rules rid ty); auto.
      + simpl. repeat constructor.
    - apply negb_true_iff in Hk. rewrite Hk, mk_child_node. destruct tf; exact Pc.
  Qed.

  Lemma split_tree_der rid : forall syms kids, length syms = length kids -> 2 <= length kids -> forall i,
    Forall2 (cder g) kids syms -> (forall r, In r (split_tail rid i syms) -> In r g) ->
    cder g (split_tree rid i syms kids) (CN (NSplit rid i)).
  Proof.
    apply (list2_ind2 (fun syms kids => forall i, Forall2 (cder g) kids syms ->
             (forall r, In r (split_tail rid i syms) -> In r g) -> cder g (split_tree rid i syms kids) (CN (NSplit rid i)))).
    - intros a b x y i HF Hin. apply (cder_node g (mkC (NSplit rid i) [a; b] ASplitA []) [x; y]); [|exact HF].
      apply Hin. simpl. auto.
    - intros a b c l x y z k _ IH i HF Hin. inversion HF as [|? ? ? ? Ha HF1]; subst.
      rewrite split_tree_3. apply cder_node.
      + apply Hin. simpl. auto.
      + cbn [c_rhs]. repeat constructor; [exact Ha|]. apply IH; [exact HF1|].
        intros r Hr. apply Hin. rewrite split_tail_3. simpl. auto.
  Qed.

  (* BIN on the children of a rule whose `__SP_` rules are in g *)
  Lemma bin_kids_der rid ks :
    Forall2 (cder g) ks (e_of rid) ->
    (3 <= length (e_of rid) -> forall r, In r (split_tail rid 1 (tl (e_of rid))) -> In r g) ->
    Forall2 (cder g) (bin_kids rid (e_of rid) ks) (head_rhs rid).
  Proof.
    unfold CnfLink.head_rhs. intros HF Hin. pose proof (Forall2_len _ _ _ HF) as Hl.
    destruct HF as [|k0 x0 ks e H0 HF]; [constructor|].
    destruct e as [|x1 [|x2 e]]; try (constructor; assumption).
    cbn [bin_kids tl] in *. repeat constructor; [exact H0|].
    apply split_tree_der; auto; simpl in *; try lia. apply Hin. lia.
  Qed.

  Theorem link_complete_parts d : wf_otree rules d = true ->
    match d with
    | OLeaf _ _ => True
    | ONode rid _ => let '(rhs, kids, sk) := cnf_parts d in
                     Forall2 (cder g) kids rhs /\ exists f, chain rid sk f /\ rhs = head_rhs f
    end.
  Proof.
    induction d as [ty v|rid ch IH] using otree_ind'; intros Hwf; [exact I|].
    destruct (wf_otree_node _ _ _ Hwf) as (Hlt & Har & Hall).
    pose proof (Forall_mp _ _ _ IH Hall) as IH'.
    destruct (unit_dec ch) as [(rid' & ch' & ->)|Hnu].
    - rewrite cnf_parts_unit. inversion IH' as [|? ? I1 _]; subst.
      destruct (cnf_parts (ONode rid' ch')) as [[rhs kids] sk]. destruct I1 as [HF (f & Hch & ->)].
      split; [exact HF|]. exists f. split; [|reflexivity].
      apply chain_cons; auto. apply (unit_exp_iff rid rid' ch'). exact Har.
    - rewrite cnf_parts_nonunit by (auto; apply (forall2b_length _ _ _ Har)). split.
      + apply bin_kids_der.
        * rewrite e_of_map. apply (kids_derive rid (tf_of rid)); auto.
          { intros s Hs0. unfold CnfLink.exp_of. apply in_map. exact Hs0. }
          eapply Forall_impl; [|exact IH']. intros [ty v|rid' ch'] I1; [exact I|].
          cbn [derP Cnf_proofs.node_of]. destruct (cnf_parts (ONode rid' ch')) as [[rhs kids] sk].
          destruct I1 as [HF (f & Hch & ->)].
          apply (cder_node g (mkC (NOrig (origin rid')) (head_rhs f) (ARule rid') sk) kids); [|exact HF].
          apply Hc. constructor. exact Hch.
        * intros H3 r Hr. apply Hc. apply (canon_split rules rid r); auto.
      + exists rid. split; [|reflexivity]. apply chain_nil; auto. intros b Hb.
        unfold CnfLink.exp_of in Hb. destruct (r_exp (rule_n rid)) as [|s [|s2 e2]]; try discriminate.
        destruct ch as [|c [|c2 ch2]]; simpl in Har; try discriminate; [|rewrite andb_false_r in Har; discriminate].
        destruct c as [ty v|rid' ch']; [|eapply Hnu; reflexivity].
        simpl in Har, Hb. unfold of_sym in Hb. destruct (s_term s); discriminate.
  Qed.

  Theorem link_complete rid ch : wf_otree rules (ONode rid ch) = true ->
    cder g (cnf_of (ONode rid ch)) (CN (NOrig (r_origin (rule_n rid)))).
  Proof.
    intros Hwf. pose proof (link_complete_parts (ONode rid ch) Hwf) as H. unfold Cnf.cnf_of.
    destruct (cnf_parts (ONode rid ch)) as [[rhs kids] sk]. destruct H as [HF (f & Hch & ->)].
    apply (cder_node g (mkC (NOrig (origin rid)) (head_rhs f) (ARule rid) sk) kids); [|exact HF].
    apply Hc. constructor. exact Hch.
  Qed.

  Lemma split_tail_lhs rid : forall l i r, In r (split_tail rid i l) -> exists j, i <= j /\ c_lhs r = NSplit rid j.
  Proof.
    induction l as [|a l IH]; intros i r H; [destruct H|].
    destruct l as [|b [|c l2]]; [| |rewrite split_tail_3 in H];
      (destruct H as [<-|H]; [exists i; auto|]); try destruct H.
    destruct (IH (S i) r H) as (j & Hj & E). exists j. split; [lia|auto].
  Qed.

  Lemma split_tail_at rid l i r : 2 <= length l -> In r (split_tail rid i l) -> c_lhs r = NSplit rid i ->
    (exists a b, l = [a; b] /\ r = mkC (NSplit rid i) [a; b] ASplitA []) \/
    (exists a b c rest, l = a :: b :: c :: rest /\ r = mkC (NSplit rid i) [a; CN (NSplit rid (S i))] ASplitA []).
  Proof.
    intros H2 H E. destruct l as [|a [|b [|c rest]]]; try (simpl in H2; lia).
    - simpl in H. destruct H as [<-|[]]. left. eauto.
    - rewrite split_tail_3 in H. destruct H as [<-|H]; [right; eauto 8|].
      apply split_tail_lhs in H. destruct H as (j & Hj & E2). rewrite E in E2. injection E2 as E2. lia.
  Qed.

  Lemma split_tail_next rid a b c rest i r j :
    In r (split_tail rid i (a :: b :: c :: rest)) -> c_lhs r = NSplit rid j -> S i <= j ->
    In r (split_tail rid (S i) (b :: c :: rest)).
  Proof.
    intros H E Hj. rewrite split_tail_3 in H. destruct H as [<-|H]; auto. simpl in E. injection E as E. lia.
  Qed.

  Definition nonsplit (s : csym) : Prop := match s with CN (NSplit _ _) => False | _ => True end.

  Definition is_node_of (n : string) (d : otree) : Prop :=
    match d with ONode rid _ => origin rid = n | OLeaf _ _ => False end.

  Definition good_ns (c : ctree) (s : csym) : Prop :=
    match s with
    | CT t => exists v, c = CLeaf t v
    | CN (NTerm t) => exists v, c = CNode (term_rule t) [CLeaf t v]
    | CN (NOrig n) => exists d, wf_otree rules d = true /\ c = cnf_of d /\ is_node_of n d
    | CN (NSplit _ _) => False
    end.

  Definition good_split (c : ctree) (f i : nat) : Prop :=
    forall syms, 2 <= length syms -> Forall nonsplit syms ->
      (forall r j, In r g -> c_lhs r = NSplit f j -> i <= j -> In r (split_tail f i syms)) ->
      exists kids, c = split_tree f i syms kids /\ Forall2 good_ns kids syms.

  Definition goodP (c : ctree) (s : csym) : Prop :=
    (nonsplit s -> good_ns c s) /\ (forall f i, s = CN (NSplit f i) -> good_split c f i).

  Lemma canon_lhs r : canon r ->
    match c_lhs r with
    | NTerm t => r = term_rule t
    | NSplit f _ => In r (split_tail f 1 (tl (e_of f)))
    | NOrig n => exists rid sk f, chain rid sk f /\ r = mkC (NOrig (origin rid)) (head_rhs f) (ARule rid) sk /\ origin rid = n
    end.
  Proof.
    intros [rid t _ _ _|rid r' _ _ Hin|rid sk f Hch]; [reflexivity| |simpl; eauto 8].
    destruct (split_tail_lhs _ _ _ _ Hin) as (j & _ & ->). exact Hin.
  Qed.

  Lemma chain_final rid sk f : chain rid sk f -> f < length rules /\ forall b, exp_of f <> [CN (NOrig b)].
  Proof. induction 1; auto. Qed.

  Lemma tmap_nonsplit tf s : nonsplit (tmap tf (of_sym s)).
  Proof. unfold tmap, of_sym. destruct tf, (s_term s); simpl; exact I. Qed.

  Lemma kids_invert tf : forall exp' ks,
    Forall2 good_ns ks (map (tmap tf) (map of_sym exp')) ->
    exists chs, ks = map (mk_child tf) chs /\ forall2b (ochild_ok rules) exp' chs = true /\ forallb (wf_otree rules) chs = true.
  Proof.
    induction exp' as [|s exp' IH]; intros ks HF; simpl in HF; inversion HF as [|k ? ks' ? Hk HF']; subst.
    - exists []. auto.
    - destruct (IH ks' HF') as (chs & -> & Hok & Hwf).
      unfold of_sym, tmap in Hk. destruct (s_term s) eqn:Est.
      + destruct tf; simpl in Hk; destruct Hk as [v ->]; exists (OLeaf (s_name s) v :: chs); simpl;
          rewrite Est, String.eqb_refl, Hok, Hwf; auto.
      + assert (Hk' : good_ns k (CN (NOrig (s_name s)))) by (destruct tf; exact Hk).
        destruct Hk' as (d & Hwd & -> & Hn). destruct d as [ty v|rid' ch'']; [destruct Hn|]. simpl in Hn.
        exists (ONode rid' ch'' :: chs). split; [|split].
        * cbn [map]. f_equal. rewrite mk_child_node. apply cnf_of_node.
        * cbn [forall2b ochild_ok]. rewrite Est. unfold CnfLink.origin in Hn. rewrite Hn, String.eqb_refl, Hok. reflexivity.
        * cbn [forallb]. rewrite Hwd, Hwf. reflexivity.
  Qed.

  Lemma final_node f ks :
    f < length rules -> (forall b, exp_of f <> [CN (NOrig b)]) ->
    Forall2 good_ns ks (e_of f) ->
    exists chf, wf_otree rules (ONode f chf) = true /\
      cnf_parts (ONode f chf) = (head_rhs f, bin_kids f (e_of f) ks, []) /\ ks = map (mk_child (tf_of f)) chf.
  Proof.
    intros Hlt Hnu HF. rewrite e_of_map in HF. unfold CnfLink.exp_of in HF.
    destruct (kids_invert (tf_of f) _ _ HF) as (chf & -> & Hok & Hwf).
    exists chf. split; [|split; [|reflexivity]].
    - cbn [wf_otree]. rewrite Hok, Hwf. apply Nat.ltb_lt in Hlt. rewrite Hlt. reflexivity.
    - apply cnf_parts_nonunit; [|exact (forall2b_length _ _ _ Hok)].
      intros rid' ch'' ->. exact (Hnu _ (proj1 (unit_exp_iff _ _ _) Hok)).
  Qed.

  Lemma chain_node rid sk f : chain rid sk f -> forall chf rhs kids,
    wf_otree rules (ONode f chf) = true -> cnf_parts (ONode f chf) = (rhs, kids, []) ->
    exists chd, wf_otree rules (ONode rid chd) = true /\ cnf_parts (ONode rid chd) = (rhs, kids, sk).
  Proof.
    induction 1 as [rid Hlt Hnu|rid r1 sk f Hlt He Hch IH]; intros chf rhs kids Hwf Hp; [eauto|].
    destruct (IH chf rhs kids Hwf Hp) as (ch1 & Hw1 & Hp1).
    exists [ONode r1 ch1]. split.
    - change (wf_otree rules (ONode rid [ONode r1 ch1])) with
        ((rid <? length rules) && forall2b (ochild_ok rules) (r_exp (rule_n rid)) [ONode r1 ch1]
         && (wf_otree rules (ONode r1 ch1) && true)).
      rewrite Hw1, (proj2 (unit_exp_iff rid r1 ch1) He). apply Nat.ltb_lt in Hlt. rewrite Hlt. reflexivity.
    - rewrite cnf_parts_unit, Hp1. reflexivity.
  Qed.

  Theorem good_all c s : cder g c s -> goodP c s.
  Proof.
    induction 1 as [ty v|r ch Hin HF] using cder_ind'.
    - split; [intros _; simpl; eauto|intros f i E; discriminate].
    - pose proof (canon_lhs r (Hs r Hin)) as Hcan.
      assert (HG : forall ch syms, Forall2 (fun c s => cder g c s /\ goodP c s) ch syms -> Forall nonsplit syms ->
                                   Forall2 good_ns ch syms).
      { induction 1 as [|c s ch' syms [_ [G _]] _ IHc]; intros Hns; inversion Hns; subst; constructor; auto. }
      destruct (c_lhs r) as [n|t|f i] eqn:El.
      + split; [intros _|intros f i E; discriminate].
        destruct Hcan as (rid & sk & f & Hch & -> & Hn).
        cbn [c_rhs] in HF. destruct (chain_final _ _ _ Hch) as [Hlt Hnu].
        assert (Hns : Forall nonsplit (e_of f)).
        { rewrite e_of_map. unfold CnfLink.exp_of. rewrite map_map. apply Forall_map, Forall_forall.
          intros z _. apply tmap_nonsplit. }
        (* undo BIN: the children of the rule before it was split *)
        assert (Hks : exists ks, Forall2 good_ns ks (e_of f) /\ ch = bin_kids f (e_of f) ks).
        { unfold CnfLink.head_rhs in HF.
          destruct (e_of f) as [|x0 [|x1 [|x2 e']]] eqn:Ee; try (exists ch; split; [apply HG; assumption|reflexivity]).
          inversion HF as [|k0 ? ? ? [_ [G0 _]] HF1]; subst. inversion HF1 as [|k1 ? ? ? [_ [_ G1]] HF2]; subst.
          inversion HF2; subst. inversion Hns as [|? ? N0 Nrest]; subst.
          destruct (G1 f 1 eq_refl (x1 :: x2 :: e')) as (kids1 & -> & HK1); [simpl; lia|exact Nrest| |].
          { intros r' j Hr' El' Hj. pose proof (canon_lhs r' (Hs r' Hr')) as Hin'. rewrite El', Ee in Hin'. exact Hin'. }
          exists (k0 :: kids1). split; [constructor; auto|reflexivity]. }
        destruct Hks as (ks & Hks & ->).
        destruct (final_node f ks Hlt Hnu Hks) as (chf & Hwf & Hp & _).
        destruct (chain_node rid sk f Hch chf _ _ Hwf Hp) as (chd & Hwd & Hpd).
        exists (ONode rid chd). split; [exact Hwd|]. split; [|exact Hn].
        unfold Cnf.cnf_of. rewrite Hpd. reflexivity.
      + (* __T_t *)
        split; [intros _|intros f i E; discriminate].
        rewrite Hcan in *. cbn [c_rhs term_rule] in HF.
        inversion HF as [|c1 ? ? ? [Hc1 _] HF1]; subst. inversion HF1; subst. inversion Hc1; subst. simpl. eauto.
      + (* __SP_f_i *)
        split; [intros []|]. intros f' i' E syms H2 Hns Hall. injection E as <- <-.
        pose proof (Hall r i Hin El (le_n _)) as Hr.
        destruct (split_tail_at f syms i r H2 Hr El) as [(a & b & -> & ->)|(a & b & c0 & rest & -> & ->)]; cbn [c_rhs] in HF.
        * exists ch. split; [|apply HG; auto].
          inversion HF as [|ka ? ? ? _ HF1]; subst. inversion HF1 as [|kb ? ? ? _ HF2]; subst. inversion HF2. reflexivity.
        * inversion HF as [|ka ? ? ? [_ [Ga _]] HF1]; subst. inversion HF1 as [|k2 ? ? ? [_ [_ G2]] HF2]; subst.
          inversion HF2; subst. inversion Hns as [|? ? Na Nrest]; subst.
          destruct (G2 f (S i) eq_refl (b :: c0 :: rest)) as (kids2 & -> & HK2); [simpl; lia|exact Nrest| |].
          { intros r' j Hr' El' Hj. apply (split_tail_next f a b c0 rest i r' j); auto. apply (Hall r' j); auto. lia. }
          exists (ka :: kids2). split; [|constructor; auto].
          inversion HK2 as [|kb ? kids3 ? _ HK3]; subst. inversion HK3 as [|kc ? kids4 ? _ _]; subst. reflexivity.
  Qed.

  Theorem link_sound c n : cder g c (CN (NOrig n)) -> exists d, wf_otree rules d = true /\ c = cnf_of d.
  Proof.
    intros Hd. destruct (good_all c _ Hd) as [G _]. destruct (G I) as (d & Hw & E & _). eauto.
  Qed.
End Link.
