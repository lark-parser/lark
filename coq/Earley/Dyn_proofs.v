(* Proofs about Earley/Dyn.v (the model of lark's dynamic Earley lexers).
   Specification: derivations over the "position graph" of the text - a terminal t may span i..j when j is one of
   the ends the scanner explores for t at i (ends_of: the one match of the regex engine; with complete_lex also the
   matches on the truncations of that match), ignored terminals span i..j by the engine's match; before every
   terminal and after the whole sentence any path of ignored spans may be skipped.
     gsound / gcomplete : the position-graph chart (gchart) accepts iff such a derivation exists
     dyn_*              : the model's columns are exactly gchart, it never runs out of fuel, and it accepts iff
                          gchart accepts
   Soundness of gchart and the dyn_* theorems are under H_fwd: the engine never returns an empty match (lark refuses
   zero-width terminals for the dynamic lexers when the parser is built). *)
From Coq Require Import List Arith Bool Lia.
From LV Require Import Cfg.Grammar Cfg.Analysis Cfg.Analysis_proofs Earley.Spec Earley.Alg Earley.Alg_proofs Earley.Dyn.
Import ListNotations.

Lemma dplace_place acc y : dplace acc y = opt_place (Some y) acc.
Proof. reflexivity. Qed.

Section DynSpec.
  Variable G : grammar.
  Variable start : nat.
  Variable n : nat.
  Variable rmatch : nat -> nat -> option nat.
  Variable rtrunc : nat -> nat -> nat -> option nat.
  Variable complete_lex : bool.
  Variable ignore : list nat.

  Notation ends := (ends_of rmatch rtrunc complete_lex).

  Lemma ends_spec t i j :
    In j (ends t i) <->
    exists e, rmatch t i = Some e /\
              (j = e \/ (complete_lex = true /\ exists k, 1 <= k < e - i /\ rtrunc t i (e - k) = Some j)).
  Proof.
    unfold ends_of. destruct (rmatch t i) as [e|].
    - split.
      + intros [E|H]; [exists e; auto|]. exists e. split; auto. right.
        destruct complete_lex; [|destruct H]. split; auto.
        apply in_flat_map in H. destruct H as (k & Hk & Hj). apply in_seq in Hk.
        exists k. split; [lia|]. destruct (rtrunc t i (e - k)) as [e'|]; [|destruct Hj].
        destruct Hj as [<- |[]]; auto.
      + intros (e' & E & H). inversion E; subst e'. destruct H as [-> |(Hc & k & Hk & Hj)]; [left; auto|].
        right. rewrite Hc. apply in_flat_map. exists k. split; [apply in_seq; lia|]. rewrite Hj. left; auto.
    - split; [intros []|intros (e & E & _); discriminate].
  Qed.

  Definition ign_edge (i j : nat) : Prop := exists x, In x ignore /\ rmatch x i = Some j.

  Inductive ign_path : nat -> nat -> Prop :=
  | ip_refl i : ign_path i i
  | ip_step i j k : ign_edge i j -> ign_path j k -> ign_path i k.

  Inductive gderives : list symbol -> nat -> nat -> Prop :=
  | gd_nil i : gderives [] i i
  | gd_term t ss i i' j k : ign_path i i' -> In j (ends t i') -> gderives ss j k -> gderives (T t :: ss) i k
  | gd_nt a r ss i j k : In r G -> lhs r = a -> gderives (rhs r) i j -> gderives ss j k ->
      gderives (NT a :: ss) i k.

  Definition gsentence : Prop := exists j, gderives [NT start] 0 j /\ ign_path j n.

  Lemma ign_path_trans i j k : ign_path i j -> ign_path j k -> ign_path i k.
  Proof. induction 1; auto. intros. econstructor; eauto. Qed.

  Lemma ign_path_snoc i j k : ign_path i j -> ign_edge j k -> ign_path i k.
  Proof. intros H E. eapply ign_path_trans; eauto. econstructor; eauto. constructor. Qed.

  Lemma gderives_app a b i j k : gderives a i j -> gderives b j k -> gderives (a ++ b) i k.
  Proof.
    induction 1; intros; simpl; auto.
    - econstructor; eauto.
    - econstructor; eauto.
  Qed.

  (* ignored spans in front of a derivation can be absorbed; what the derivation does not absorb (when it derives
     no terminal) is left over behind it *)
  Lemma gderives_shift ss i k : gderives ss i k ->
    forall i', ign_path i' i -> exists k', gderives ss i' k' /\ ign_path k' k.
  Proof.
    induction 1 as [i | t ss i i1 j k Hp He Hd IH | a r ss i j k Hr Hl Hd1 IH1 Hd2 IH2]; intros i0 Hi.
    - exists i0. split; auto. constructor.
    - exists k. split; [|constructor]. apply (gd_term t ss i0 i1 j k); auto. eapply ign_path_trans; eauto.
    - destruct (IH1 _ Hi) as (j' & Hd1' & Hj). destruct (IH2 _ Hj) as (k' & Hd2' & Hk).
      exists k'. split; auto. econstructor; eauto.
  Qed.

  Inductive gchart : nat -> item -> Prop :=
  | g_init r : In r G -> lhs r = start -> gchart 0 (mkItem r 0 0)
  | g_pred k x a r : gchart k x -> expect x = Some (NT a) -> In r G -> lhs r = a -> gchart k (mkItem r 0 k)
  | g_comp i k y x a : gchart i y -> expect y = Some (NT a) -> gchart k x -> expect x = None -> orig x = i ->
      lhs (irule x) = a -> gchart k (advance y)
  | g_scan k x t j : gchart k x -> expect x = Some (T t) -> In j (ends t k) -> gchart j (advance x)
  | g_carry k x t j : gchart k x -> expect x = Some (T t) -> ign_edge k j -> gchart j x
  | g_carry_start k x j : gchart k x -> is_solution start x = true -> ign_edge k j -> gchart j x.

  Definition gaccepts : Prop := exists x, gchart n x /\ is_solution start x = true.

  Lemma gchart_rule k x : gchart k x -> In (irule x) G.
  Proof. induction 1; cbn [irule advance] in *; auto. Qed.

  (* the scanner carries items that wait for a terminal, and finished start items, over ignored text *)
  Lemma gchart_carry k j x :
    gchart k x -> ign_edge k j -> is_term_item x = true \/ is_solution start x = true -> gchart j x.
  Proof.
    intros Hx He [Ht|Hs]; [|eapply g_carry_start; eauto].
    unfold is_term_item in Ht. destruct (expect x) as [[t|a]|] eqn:E; try discriminate. eapply g_carry; eauto.
  Qed.

  Definition fwd : Prop :=
    (forall t i j, rmatch t i = Some j -> i < j) /\ (forall t i lim j, rtrunc t i lim = Some j -> i < j).
  Hypothesis H_fwd : fwd.

  Lemma ends_fwd t i j : In j (ends t i) -> i < j.
  Proof.
    intros H. apply ends_spec in H. destruct H as (e & E & [-> |(_ & k & _ & Hk)]).
    - eapply (proj1 H_fwd); eauto.
    - eapply (proj2 H_fwd); eauto.
  Qed.

  Lemma ign_edge_fwd i j : ign_edge i j -> i < j.
  Proof. intros (x & _ & H). eapply (proj1 H_fwd); eauto. Qed.

  Lemma gchart_wf k x : gchart k x ->
    In (irule x) G /\ dot x <= length (rhs (irule x)) /\ orig x <= k.
  Proof.
    induction 1 as [r Hr Hl | k x a r Hc IH He Hr Hl | i k y x a Hy IHy Hey Hx IHx Hex Ho Hl
                   | k x t j Hc IH He Hj | k x t j Hc IH He Hj | k x j Hc IH Hs Hj]; cbn [irule dot orig advance] in *.
    5, 6: (* the two carry rules *) destruct IH as (A & B & C); apply ign_edge_fwd in Hj; repeat split; auto; lia.
    - repeat split; auto; lia.
    - repeat split; auto; lia.
    - destruct IHy as (A & B & C). destruct IHx as (A' & B' & C'). apply expect_some_lt in Hey.
      repeat split; auto; lia.
    - destruct IH as (A & B & C). apply expect_some_lt in He. apply ends_fwd in Hj. repeat split; auto; lia.
  Qed.

  Lemma gchart_sound k x : gchart k x ->
    exists k', gderives (firstn (dot x) (rhs (irule x))) (orig x) k' /\ ign_path k' k.
  Proof.
    induction 1 as [r Hr Hl | k x a r Hc IH He Hr Hl | i k y x a Hy IHy Hey Hx IHx Hex Ho Hl
                   | k x t j Hc IH He Hj | k x t j Hc IH He Hj | k x j Hc IH Hs Hj]; cbn [irule dot orig advance] in *.
    5, 6: (* the two carry rules *) destruct IH as (k' & D & P); exists k'; split; auto; eapply ign_path_snoc; eauto.
    - exists 0. split; constructor.
    - exists k. split; constructor.
    - destruct IHy as (i' & Dy & Py). destruct IHx as (k1 & Dx & Px).
      rewrite firstn_all2 in Dx by (apply nth_error_None, Hex).
      rewrite Ho in Dx. destruct (gderives_shift _ _ _ Dx _ Py) as (k2 & Dx' & Pk).
      exists k2. split; [|eapply ign_path_trans; eauto].
      rewrite (firstn_S_nth _ _ _ Hey). eapply gderives_app; eauto.
      econstructor; eauto. apply (gchart_wf _ _ Hx). constructor.
    - destruct IH as (k' & D & P). exists j. split; [|constructor].
      rewrite (firstn_S_nth _ _ _ He). eapply gderives_app; eauto.
      econstructor; eauto. constructor.
  Qed.

  Theorem gsound : gaccepts -> gsentence.
  Proof.
    intros (x & Hc & Hs). apply solution_spec in Hs. destruct Hs as (He & Hl & Ho).
    destruct (gchart_sound _ _ Hc) as (k' & D & P).
    rewrite firstn_all2 in D by (apply nth_error_None, He).
    rewrite Ho in D. exists k'. split; auto.
    econstructor; eauto. apply (gchart_wf _ _ Hc). constructor.
  Qed.

  Lemma gchart_carry_path k k' x t : ign_path k k' -> gchart k x -> expect x = Some (T t) -> gchart k' x.
  Proof. induction 1; auto. intros. apply IHign_path; auto. eapply g_carry; eauto. Qed.

  Lemma gchart_complete_gen b i k : gderives b i k ->
    forall r d o c, gchart i (mkItem r d o) -> skipn d (rhs r) = b ++ c ->
      gchart k (mkItem r (d + length b) o).
  Proof.
    induction 1 as [i | t ss i i1 j k Hp He Hd IH | a0 r0 ss i j k Hr Hl Hd1 IH1 Hd2 IH2];
      intros r d o c Hc E; simpl in *.
    - rewrite Nat.add_0_r. auto.
    - apply skipn_cons_inv in E as (Hx & E). rewrite <- Nat.add_succ_comm.
      apply (IH r (S d) o c); auto.
      apply (g_scan i1 (mkItem r d o) t j); auto. apply (gchart_carry_path i i1 _ t); auto.
    - apply skipn_cons_inv in E as (Hx & E). rewrite <- Nat.add_succ_comm.
      apply (IH2 r (S d) o c); auto.
      apply (g_comp i j (mkItem r d o) (mkItem r0 (length (rhs r0)) i) a0); auto using expect_complete.
      apply (IH1 r0 0 i []); [|symmetry; apply app_nil_r]. apply (g_pred i (mkItem r d o) a0); auto.
  Qed.

  Lemma gchart_carry_start_path k k' x : ign_path k k' -> gchart k x -> is_solution start x = true -> gchart k' x.
  Proof. induction 1; auto. intros. apply IHign_path; auto. eapply g_carry_start; eauto. Qed.

  Theorem gcomplete : gsentence -> gaccepts.
  Proof.
    intros (j & D & P).
    inversion D as [| |a r ss i j' k Hr Hl Hd1 Hd2]; subst. inversion Hd2; subst.
    assert (Hs : is_solution start (mkItem r (length (rhs r)) 0) = true).
    { apply solution_spec. split; [apply expect_complete|auto]. }
    exists (mkItem r (length (rhs r)) 0). split; auto.
    apply (gchart_carry_start_path j n); auto.
    apply (gchart_complete_gen _ _ _ Hd1 r 0 0 []); [constructor; auto|symmetry; apply app_nil_r].
  Qed.
End DynSpec.

(* delayed_matches as a finite map *)
Lemma dm_get_extend k es dm j e :
  In e (dm_get j (dm_extend k es dm)) <-> In e (dm_get j dm) \/ (j = k /\ In e es).
Proof.
  unfold dm_get. induction dm as [|[k' l] dm IH]; simpl.
  - destruct (Nat.eqb_spec k j) as [->|Hne]; simpl.
    + split; [intros H; right; auto|intros [[]|[_ H]]; auto].
    + split; [intros []|intros [[]|[E _]]; congruence].
  - destruct (Nat.eqb_spec k k') as [->|Hne]; simpl.
    + destruct (Nat.eqb_spec k' j) as [->|Hne']; simpl.
      * rewrite in_app_iff. split; [intros [?|?]; auto|intros [?|[_ ?]]; auto].
      * split; auto. intros [?|[E _]]; auto. congruence.
    + destruct (Nat.eqb_spec k' j) as [->|Hne']; simpl.
      * split; auto. intros [?|[E _]]; auto. congruence.
      * apply IH.
Qed.

Lemma dm_get_remove k dm j : dm_get j (dm_remove k dm) = if Nat.eqb j k then [] else dm_get j dm.
Proof.
  unfold dm_get, dm_remove. induction dm as [|[k' l] dm IH]; simpl.
  - destruct (Nat.eqb j k); auto.
  - destruct (Nat.eqb_spec k' k) as [->|Hne]; simpl.
    + destruct (Nat.eqb_spec k j) as [->|Hne']; simpl.
      * rewrite IH, Nat.eqb_refl. auto.
      * rewrite IH. destruct (Nat.eqb_spec j k); auto; try congruence.
    + destruct (Nat.eqb_spec k' j) as [->|Hne']; simpl.
      * destruct (Nat.eqb_spec j k); auto; try congruence.
      * apply IH.
Qed.

Lemma dm_get_nil j : dm_get j [] = [].
Proof. reflexivity. Qed.

Lemma fold_get_spec {A} (f : dmap -> A -> dmap) (P : A -> nat -> dentry -> Prop) :
  (forall dm a j e, In e (dm_get j (f dm a)) <-> In e (dm_get j dm) \/ P a j e) ->
  forall l dm j e, In e (dm_get j (fold_left f l dm)) <-> In e (dm_get j dm) \/ exists a, In a l /\ P a j e.
Proof.
  intros Hf. induction l as [|a l IH]; intros dm j e; simpl.
  - split; auto. intros [?|(a & [] & _)]; auto.
  - rewrite IH, Hf. split.
    + intros [[?|?]|(a' & ? & ?)]; auto; right; eauto.
    + intros [?|(a' & [<- |?] & ?)]; auto. right; eauto.
Qed.

Section DynAlg.
  Variable G : grammar.
  Variable predictions : nat -> list rule.
  Variable start : nat.
  Variable n : nat.
  Variable rmatch : nat -> nat -> option nat.
  Variable rtrunc : nat -> nat -> nat -> option nat.
  Variable complete_lex : bool.
  Variable ignore : list nat.
  Hypothesis pred_sound : forall a r, In r (predictions a) -> In r G /\ lc_reach G a (lhs r).
  Hypothesis pred_direct : forall a r, In r G -> lhs r = a -> In r (predictions a).
  Hypothesis H_fwd : fwd rmatch rtrunc.

  Notation ends := (ends_of rmatch rtrunc complete_lex).
  Notation gchart := (gchart G start rmatch rtrunc complete_lex ignore).
  Notation ign_edge := (ign_edge rmatch ignore).
  Notation scan_item := (scan_item rmatch rtrunc complete_lex).
  Notation scan_ignore := (scan_ignore start rmatch).
  Notation dscan := (dscan start rmatch rtrunc complete_lex ignore).

  Lemma gchart_wf' k x : gchart k x -> In (irule x) G /\ dot x <= length (rhs (irule x)) /\ orig x <= k.
  Proof. apply gchart_wf; auto. Qed.

  Lemma gchart_init_lc : forall b, lc_reach G start b -> forall r, In r G -> lhs r = b -> gchart 0 (mkItem r 0 0).
  Proof.
    apply (pred_lc_closed G gchart 0 start (g_pred G start rmatch rtrunc complete_lex ignore 0)).
    intros; constructor; auto.
  Qed.

  (* emits Qi Ci i j e: scan(i) with to_scan = Qi and column = Ci adds entry e under key j *)
  Definition emits (Qi Ci : list item) (i j : nat) (e : dentry) : Prop :=
    (exists x t, In x Qi /\ expect x = Some (T t) /\ In j (ends t i) /\ e = (x, true)) \/
    (ign_edge i j /\ ((exists x, In x Qi /\ e = (x, false)) \/
                      (exists x, In x Ci /\ is_solution start x = true /\ e = (x, false)))).

  Lemma scan_item_spec i dm x j e :
    In e (dm_get j (scan_item i dm x)) <->
    In e (dm_get j dm) \/ (exists t, expect x = Some (T t) /\ In j (ends t i) /\ e = (x, true)).
  Proof.
    unfold Dyn.scan_item. destruct (expect x) as [[t|a]|] eqn:E.
    - rewrite (fold_get_spec (fun dm e0 => dm_extend e0 [(x, true)] dm) (fun e0 j e => j = e0 /\ e = (x, true))).
      + split; intros [?|H]; auto; right.
        * destruct H as (e0 & Hin & -> & ->). eauto.
        * destruct H as (t' & Et & Hin & ->). inversion Et; subst t'. eauto.
      + intros dm0 a j0 e0. rewrite dm_get_extend. simpl. split.
        * intros [?|[? [<- |[]]]]; auto.
        * intros [?|[? ->]]; auto.
    - split; auto. intros [?|(t & F & _)]; auto. discriminate.
    - split; auto. intros [?|(t & F & _)]; auto. discriminate.
  Qed.

  Lemma scan_ignore_spec i Qi Ci dm x j e :
    In e (dm_get j (scan_ignore i Qi Ci dm x)) <->
    In e (dm_get j dm) \/ (rmatch x i = Some j /\
        ((exists y, In y Qi /\ e = (y, false)) \/ (exists y, In y Ci /\ is_solution start y = true /\ e = (y, false)))).
  Proof.
    unfold Dyn.scan_ignore. destruct (rmatch x i) as [e0|] eqn:E.
    - rewrite !dm_get_extend, !in_map_iff. split.
      + intros [[?|[-> (y & <- & Hy)]]|[-> (y & <- & Hy)]]; auto; right; split; auto.
        * left; eauto.
        * apply filter_In in Hy. right. exists y. tauto.
      + intros [?|[Ej [(y & Hy & ->)|(y & Hy & Hs & ->)]]]; auto; inversion Ej; subst e0.
        * left; right; split; auto. exists y; auto.
        * right; split; auto. exists y; split; auto. apply filter_In; auto.
    - split; auto. intros [?|[F _]]; auto. discriminate.
  Qed.

  Lemma dscan_dm_spec i Qi Ci dm j e :
    In e (dm_get j (fold_left (scan_ignore i Qi Ci) ignore (fold_left (scan_item i) Qi dm))) <->
    In e (dm_get j dm) \/ emits Qi Ci i j e.
  Proof.
    rewrite (fold_get_spec _ _ (fun dm0 a j0 e0 => scan_ignore_spec i Qi Ci dm0 a j0 e0)).
    rewrite (fold_get_spec _ _ (fun dm0 a j0 e0 => scan_item_spec i dm0 a j0 e0)).
    unfold emits, Dyn_proofs.ign_edge. split.
    - intros [[?|(x & Hx & t & He & Hj & ->)]|(ig & Hig & Hm & H)]; auto.
      + right; left. exists x, t; auto.
      + right; right. split; eauto.
    - intros [?|[(x & t & Hx & He & Hj & ->)|((ig & Hig & Hm) & H)]]; auto.
      + left; right. exists x; split; auto. exists t; auto.
      + right. exists ig; auto.
  Qed.

  Lemma emits_sound Qi Ci i j e :
    (forall x, In x Qi -> gchart i x) -> (forall x, In x Qi -> is_term_item x = true) ->
    (forall x, In x Ci -> gchart i x) ->
    emits Qi Ci i j e -> gchart j (realise e).
  Proof.
    intros SQ DQ SC [(x & t & Hx & He & Hj & ->)|(Hedge & [(x & Hx & ->)|(x & Hx & Hs & ->)])]; unfold realise; cbn [fst snd].
    - eapply g_scan; eauto.
    - pose proof (DQ x Hx) as Ht. unfold is_term_item in Ht.
      destruct (expect x) as [[t|a]|] eqn:E; try discriminate. eapply g_carry; eauto.
    - eapply g_carry_start; eauto.
  Qed.

  Lemma emits_fwd Qi Ci i j e : emits Qi Ci i j e -> i < j.
  Proof.
    intros [(x & t & _ & _ & Hj & _)|(He & _)].
    - eapply ends_fwd; eauto.
    - eapply ign_edge_fwd; eauto.
  Qed.

  Section GClosed.
    Variables (C Q : nat -> list item).
    Notation inT := (inT C Q).

    Record gclosed (N : nat) : Prop := mkGClosed {
      gcl_col_n : forall k x, k < N -> In x (C k) -> is_term_item x = false;
      gcl_scan_t : forall k x, k < N -> In x (Q k) -> is_term_item x = true;
      gcl_sound : forall k x, k < N -> inT k x -> gchart k x;
      gcl_init : forall r, 0 < N -> In r G -> lhs r = start -> inT 0 (mkItem r 0 0);
      gcl_pred : forall k x a r, k < N -> In x (C k) -> expect x = Some (NT a) -> In r G -> lhs r = a ->
                   inT k (mkItem r 0 k);
      gcl_comp : forall k x y, k < N -> In x (C k) -> expect x = None -> In y (C (orig x)) ->
                   expect y = Some (NT (lhs (irule x))) -> inT k (advance y);
      gcl_emit : forall k j e, k < N -> j < N -> emits (Q k) (C k) k j e -> inT j (realise e)
    }.

    Lemma ginT_C N k x : gclosed N -> k < N -> inT k x -> is_term_item x = false -> In x (C k).
    Proof. intros Cl Hk [H|H] Ht; auto. rewrite (gcl_scan_t _ Cl k x Hk H) in Ht. discriminate. Qed.
    Lemma ginT_Q N k x : gclosed N -> k < N -> inT k x -> is_term_item x = true -> In x (Q k).
    Proof. intros Cl Hk [H|H] Ht; auto. rewrite (gcl_col_n _ Cl k x Hk H) in Ht. discriminate. Qed.

    Theorem gclosed_complete N : gclosed N -> forall k x, gchart k x -> k < N -> inT k x.
    Proof.
      intros Cl. induction 1 as [r Hr Hl | k x a r Hc IH He Hr Hl | i k y x a Hy IHy Hey Hx IHx Hex Ho Hl
                   | k x t j Hc IH He Hj | k x t j Hc IH He Hj | k x j Hc IH Hs Hj]; intros Hk.
      - apply (gcl_init _ Cl); auto.
      - apply (gcl_pred _ Cl k x a); auto. apply (ginT_C N); auto. apply (term_item_NT x a He).
      - assert (Hi : i < N) by (apply gchart_wf' in Hx; lia).
        apply (gcl_comp _ Cl k x y); auto.
        + apply (ginT_C N); auto. apply term_item_None, Hex.
        + rewrite Ho. apply (ginT_C N); auto. apply (term_item_NT y a Hey).
        + rewrite Hl. exact Hey.
      - assert (Hlt : k < N) by (apply (ends_fwd _ _ _ H_fwd) in Hj; lia).
        apply (gcl_emit _ Cl k j (x, true)); auto. left. exists x, t. repeat split; auto.
        apply (ginT_Q N); auto. apply (term_item_T x t He).
      - assert (Hlt : k < N) by (apply (ign_edge_fwd _ _ _ H_fwd) in Hj; lia).
        apply (gcl_emit _ Cl k j (x, false)); auto. right. split; auto. left. exists x. split; auto.
        apply (ginT_Q N); auto. apply (term_item_T x t He).
      - assert (Hlt : k < N) by (apply (ign_edge_fwd _ _ _ H_fwd) in Hj; lia).
        apply (gcl_emit _ Cl k j (x, false)); auto. right. split; auto. right. exists x. repeat split; auto.
        apply (ginT_C N); auto. apply solution_spec in Hs. apply term_item_None, Hs.
    Qed.
  End GClosed.

  Lemma gclosed_snoc N C Q :
    gclosed C Q N ->
    (forall x, In x (C N) -> is_term_item x = false) ->
    (forall x, In x (Q N) -> is_term_item x = true) ->
    (forall x, inT C Q N x -> gchart N x) ->
    (N = 0 -> forall r, In r G -> lhs r = start -> inT C Q N (mkItem r 0 0)) ->
    (forall x a r, In x (C N) -> expect x = Some (NT a) -> In r G -> lhs r = a -> inT C Q N (mkItem r 0 N)) ->
    (forall x y, In x (C N) -> expect x = None -> In y (C (orig x)) ->
                 expect y = Some (NT (lhs (irule x))) -> inT C Q N (advance y)) ->
    (forall k e, k < N -> emits (Q k) (C k) k N e -> inT C Q N (realise e)) ->
    gclosed C Q (S N).
  Proof.
    intros Cl Dn Dt Sd Hi Hp Hc He.
    assert (Cases : forall k, k < S N -> k < N \/ k = N) by (intros; lia).
    constructor.
    - intros k x Hk. destruct (Cases k Hk) as [Hlt| ->]; [apply (gcl_col_n _ _ _ Cl k x Hlt)|apply Dn].
    - intros k x Hk. destruct (Cases k Hk) as [Hlt| ->]; [apply (gcl_scan_t _ _ _ Cl k x Hlt)|apply Dt].
    - intros k x Hk. destruct (Cases k Hk) as [Hlt| ->]; [apply (gcl_sound _ _ _ Cl k x Hlt)|apply Sd].
    - intros r _. destruct N as [|N']; [apply Hi; auto|apply (gcl_init _ _ _ Cl); lia].
    - intros k x a r Hk. destruct (Cases k Hk) as [Hlt| ->]; [apply (gcl_pred _ _ _ Cl k x a r Hlt)|apply Hp].
    - intros k x y Hk. destruct (Cases k Hk) as [Hlt| ->]; [apply (gcl_comp _ _ _ Cl k x y Hlt)|apply Hc].
    - intros k j e _ Hj Hem. pose proof (emits_fwd _ _ _ _ _ Hem) as Hlt.
      destruct (Cases j Hj) as [HjN| ->]; [apply (gcl_emit _ _ _ Cl k j e); auto; lia|apply (He k e); auto].
  Qed.

  Lemma dscan_spec i Qi Ci dm nc nq dm' :
    dscan i Qi Ci dm = (nc, nq, dm') ->
    (forall j e, In e (dm_get j dm') <-> j <> S i /\ (In e (dm_get j dm) \/ emits Qi Ci i j e)) /\
    (forall e, In e (dm_get (S i) dm) \/ emits Qi Ci i (S i) e -> In (realise e) nc \/ In (realise e) nq) /\
    (forall ch : item -> Prop, (forall e, In e (dm_get (S i) dm) \/ emits Qi Ci i (S i) e -> ch (realise e)) ->
                               forall y, In y nc \/ In y nq -> ch y) /\
    (forall y, In y nc -> is_term_item y = false) /\ (forall y, In y nq -> is_term_item y = true) /\ NoDup nc.
  Proof.
    unfold Dyn.dscan. intros H.
    set (dm2 := fold_left (scan_ignore i Qi Ci) ignore (fold_left (scan_item i) Qi dm)) in *.
    destruct (fold_left (fun acc e => dplace acc (realise e)) (dm_get (S i) dm2) ([], [])) as [c q] eqn:E.
    cbn [fst snd] in H. inversion H; subst nc nq dm'. clear H.
    destruct (places_seeds (fun acc e => dplace acc (realise e)) (fun e => Some (realise e))
                (fun acc e => dplace_place acc (realise e)) _ _ _ E) as (ND & Dc & Dq & Pin & Psd).
    split; [|repeat split; auto].
    - intros j e. rewrite dm_get_remove. destruct (Nat.eqb_spec j (S i)) as [->|Hne].
      + split; [intros []|intros [F _]; congruence].
      + split; [intros H; split; auto|intros [_ H]]; apply dscan_dm_spec, H.
    - intros e He. apply (Pin e); auto. apply dscan_dm_spec. exact He.
    - intros ch Hch. apply Psd. intros e y He Hy. inversion Hy; subst y. apply Hch, dscan_dm_spec, He.
  Qed.

  Notation dloop := (dloop G predictions start rmatch rtrunc complete_lex ignore).

  Record dinv (i : nat) (cols scans : list (list item)) (col scanq : list item) (dm : dmap) : Prop := mkDInv {
    di_lc : length cols = i;
    di_ls : length scans = i;
    (* for every continuation of the trace, as in Alg_proofs.linv *)
    di_closed : forall cs qs, gclosed (colf (cols ++ cs)) (colf (scans ++ qs)) i;
    di_nodup : NoDup col;
    di_sound_c : forall x, In x col -> gchart i x;
    di_sound_q : forall x, In x scanq -> gchart i x;
    di_col_n : forall x, In x col -> is_term_item x = false;
    di_scan_t : forall x, In x scanq -> is_term_item x = true;
    di_init : i = 0 -> forall r, In r G -> lhs r = start -> In (mkItem r 0 0) col \/ In (mkItem r 0 0) scanq;
    (* everything the earlier scans emitted is either in the seeds of this column or still pending *)
    di_pend : forall k j e, k < i -> emits (colf scans k) (colf cols k) k j e ->
                (j = i -> In (realise e) col \/ In (realise e) scanq) /\ (i < j -> In e (dm_get j dm));
    di_pend_sound : forall j e, In e (dm_get j dm) -> gchart j (realise e)
  }.

  Lemma gcolumn_step i cols scans col scanq dm :
    dinv i cols scans col scanq dm ->
    exists st, predict_and_complete predictions (pc_fuel G i) i cols col scanq = Some st /\
               (forall cs qs, gclosed (colf ((cols ++ [pc_col st]) ++ cs)) (colf ((scans ++ [pc_scan st]) ++ qs)) (S i)) /\
               (forall x, In x (pc_col st) -> gchart i x) /\ (forall x, In x (pc_scan st) -> gchart i x) /\
               (forall x, In x (pc_scan st) -> is_term_item x = true).
  Proof.
    intros I. pose proof (di_lc _ _ _ _ _ _ I) as Hlc. pose proof (di_ls _ _ _ _ _ _ I) as Hls.
    pose proof (di_closed _ _ _ _ _ _ I) as Cl.
    assert (cols_sound : forall j x, In x (nth j cols []) -> gchart j x).
    { intros j x Hx; destruct (Nat.lt_ge_cases j i) as [Hlt|Hge].
      - apply (gcl_sound _ _ _ (Cl [] []) j x Hlt); left. rewrite app_nil_r. exact Hx.
      - rewrite nth_overflow in Hx by lia; destruct Hx. }
    destruct (pc_spec G predictions pred_sound pred_direct gchart gchart_wf'
                (g_pred G start rmatch rtrunc complete_lex ignore)
                (g_comp G start rmatch rtrunc complete_lex ignore)
                i cols cols_sound col scanq Hlc (di_nodup _ _ _ _ _ _ I) (di_sound_c _ _ _ _ _ _ I)
                (di_sound_q _ _ _ _ _ _ I) (di_col_n _ _ _ _ _ _ I) (di_scan_t _ _ _ _ _ _ I)) as (st & Est & R).
    pose proof (pr_sound _ _ _ _ _ _ _ R) as Sd.
    exists st. split; auto. split; [|split; [intros x Hx; apply Sd; left; exact Hx|split;
      [intros x Hx; apply Sd; right; exact Hx|apply (pr_scan_t _ _ _ _ _ _ _ R)]]].
    intros cs qs. rewrite <- !app_assoc. cbn [app].
    pose proof (colf_app_eq cols (pc_col st) cs i Hlc) as Ec.
    pose proof (colf_app_eq scans (pc_scan st) qs i Hls) as Eq.
    apply gclosed_snoc; [apply Cl|..]; unfold inT; rewrite ?Ec, ?Eq; auto.
    - apply (pr_col_n _ _ _ _ _ _ _ R).
    - apply (pr_scan_t _ _ _ _ _ _ _ R).
    - intros Hi0 r Hr Hl. apply (pr_seed _ _ _ _ _ _ _ R), (di_init _ _ _ _ _ _ I); auto.
    - apply (pr_pred _ _ _ _ _ _ _ R).
    - apply (pr_comp _ _ _ _ _ _ _ R cs).
    - intros k e Hk Hem. rewrite !colf_app_lt in Hem by lia.
      apply (pr_seed _ _ _ _ _ _ _ R), (di_pend _ _ _ _ _ _ I k i e Hk Hem), eq_refl.
  Qed.

  Definition dout_ok (res : dresult) : Prop :=
    exists N, length (d_cols res) = N /\ length (d_scans res) = N /\
      gclosed (colf (d_cols res)) (colf (d_scans res)) N /\
      match d_out res with
      | DAccept => N = S n /\ existsb (is_solution start) (colf (d_cols res) n) = true
      | DRejectEOF => N = S n /\ existsb (is_solution start) (colf (d_cols res) n) = false
      | DRejectChar i => N = S i /\ i < n /\
          forall k j e, k <= i -> i < j -> ~ emits (colf (d_scans res) k) (colf (d_cols res) k) k j e
      | DOutOfFuel _ => False
      end.

  Lemma dloop_spec : forall rem i cols scans keys col scanq dm,
    i + rem = n -> dinv i cols scans col scanq dm ->
    dout_ok (dloop rem i cols scans keys col scanq dm).
  Proof.
    induction rem as [|rem IH]; intros i cols scans keys col scanq dm Hn I;
      destruct (gcolumn_step _ _ _ _ _ _ I) as (st & Est & Cl' & Sc' & Sq' & Dq');
      pose proof (Cl' [] []) as Cl0; rewrite !app_nil_r in Cl0;
      pose proof (di_lc _ _ _ _ _ _ I) as Hlc; pose proof (di_ls _ _ _ _ _ _ I) as Hls;
      pose proof (colf_app_eq cols (pc_col st) [] i Hlc) as Ec;
      pose proof (colf_app_eq scans (pc_scan st) [] i Hls) as Eq.
    - cbn [Dyn.dloop]. rewrite Est. assert (Hi : i = n) by lia.
      exists (S i). cbn [d_cols d_scans d_out]. rewrite !app_length, Hlc, Hls. cbn [length].
      split; [lia|split; [lia|split; [exact Cl0|]]].
      rewrite <- Hi, Ec. destruct (existsb (is_solution start) (pc_col st)) eqn:Ex; auto.
    - cbn [Dyn.dloop]. rewrite Est.
      destruct (dscan i (pc_scan st) (pc_col st) dm) as [[nc nq] dm'] eqn:Escan. cbn [fst snd].
      destruct (dscan_spec _ _ _ _ _ _ _ Escan) as (A1 & A2 & A3 & A4 & A5 & A6).
      assert (Hsound : forall j e, In e (dm_get j dm) \/ emits (pc_scan st) (pc_col st) i j e -> gchart j (realise e)).
      { intros j e [He|He]; [apply (di_pend_sound _ _ _ _ _ _ I _ _ He)|apply (emits_sound _ _ _ _ _ Sq' Dq' Sc' He)]. }
      (* everything emitted up to and including scan(i), in terms of the extended trace *)
      assert (Hem : forall k j e, k < S i ->
                emits (colf (scans ++ [pc_scan st]) k) (colf (cols ++ [pc_col st]) k) k j e ->
                (j = S i -> In (realise e) nc \/ In (realise e) nq) /\ (S i < j -> In e (dm_get j dm'))).
      { intros k j e Hk He.
        assert (Hold : i < j -> In e (dm_get j dm) \/ emits (pc_scan st) (pc_col st) i j e).
        { intros Hj. assert (Hc : k < i \/ k = i) by lia. destruct Hc as [Hlt| ->].
          - rewrite !colf_app_lt in He by lia. left. apply (di_pend _ _ _ _ _ _ I k j e Hlt He), Hj.
          - rewrite Ec, Eq in He. auto. }
        split; [intros ->; apply A2, Hold; lia|intros Hj; apply A1; split; [lia|apply Hold; lia]]. }
      assert (Rec : dout_ok (dloop rem (S i) (cols ++ [pc_col st]) (scans ++ [pc_scan st])
                              (keys ++ [map fst dm']) nc nq dm')).
      { apply IH; [lia|]. constructor; auto; try (rewrite app_length; simpl; lia).
        - intros y Hy. apply (A3 _ (Hsound (S i))). left; exact Hy.
        - intros y Hy. apply (A3 _ (Hsound (S i))). right; exact Hy.
        - discriminate.
        - intros j e He. apply A1 in He. apply Hsound, He. }
      destruct nc as [|z nc']; [destruct dm' as [|p dm'']; [destruct nq as [|z nq']|]|]; auto.
      exists (S i). cbn [d_cols d_scans d_out]. rewrite !app_length, Hlc, Hls. cbn [length].
      split; [lia|split; [lia|split; [exact Cl0|]]]. split; auto. split; [lia|].
      intros k j e Hk Hj He. destruct (Hem k j e) as [H1 H2]; [lia|exact He|].
      destruct (Nat.eq_dec j (S i)) as [->|Hne].
      + destruct (H1 eq_refl) as [[]|[]].
      + assert (F : In e (dm_get j [])) by (apply H2; lia). destruct F.
  Qed.

  Notation dres := (dparse G predictions start n rmatch rtrunc complete_lex ignore).

  Theorem dparse_ok : dout_ok dres.
  Proof.
    unfold dparse. destruct (initial predictions start) as [c0 q0] eqn:E. cbn [fst snd].
    destruct (initial_spec_gen G predictions start pred_direct (gchart 0) c0 q0) as (ND & Sc & Sq & Dc & Dq & Hi); auto.
    { intros r Hr. destruct (pred_sound _ _ Hr) as (Hg & Hreach). eapply gchart_init_lc; eauto. }
    apply dloop_spec; [lia|]. constructor; auto.
    - intros cs qs. constructor; intros; lia.
    - intros k j e F. lia.
    - intros j e F. destruct F.
  Qed.

  Theorem dyn_alg_sound k x : In x (colf (d_cols dres) k) \/ In x (colf (d_scans dres) k) -> gchart k x.
  Proof.
    destruct dparse_ok as (N & L1 & L2 & Cl & _). intros H.
    destruct (Nat.lt_ge_cases k N) as [Hlt|Hge].
    - apply (gcl_sound _ _ _ Cl k x Hlt). exact H.
    - rewrite !colf_overflow in H by lia. destruct H as [[]|[]].
  Qed.

  Theorem dyn_alg_complete k x : gchart k x -> k < length (d_cols dres) ->
    In x (colf (d_cols dres) k) \/ In x (colf (d_scans dres) k).
  Proof.
    destruct dparse_ok as (N & L1 & L2 & Cl & _). intros H Hk.
    apply (gclosed_complete _ _ N Cl k x H). lia.
  Qed.

  Theorem dyn_fuel_suffices i : d_out dres <> DOutOfFuel i.
  Proof. destruct dparse_ok as (N & _ & _ & _ & H). intros E. rewrite E in H. exact H. Qed.

  (* after an UnexpectedCharacters at i nothing of the chart lies beyond i *)
  Lemma gclosed_pad C Q i :
    gclosed C Q (S i) -> (forall k, i < k -> C k = [] /\ Q k = []) ->
    (forall k j e, k <= i -> i < j -> ~ emits (Q k) (C k) k j e) ->
    forall N, S i <= N -> gclosed C Q N.
  Proof.
    intros Cl Hempty Hno. induction N as [|N IHN]; intros HN; [lia|].
    destruct (Nat.eq_dec N i) as [->|Hne]; auto.
    destruct (Hempty N) as [EC EQ]; [lia|].
    apply gclosed_snoc; [apply IHN; lia|..]; unfold inT; rewrite ?EC, ?EQ.
    - intros x [].
    - intros x [].
    - intros x [[]|[]].
    - intros F; lia.
    - intros x a r [].
    - intros x y [].
    - intros k e Hk Hem. exfalso. destruct (Nat.le_gt_cases k i) as [Hle|Hgt].
      + apply (Hno k N e); auto; lia.
      + destruct (Hempty k Hgt) as [EC' EQ']. rewrite EC', EQ' in Hem.
        destruct Hem as [(x & t & [] & _)|(_ & [(x & [] & _)|(x & [] & _)])].
  Qed.

  Lemma dout_reject_char res i : dout_ok res -> d_out res = DRejectChar i ->
    i < n /\ length (d_cols res) = S i /\ length (d_scans res) = S i /\ forall j x, i < j -> ~ gchart j x.
  Proof.
    intros (N & L1 & L2 & Cl & Hout) Eo. rewrite Eo in Hout. destruct Hout as (HN & Hi & Hno). rewrite HN in *.
    repeat split; auto. intros j x Hj Hc.
    assert (Cl2 : gclosed (colf (d_cols res)) (colf (d_scans res)) (S j)).
    { apply (gclosed_pad _ _ i Cl); [|exact Hno|lia]. intros k Hk. split; apply colf_overflow; lia. }
    destruct (gclosed_complete _ _ (S j) Cl2 j x Hc) as [F|F]; [lia| |]; rewrite colf_overflow in F by lia; destruct F.
  Qed.

  Theorem daccepts_iff_gaccepts :
    daccepts G predictions start n rmatch rtrunc complete_lex ignore = true <->
    gaccepts G start n rmatch rtrunc complete_lex ignore.
  Proof.
    unfold daccepts. destruct dparse_ok as (N & L1 & L2 & Cl & Hout). split.
    - destruct (d_out dres); try discriminate. intros _. destruct Hout as (HN & Hex).
      apply existsb_exists in Hex. destruct Hex as (x & Hx & Hsol).
      exists x. split; auto. apply (gcl_sound _ _ _ Cl); [lia|left; auto].
    - intros (x & Hc & Hs).
      destruct (d_out dres) as [| |i|i] eqn:Eo; auto; exfalso.
      + destruct Hout as (HN & Hex).
        assert (Hin : In x (colf (d_cols dres) n)).
        { apply (ginT_C (colf (d_cols dres)) (colf (d_scans dres)) N); auto; [lia| |].
          - apply (gclosed_complete _ _ N Cl); auto; lia.
          - apply solution_spec in Hs. apply term_item_None, Hs. }
        assert (Ht : existsb (is_solution start) (colf (d_cols dres) n) = true).
        { apply existsb_exists. eauto. }
        congruence.
      + destruct (dout_reject_char dres i dparse_ok Eo) as (Hi & _ & _ & Hno). apply (Hno n x); auto.
  Qed.
End DynAlg.

(* lark's configuration: the prediction table of Earley/Alg.v *)
Section DynTop.
  Variable G : grammar.
  Variable start n : nat.
  Variable rmatch : nat -> nat -> option nat.
  Variable rtrunc : nat -> nat -> nat -> option nat.
  Variable complete_lex : bool.
  Variable ignore : list nat.
  Hypothesis H_fwd : fwd rmatch rtrunc.

  Notation res := (dyn_parse G start n rmatch rtrunc complete_lex ignore).

  Theorem dyn_trace_is_gchart k x :
    k < length (d_cols res) ->
    (In x (colf (d_cols res) k) \/ In x (colf (d_scans res) k)
     <-> gchart G start rmatch rtrunc complete_lex ignore k x).
  Proof.
    intros Hk. split.
    - apply (dyn_alg_sound G _ start n rmatch rtrunc complete_lex ignore (pred_lookup_sound G) (pred_lookup_direct G) H_fwd).
    - intros H. apply (dyn_alg_complete G _ start n rmatch rtrunc complete_lex ignore (pred_lookup_sound G) (pred_lookup_direct G) H_fwd); auto.
  Qed.

  Theorem dyn_never_out_of_fuel i : d_out res <> DOutOfFuel i.
  Proof. apply (dyn_fuel_suffices G _ start n rmatch rtrunc complete_lex ignore (pred_lookup_sound G) (pred_lookup_direct G) H_fwd). Qed.

  Theorem dyn_accepts_iff_gsentence :
    dyn_accepts G start n rmatch rtrunc complete_lex ignore = true <->
    gsentence G start n rmatch rtrunc complete_lex ignore.
  Proof.
    unfold dyn_accepts.
    rewrite (daccepts_iff_gaccepts G _ start n rmatch rtrunc complete_lex ignore (pred_lookup_sound G) (pred_lookup_direct G) H_fwd).
    split; [apply gsound; auto|apply gcomplete].
  Qed.
End DynTop.

(* Terminals that are fixed strings: the engine's match at i is "the string is a prefix of the text here", so the
   position-graph language is the character-level language of the grammar with ignored strings allowed before
   every terminal and at the end of the text. *)
Section DynString.
  Variable G : grammar.
  Variable start : nat.
  Variable text : list nat.
  Variable tstr : nat -> list nat.                (* the string of each terminal (rule terminals and ignored ones) *)
  Variable rmatch : nat -> nat -> option nat.
  Variable rtrunc : nat -> nat -> nat -> option nat.
  Variable complete_lex : bool.
  Variable ignore : list nat.

  Notation seg := (span nat text).
  Notation n := (length text).

  (* the regex engine on a string terminal: it matches exactly when the (non-empty) string starts here, and a
     proper truncation of the string never matches *)
  Hypothesis H_nonempty : forall t, tstr t <> [].
  Hypothesis H_match : forall t i j, rmatch t i = Some j <-> seg i j (tstr t).
  Hypothesis H_trunc : forall t i lim j, rtrunc t i lim = Some j -> i + length (tstr t) <= lim /\ seg i j (tstr t).

  Inductive igns : list nat -> Prop :=
  | ig_nil : igns []
  | ig_cons x u : In x ignore -> igns u -> igns (tstr x ++ u).

  Inductive cderives : list symbol -> list nat -> Prop :=
  | cd_nil : cderives [] []
  | cd_term t ss g u : igns g -> cderives ss u -> cderives (T t :: ss) (g ++ tstr t ++ u)
  | cd_nt a r ss u v : In r G -> lhs r = a -> cderives (rhs r) u -> cderives ss v -> cderives (NT a :: ss) (u ++ v).

  Definition csentence : Prop := exists u g, text = u ++ g /\ cderives [NT start] u /\ igns g.

  Lemma seg_len i j u : seg i j u -> j = i + length u /\ j <= n.
  Proof. intros (p & s & E & L1 & L2). split; [lia|]. rewrite E, !app_length. lia. Qed.

  Lemma seg_nil_inv i k : seg i k [] -> k = i.
  Proof. intros H. apply seg_len in H. simpl in H. lia. Qed.

  Lemma seg_pos t i j : seg i j (tstr t) -> i < j.
  Proof.
    intros H. apply seg_len in H. pose proof (H_nonempty t). destruct (tstr t); [congruence|]. simpl in H. lia.
  Qed.

  Lemma fwd_string : fwd rmatch rtrunc.
  Proof.
    split.
    - intros t i j H. apply H_match in H. eapply seg_pos; eauto.
    - intros t i lim j H. apply H_trunc in H. eapply seg_pos; apply H.
  Qed.

  Notation ends := (ends_of rmatch rtrunc complete_lex).
  Notation gderives := (gderives G rmatch rtrunc complete_lex ignore).
  Notation ign_path := (ign_path rmatch ignore).

  Lemma ends_string t i j : In j (ends t i) <-> seg i j (tstr t).
  Proof.
    rewrite ends_spec. split.
    - intros (e & E & [-> |(_ & k & Hk & Ht)]); [apply H_match; auto|].
      apply H_trunc in Ht. apply H_match, seg_len in E. lia.
    - intros H. exists j. split; [apply H_match; auto|left; auto].
  Qed.

  Lemma ign_path_igns i j : ign_path i j -> exists g, igns g /\ (i <= n -> seg i j g).
  Proof.
    induction 1 as [i|i j k (x & Hx & Hm) Hp (g & Hg & Hs)].
    - exists []. split; [constructor|]. intros. apply span_nil; auto.
    - apply H_match in Hm. exists (tstr x ++ g). split; [constructor; auto|].
      intros _. eapply span_app; eauto. apply Hs. apply seg_len in Hm. lia.
  Qed.

  Lemma igns_ign_path g : igns g -> forall i j, seg i j g -> ign_path i j.
  Proof.
    induction 1 as [|x u Hx Hu IH]; intros i j Hs.
    - apply seg_nil_inv in Hs. subst. constructor.
    - apply span_split in Hs. destruct Hs as [S1 S2].
      econstructor; [|apply IH; eauto]. exists x. split; auto. apply H_match; auto.
  Qed.

  Lemma gderives_cderives ss i k : gderives ss i k -> i <= n -> exists u, cderives ss u /\ seg i k u.
  Proof.
    induction 1 as [i | t ss i i1 j k Hp He Hd IH | a r ss i j k Hr Hl Hd1 IH1 Hd2 IH2]; intros Hi.
    - exists []. split; [constructor|apply span_nil; auto].
    - destruct (ign_path_igns _ _ Hp) as (g & Hg & Sg). specialize (Sg Hi).
      apply ends_string in He. destruct IH as (u & Hu & Su); [apply seg_len in He; lia|].
      exists (g ++ tstr t ++ u). split; [constructor; auto|].
      eapply span_app; eauto. eapply span_app; eauto.
    - destruct (IH1 Hi) as (u & Hu & Su). destruct IH2 as (v & Hv & Sv); [apply seg_len in Su; lia|].
      exists (u ++ v). split; [econstructor; eauto|eapply span_app; eauto].
  Qed.

  Lemma cderives_gderives ss u : cderives ss u -> forall i k, seg i k u -> gderives ss i k.
  Proof.
    induction 1 as [| t ss g u Hg Hu IH | a r ss u v Hr Hl Hu IHu Hv IHv]; intros i k Hs.
    - apply seg_nil_inv in Hs. subst. constructor.
    - apply span_split in Hs. destruct Hs as [S1 S2]. apply span_split in S2. destruct S2 as [S2 S3].
      apply (gd_term _ _ _ _ _ t ss i (i + length g) (i + length g + length (tstr t)) k).
      + eapply igns_ign_path; eauto.
      + apply ends_string; auto.
      + apply IH; auto.
    - apply span_split in Hs. destruct Hs as [S1 S2]. econstructor; eauto.
  Qed.

  Theorem gsentence_iff_csentence :
    gsentence G start n rmatch rtrunc complete_lex ignore <-> csentence.
  Proof.
    split.
    - intros (j & D & P). destruct (gderives_cderives _ _ _ D (Nat.le_0_l _)) as (u & Hu & Su).
      destruct (ign_path_igns _ _ P) as (g & Hg & Sg).
      assert (Hj : j <= n) by (apply seg_len in Su; lia).
      exists u, g. repeat split; auto. symmetry. apply span_whole. eapply span_app; eauto.
    - intros (u & g & E & Hu & Hg).
      assert (S : seg 0 n (u ++ g)) by (apply span_whole; auto).
      apply span_split in S as (S1 & S2). exists (length u).
      split; [apply (cderives_gderives _ _ Hu), S1|apply (igns_ign_path _ Hg), S2].
  Qed.

  (* the model of the dynamic lexers accepts exactly the character-level language *)
  Theorem dyn_accepts_iff_csentence :
    dyn_accepts G start n rmatch rtrunc complete_lex ignore = true <-> csentence.
  Proof.
    rewrite (dyn_accepts_iff_gsentence G start n rmatch rtrunc complete_lex ignore fwd_string).
    apply gsentence_iff_csentence.
  Qed.
End DynString.
