(* C17 - proofs about the module model (Mod/Modules.v), in this order:
   - name mangling (GrammarBuilder.get_mangle): injective under one prefix, fresh for private names, disjoint under
     different prefixes unless a user name contains "__";
   - the definition table: _define, %override (replaced where it stands), %extend (alternative added);
   - _remove_unused is reachability from the imported names;
   - runs of _define: a collision under the mangle is an error of the builder;
   - terminals as heap objects: %override makes a new tree object, %extend changes the object in place;
   - do_import and load_grammar: import = inlining of the mangled definitions, a clash is an error, no capture;
   - templates (ApplyTemplates / _ReplaceSymbols): an instance is the substitution of the arguments, and its cache
     key identifies template and arguments. *)
From Coq Require Import List String Ascii Bool ZArith Arith Lia.
From LV Require Import Mod.Modules.
Import ListNotations.
Local Open Scope string_scope.

Lemma app_str_assoc a b c : (a ++ b) ++ c = a ++ (b ++ c).
Proof. induction a; simpl; auto. now rewrite IHa. Qed.

Lemma app_str_inj_l a b c : a ++ b = a ++ c -> b = c.
Proof. induction a; simpl; auto. intros H; inversion H; auto. Qed.

Lemma app_str_nil_r s : s ++ "" = s.
Proof. induction s; simpl; congruence. Qed.

Lemma length_app_str a b : String.length (a ++ b) = String.length a + String.length b.
Proof. induction a; simpl; auto. Qed.

Fixpoint has_char (c : ascii) (s : string) : bool :=
  match s with EmptyString => false | String d r => Ascii.eqb c d || has_char c r end.

Lemma split_at_char c a : forall a' b b',
  has_char c a = false -> has_char c a' = false ->
  a ++ String c b = a' ++ String c b' -> a = a' /\ b = b'.
Proof.
  induction a as [|x a IH]; intros [|x' a'] b b'; simpl; intros Ha Ha' H.
  - inversion H; auto.
  - inversion H. subst x'. rewrite Ascii.eqb_refl in Ha'. discriminate.
  - inversion H. subst x. rewrite Ascii.eqb_refl in Ha. discriminate.
  - inversion H. subst x'. apply orb_false_iff in Ha, Ha'.
    destruct (IH a' b b') as [-> ->]; tauto.
Qed.

Lemma app_str_inj_r c : forall a b, a ++ c = b ++ c -> a = b.
Proof.
  induction a as [|x a IH]; intros [|y b]; simpl; intros H; auto.
  - apply (f_equal String.length) in H. simpl in H. rewrite length_app_str in H. lia.
  - apply (f_equal String.length) in H. simpl in H. rewrite length_app_str in H. lia.
  - inversion H. f_equal. now apply IH.
Qed.

Lemma has_char_mid c a b : has_char c (a ++ String c b) = true.
Proof. induction a; simpl. now rewrite Ascii.eqb_refl. rewrite IHa. apply orb_true_r. Qed.

Lemma mem_In x l : mem x l = true <-> In x l.
Proof.
  induction l as [|y r IH]; simpl.
  - split; [discriminate | tauto].
  - rewrite orb_true_iff, IH. destruct (String.eqb_spec x y) as [->|Hne].
    + split; auto.
    + split; intros [H|H]; auto; try discriminate; congruence.
Qed.

Lemma mem_false_In x l : mem x l = false <-> ~ In x l.
Proof. rewrite <- mem_In. destruct (mem x l); split; congruence. Qed.

Lemma mem_app x a b : mem x (a ++ b) = mem x a || mem x b.
Proof. induction a; simpl; auto. rewrite IHa. now rewrite orb_assoc. Qed.

Lemma dedup_In x l : In x (dedup l) <-> In x l.
Proof.
  induction l as [|y r IH]; simpl; [tauto|].
  destruct (mem y r) eqn:E.
  - rewrite IH. split; auto. intros [<-|H]; auto. now apply mem_In.
  - simpl. rewrite IH. tauto.
Qed.

Lemma assoc_In_pair {A} x (l : list (string * A)) a : assoc x l = Some a -> In (x, a) l.
Proof.
  induction l as [|[k v] r IH]; simpl; [discriminate|].
  destruct (String.eqb_spec x k); intros H; [inversion H; subst; auto | auto].
Qed.

Lemma NoDup_map_inj {A B} (f : A -> B) l x y :
  NoDup (map f l) -> In x l -> In y l -> f x = f y -> x = y.
Proof.
  induction l as [|a r IH]; simpl; [tauto|]. intros Hnd Hx Hy Hf. inversion Hnd as [|? ? Hn Hr]; subst.
  destruct Hx as [->|Hx], Hy as [->|Hy]; auto.
  - elim Hn. rewrite Hf. now apply in_map.
  - elim Hn. rewrite <- Hf. now apply in_map.
Qed.

Lemma Forall2_In_r {A B} (R : A -> B -> Prop) l l' y :
  Forall2 R l l' -> In y l' -> exists x, In x l /\ R x y.
Proof.
  induction 1; simpl; [tauto|]. intros [<-|H1]; eauto. destruct (IHForall2 H1) as (x0 & ? & ?). eauto.
Qed.

Lemma map_id_Forall {A} (f : A -> A) l : Forall (fun x => f x = x) l -> map f l = l.
Proof. induction 1; simpl; congruence. Qed.

Lemma filter_map_comm {A B} (g : A -> B) (p : A -> bool) (q : B -> bool) l :
  (forall x, q (g x) = p x) -> filter q (map g l) = map g (filter p l).
Proof. intros H. induction l as [|x l IH]; simpl; auto. rewrite H. destruct (p x); simpl; now rewrite IH. Qed.

Lemma forallb_map_comm {A B} (g : A -> B) (p : A -> bool) (q : B -> bool) l :
  (forall x, q (g x) = p x) -> forallb q (map g l) = forallb p l.
Proof. intros H. induction l as [|x l IH]; simpl; auto. now rewrite H, IH. Qed.

Lemma forallb_ext' {A} (f g : A -> bool) l : (forall x, f x = g x) -> forallb f l = forallb g l.
Proof. intros H. induction l; simpl; auto. now rewrite H, IHl. Qed.

Lemma fold_left_ext {A B} (f g : A -> B -> A) l : (forall a b, f a b = g a b) -> forall a, fold_left f l a = fold_left g l a.
Proof. intros H. induction l; simpl; intros; auto. rewrite H. auto. Qed.

Lemma fold_left_filter_skip {A B} (f : A -> B -> A) (p : B -> bool) l :
  (forall a x, p x = false -> f a x = a) -> forall a, fold_left f (filter p l) a = fold_left f l a.
Proof.
  intros H. induction l as [|x l IH]; simpl; intros a; auto.
  destruct (p x) eqn:E; simpl; auto. now rewrite (H a x E).
Qed.

Lemma flat_map_map_comm {A A' B B'} (f : A -> list B) (f' : A' -> list B') (g : A -> A') (h : B -> B') l :
  Forall (fun x => f' (g x) = map h (f x)) l -> flat_map f' (map g l) = map h (flat_map f l).
Proof. induction 1; simpl; auto. rewrite map_app. congruence. Qed.

Lemma bind_ext {A B} (r r' : result A) (k k' : A -> result B) :
  r = r' -> (forall a, k a = k' a) -> bind r k = bind r' k'.
Proof. intros -> H. destruct r'; simpl; auto. Qed.

Lemma fold_bind_err {A S} (F : S -> A -> result S) l e :
  fold_left (fun acc x => s <- acc ;; F s x) l (Err e) = Err e.
Proof. induction l; simpl; auto. Qed.

Lemma fold_bind_preserves {A S} (F : S -> A -> result S) (P : S -> Prop) l :
  (forall s a s1, In a l -> F s a = Ok s1 -> P s -> P s1) ->
  forall s s', fold_left (fun acc x => s <- acc ;; F s x) l (Ok s) = Ok s' -> P s -> P s'.
Proof.
  induction l as [|a l IH]; simpl; intros Hstep s s' H Hs.
  - now inversion H; subst.
  - destruct (F s a) as [s1|e] eqn:E; [|rewrite fold_bind_err in H; discriminate].
    apply (IH (fun s0 a0 s2 Ha => Hstep s0 a0 s2 (or_intror Ha)) s1 s' H). eapply Hstep; eauto.
Qed.

Lemma fold_bind_sim {A S S'} (f : S -> S') (F : S -> A -> result S) (F' : S' -> A -> result S') l :
  (forall s a s1, In a l -> F s a = Ok s1 -> F' (f s) a = Ok (f s1)) ->
  forall s s', fold_left (fun acc x => s <- acc ;; F s x) l (Ok s) = Ok s' ->
               fold_left (fun acc x => s <- acc ;; F' s x) l (Ok (f s)) = Ok (f s').
Proof.
  induction l as [|a l IH]; simpl; intros Hstep s s' H.
  - now inversion H.
  - destruct (F s a) as [s1|e] eqn:E; [|rewrite fold_bind_err in H; discriminate].
    rewrite (Hstep _ _ _ (or_introl eq_refl) E). apply IH; auto.
Qed.

Lemma plain_cross p r s' :
  String "_" (p ++ "__" ++ r) = p ++ "__" ++ s' -> exists s'', s' = String "_" s''.
Proof.
  revert r s'. induction p as [|c p IH]; simpl; intros r s' H.
  - inversion H. eauto.
  - inversion H as [[Hc Hr]]. subst c. apply IH in Hr. exact Hr.
Qed.

Lemma plain_under p r : plain p (String "_" r) = String "_" (p ++ "__" ++ r).
Proof. reflexivity. Qed.

Lemma plain_not_under p s :
  (forall r, s <> String "_" r) -> plain p s = p ++ "__" ++ s.
Proof.
  destruct s as [|c r]; simpl; auto. intros H.
  destruct (Ascii.eqb_spec c "_"); auto. subst. now elim (H r).
Qed.

Lemma starts_under_dec s : (exists r, s = String "_" r) \/ (forall r, s <> String "_" r).
Proof.
  destruct s as [|c r]. right; congruence.
  destruct (Ascii.eqb_spec c "_"). left; subst; eauto. right; congruence.
Qed.

Theorem plain_injective p s s' : plain p s = plain p s' -> s = s'.
Proof.
  destruct (starts_under_dec s) as [(r & ->)|Hs]; destruct (starts_under_dec s') as [(r' & ->)|Hs'].
  - rewrite !plain_under. intros H. inversion H as [H1].
    apply app_str_inj_l in H1. apply (app_str_inj_l "__") in H1. now subst.
  - rewrite plain_under, (plain_not_under p s') by auto. intros H.
    apply plain_cross in H. destruct H as (s'' & ->). now elim (Hs' s'').
  - rewrite plain_under, (plain_not_under p s) by auto. intros H. symmetry in H.
    apply plain_cross in H. destruct H as (s'' & ->). now elim (Hs s'').
  - rewrite !plain_not_under by auto. intros H.
    apply app_str_inj_l in H. now apply (app_str_inj_l "__") in H.
Qed.

Lemma plain_length p s : String.length (plain p s) = String.length p + 2 + String.length s.
Proof.
  destruct (starts_under_dec s) as [(r & ->)|Hs].
  - rewrite plain_under. simpl. rewrite !length_app_str. simpl. lia.
  - rewrite plain_not_under by auto. rewrite !length_app_str. simpl. lia.
Qed.

(* a private name of an imported module never keeps its own spelling *)
Theorem plain_fresh p s : plain p s <> s.
Proof. intros H. apply (f_equal String.length) in H. rewrite plain_length in H. lia. Qed.

Lemma mangle1_unaliased l s : assoc s (snd l) = None -> mangle1 l s = plain (fst l) s.
Proof. unfold mangle1. now intros ->. Qed.

Lemma mangle1_aliased l s a : assoc s (snd l) = Some a -> mangle1 l s = a.
Proof. unfold mangle1. now intros ->. Qed.

Theorem mangle1_collision l s s' :
  mangle1 l s = mangle1 l s' -> s <> s' ->
  (exists a, assoc s (snd l) = Some a /\ (assoc s' (snd l) = Some a \/
                                          (assoc s' (snd l) = None /\ a = plain (fst l) s'))) \/
  (exists a, assoc s' (snd l) = Some a /\ assoc s (snd l) = None /\ a = plain (fst l) s).
Proof.
  unfold mangle1. destruct (assoc s (snd l)) as [a|] eqn:E1; destruct (assoc s' (snd l)) as [a'|] eqn:E2; intros H Hne.
  - left. exists a. subst. auto.
  - left. exists a. auto.
  - right. exists a'. auto.
  - apply plain_injective in H. contradiction.
Qed.

Lemma mangle_cons l ls s : mangle (l :: ls) s = mangle ls (mangle1 l s).
Proof. reflexivity. Qed.

Lemma mangle_nil s : mangle [] s = s.
Proof. reflexivity. Qed.

Fixpoint has_dunder (s : string) : bool :=
  match s with
  | String a ((String b _) as r) => (Ascii.eqb a "_" && Ascii.eqb b "_") || has_dunder r
  | _ => false
  end.

Definition starts_under (s : string) : bool :=
  match s with String c _ => Ascii.eqb c "_" | _ => false end.

Definition body (s : string) : string :=
  match s with String c r => if Ascii.eqb c "_" then r else s | _ => s end.

Lemma plain_body p s :
  plain p s = (if starts_under s then "_" else "") ++ p ++ "__" ++ body s.
Proof.
  destruct s as [|c r]; simpl; auto. destruct (Ascii.eqb c "_"); reflexivity.
Qed.

Lemma has_dunder_app_r a b : has_dunder b = true -> has_dunder (a ++ b) = true.
Proof.
  induction a as [|c a IH]; simpl; auto. intros H.
  specialize (IH H). destruct (a ++ b) eqn:E; [discriminate|].
  rewrite IH. apply orb_true_r.
Qed.

Lemma has_dunder_mid a b : has_dunder (a ++ "__" ++ b) = true.
Proof. apply has_dunder_app_r. simpl. destruct b; reflexivity. Qed.

Lemma app_str_split p q x y :
  p ++ x = q ++ y -> exists w, (q = p ++ w /\ x = w ++ y) \/ (p = q ++ w /\ y = w ++ x).
Proof.
  revert q. induction p as [|c p IH]; simpl; intros q H.
  - exists q. left. auto.
  - destruct q as [|d q]; simpl in H.
    + exists (String c p). right. auto.
    + inversion H as [[Hc Hr]]. subst d. destruct (IH _ Hr) as (w & [[-> ->]|[-> ->]]).
      * exists w. left. auto.
      * exists w. right. auto.
Qed.

Lemma dunder_overlap w b b' :
  "__" ++ b = w ++ "__" ++ b' -> starts_under b = false -> has_dunder b = false -> w = "".
Proof.
  intros H Hs Hd. destruct w as [|c1 w]; auto. exfalso.
  simpl in H. inversion H as [[Hc1 H1]]. destruct w as [|c2 w].
  - simpl in H1. inversion H1 as [[H2]]. subst b. simpl in Hs. discriminate.
  - simpl in H1. inversion H1 as [[Hc2 H2]]. subst b.
    change (w ++ String "_" (String "_" b')) with (w ++ "__" ++ b') in Hd.
    rewrite has_dunder_mid in Hd. discriminate.
Qed.

Lemma plain_under_cross p q x y :
  starts_under p = false -> starts_under q = false -> starts_under y = false ->
  String "_" (p ++ "__" ++ x) <> q ++ "__" ++ y.
Proof.
  intros Hp Hq Hy H. destruct q as [|c q]; simpl in H; injection H as H.
  - destruct p as [|c p]; simpl in H; injection H as H; subst; discriminate.
  - subst c. discriminate.
Qed.

Theorem plain_prefix_disjoint p q s s' :
  starts_under p = false -> starts_under q = false ->
  starts_under (body s) = false -> starts_under (body s') = false ->
  has_dunder (body s) = false -> has_dunder (body s') = false ->
  plain p s = plain q s' -> p = q /\ s = s'.
Proof.
  intros Hp Hq Hb Hb' Hd Hd' H.
  assert (Hpq : p = q).
  { rewrite !plain_body in H.
    assert (Hu : p ++ "__" ++ body s = q ++ "__" ++ body s').
    { destruct (starts_under s), (starts_under s'); simpl in H.
      - now inversion H.
      - now apply plain_under_cross in H.
      - symmetry in H. now apply plain_under_cross in H.
      - exact H. }
    (* one prefix extends the other by w, and w is empty: else "__" would overlap a body *)
    destruct (app_str_split _ _ _ _ Hu) as (w & [[-> Hw]|[-> Hw]]);
      apply dunder_overlap in Hw; auto; subst w; now rewrite app_str_nil_r. }
  subst q. split; auto. now apply plain_injective in H.
Qed.

Lemma defined_find n l : defined n l = true <-> exists d, find_def n l = Some d.
Proof.
  unfold defined. destruct (find_def n l) as [d|]; split; [eauto | reflexivity | discriminate |].
  intros (d & H); discriminate.
Qed.

Lemma find_def_name n l d : find_def n l = Some d -> d_name d = n /\ In d l.
Proof.
  induction l as [|x r IH]; simpl; [discriminate|].
  destruct (String.eqb_spec n (d_name x)).
  - intros H; inversion H; subst; auto.
  - intros H. destruct (IH H). auto.
Qed.

Lemma defined_In n l : defined n l = true <-> In n (map d_name l).
Proof.
  unfold defined. induction l as [|x r IH]; simpl.
  - split; [discriminate | tauto].
  - destruct (String.eqb_spec n (d_name x)).
    + split; auto.
    + rewrite IH. split; auto. intros [H|H]; [congruence | auto].
Qed.

Lemma defined_false_In n l : defined n l = false <-> ~ In n (map d_name l).
Proof. rewrite <- defined_In. destruct (defined n l); split; congruence. Qed.

Lemma set_def_undefined d l : defined (d_name d) l = false -> set_def d l = (l ++ [d])%list.
Proof.
  unfold defined. induction l as [|x r IH]; simpl; auto.
  destruct (String.eqb_spec (d_name d) (d_name x)); [discriminate|].
  intros H. now rewrite IH.
Qed.

Lemma set_def_names d l : defined (d_name d) l = true -> map d_name (set_def d l) = map d_name l.
Proof.
  unfold defined. induction l as [|x r IH]; simpl; [discriminate|].
  destruct (String.eqb_spec (d_name d) (d_name x)); simpl.
  - now rewrite e.
  - intros H. now rewrite IH.
Qed.

Lemma find_set_def n d l :
  find_def n (set_def d l) = if String.eqb n (d_name d) then Some d else find_def n l.
Proof.
  induction l as [|x r IH]; simpl.
  - destruct (String.eqb n (d_name d)); auto.
  - destruct (String.eqb_spec (d_name d) (d_name x)) as [E|E]; simpl.
    + rewrite <- E. destruct (String.eqb n (d_name d)); auto.
    + rewrite IH. destruct (String.eqb_spec n (d_name x)) as [->|]; auto.
      destruct (String.eqb_spec (d_name x) (d_name d)); congruence.
Qed.

Lemma find_set_def_same d l : find_def (d_name d) (set_def d l) = Some d.
Proof. now rewrite find_set_def, String.eqb_refl. Qed.

Lemma find_set_def_other n d l : n <> d_name d -> find_def n (set_def d l) = find_def n l.
Proof. intros H. rewrite find_set_def. now destruct (String.eqb_spec n (d_name d)). Qed.

Definition norm_def (gkeep : bool) (d : defn) : defn :=
  mkDef (d_name d) (d_term d) (d_tree d) (d_params d) (check_options gkeep (d_opts d)).

Lemma define_ok g o d l l' :
  define g o d l = Ok l' ->
  l' = set_def (norm_def g d) l /\ defined (d_name d) l = o /\ String.prefix "__" (d_name d) = false.
Proof.
  unfold define. destruct (defined (d_name d) l) eqn:E; destruct o; simpl; try discriminate;
    destruct (String.prefix "__" (d_name d)); try discriminate; intros H; inversion H; auto.
Qed.

Theorem override_replaces g d l l' :
  define g true d l = Ok l' ->
  defined (d_name d) l = true /\
  map d_name l' = map d_name l /\
  find_def (d_name d) l' = Some (norm_def g d) /\
  (forall n, n <> d_name d -> find_def n l' = find_def n l).
Proof.
  intros H. apply define_ok in H. destruct H as (-> & Hd & _). repeat split; auto.
  - now apply set_def_names.
  - apply (find_set_def_same (norm_def g d)).
  - intros n. apply (find_set_def_other n (norm_def g d)).
Qed.

Theorem override_needs_definition g d l : defined (d_name d) l = false -> define g true d l = Err ENoOverride.
Proof. unfold define. now intros ->. Qed.

Lemma list_eqb_eq a b : list_eqb a b = true -> a = b.
Proof.
  revert b. induction a as [|x r IH]; intros [|y r']; simpl; try discriminate; auto.
  rewrite andb_true_iff. intros [H1 H2]. apply String.eqb_eq in H1. subst. f_equal. now apply IH.
Qed.

Lemma list_eqb_refl a : list_eqb a a = true.
Proof. induction a; simpl; auto. now rewrite String.eqb_refl. Qed.

Lemma add_alternative_spec exp dd ch :
  add_alternative exp (Nd dd ch) = Nd dd (exp :: ch) /\ incl ch (exp :: ch) /\ In exp (exp :: ch).
Proof. simpl. repeat split; auto with datatypes. Qed.

Lemma extend_ok d l l' :
  extend d l = Ok l' ->
  exists old base,
    find_def (d_name d) l = Some old /\ d_term d = d_term old /\ d_params d = d_params old /\
    d_tree old = Some base /\
    l' = match d_tree d with
         | Some exp => set_def (mkDef (d_name old) (d_term old) (Some (add_alternative exp base))
                                      (d_params old) (d_opts old)) l
         | None => l
         end.
Proof.
  unfold extend. destruct (find_def (d_name d) l) as [old|]; [|discriminate].
  destruct (Bool.eqb (d_term d) (d_term old)) eqn:Ek; [|discriminate].
  destruct (list_eqb (d_params d) (d_params old)) eqn:Ep; [|discriminate].
  destruct (d_tree old) as [base|] eqn:Et; [|discriminate]. simpl. intros H.
  exists old, base. split; [reflexivity|]. split; [now apply eqb_prop|]. split; [now apply list_eqb_eq|].
  split; [exact Et|]. destruct (d_tree d); now inversion H.
Qed.

Theorem extend_is_alternative d l l' :
  extend d l = Ok l' ->
  forall exp, d_tree d = Some exp ->
  exists old base,
    find_def (d_name d) l = Some old /\ d_tree old = Some base /\
    d_term old = d_term d /\ d_params old = d_params d /\
    find_def (d_name d) l' =
      Some (mkDef (d_name old) (d_term old) (Some (add_alternative exp base)) (d_params old) (d_opts old)) /\
    map d_name l' = map d_name l /\
    (forall n, n <> d_name d -> find_def n l' = find_def n l).
Proof.
  intros H exp Hexp. apply extend_ok in H. destruct H as (old & base & Ef & Hk & Hp & Et & ->). rewrite Hexp.
  destruct (find_def_name _ _ _ Ef) as [Hn _]. rewrite <- Hn in Ef |- *.
  exists old, base. repeat split; auto.
  - apply (find_set_def_same (mkDef (d_name old) _ _ _ _)).
  - apply set_def_names, defined_find. eauto.
  - intros n. apply (find_set_def_other n (mkDef (d_name old) _ _ _ _)).
Qed.

Inductive Reach (l : list defn) (roots : list string) : string -> Prop :=
| R_root x : In x roots -> Reach l roots x
| R_step x y : Reach l roots x -> In y (rule_deps l x) -> Reach l roots y.

Lemma reach_incl fuel l v x : In x v -> In x (reach fuel l v).
Proof.
  revert v. induction fuel as [|f IH]; simpl; intros v H; auto.
  destruct (dedup _) eqn:E; auto. apply IH. apply in_or_app. now left.
Qed.

Lemma reach_sound l roots fuel v :
  (forall x, In x v -> Reach l roots x) -> forall x, In x (reach fuel l v) -> Reach l roots x.
Proof.
  revert v. induction fuel as [|f IH]; simpl; intros v Hv x Hx; auto.
  destruct (dedup _) as [|n new] eqn:E; auto.
  apply (IH (v ++ n :: new)%list); auto.
  intros y Hy. apply in_app_or in Hy. destruct Hy as [Hy|Hy]; auto.
  rewrite <- E in Hy. apply (proj1 (dedup_In _ _)) in Hy. apply filter_In in Hy. destruct Hy as [Hy _].
  apply in_flat_map in Hy. destruct Hy as (z & Hz & Hyz).
  apply R_step with (x := z); auto.
Qed.

Lemma closed_complete l roots v :
  closed_under l v = true -> (forall x, In x roots -> In x v) ->
  forall x, Reach l roots x -> In x v.
Proof.
  intros Hc Hr x H. induction H as [x Hx|x y Hxy IH Hy]; auto.
  unfold closed_under in Hc. rewrite forallb_forall in Hc. specialize (Hc _ IH).
  rewrite forallb_forall in Hc. apply mem_In. now apply Hc.
Qed.

Theorem remove_unused_is_reachability l used kept :
  remove_unused l used = Ok kept ->
  kept = filter (fun d => mem (d_name d)
                   (reach (List.length used + total_syms l + 1) l (dedup used))) l /\
  (forall d, In d kept <-> In d l /\ Reach l used (d_name d)).
Proof.
  unfold remove_unused. set (v := reach _ l (dedup used)).
  destruct (closed_under l v) eqn:Hc; [|discriminate]. intros H; inversion H; subst kept; clear H.
  split; auto. intros d. rewrite filter_In. rewrite mem_In.
  assert (Hs : forall x, In x v -> Reach l used x).
  { apply reach_sound. intros x Hx. apply (proj1 (dedup_In _ _)) in Hx. now apply R_root. }
  assert (Hk : forall x, Reach l used x -> In x v).
  { apply closed_complete; auto. intros x Hx. apply reach_incl. now apply (proj2 (dedup_In _ _)). }
  split; intros [H1 H2]; split; auto.
Qed.

Definition define_all (g : bool) (ls : list layer) (ds : list defn) (l : list defn) : result (list defn) :=
  fold_left (fun acc d => l' <- acc ;; define g false (mangle_def ls d) l') ds (Ok l).

Lemma define_seq_spec {A} g (f : A -> defn) xs : forall l l',
  fold_left (fun acc x => l0 <- acc ;; define g false (f x) l0) xs (Ok l) = Ok l' ->
  l' = (l ++ map (fun x => norm_def g (f x)) xs)%list /\
  NoDup (map (fun x => d_name (f x)) xs) /\
  (forall x, In x xs -> defined (d_name (f x)) l = false).
Proof.
  induction xs as [|x xs IH]; simpl; intros l l' H.
  - inversion H. rewrite app_nil_r. repeat split; auto. constructor. intros x [].
  - destruct (define g false (f x) l) as [l1|e] eqn:E; [|rewrite fold_bind_err in H; discriminate].
    apply define_ok in E. destruct E as (-> & Hd & _). rewrite set_def_undefined in H by exact Hd.
    apply IH in H. destruct H as (-> & Hnd & Hfresh).
    split; [now rewrite <- app_assoc|].
    assert (Hlater : forall y, In y xs -> ~ In (d_name (f y)) (map d_name l ++ [d_name (f x)])).
    { intros y Hy. specialize (Hfresh y Hy). apply defined_false_In in Hfresh. now rewrite map_app in Hfresh. }
    split.
    + constructor; auto. intros Hin. apply in_map_iff in Hin. destruct Hin as (y & Heq & Hy).
      apply (Hlater y Hy). rewrite Heq. apply in_or_app. right. now left.
    + intros y [<-|Hy]; auto. apply defined_false_In. intros Hin.
      apply (Hlater y Hy). apply in_or_app. now left.
Qed.

Lemma define_all_spec g ls ds l l' :
  define_all g ls ds l = Ok l' ->
  l' = (l ++ map (fun d => norm_def g (mangle_def ls d)) ds)%list /\
  NoDup (map (fun d => mangle ls (d_name d)) ds) /\
  (forall d, In d ds -> defined (mangle ls (d_name d)) l = false).
Proof. apply (define_seq_spec g (mangle_def ls)). Qed.

(* where the builder accepts a module, the mangle is injective on the names the module defines;
   otherwise _define raises ('defined more than once') *)
Theorem mangle_injective_or_error g ls ds l :
  (exists l', define_all g ls ds l = Ok l' /\
     forall d d', In d ds -> In d' ds -> mangle ls (d_name d) = mangle ls (d_name d') -> d = d') \/
  (exists e, define_all g ls ds l = Err e).
Proof.
  destruct (define_all g ls ds l) as [l'|e] eqn:E; [left|right; eauto].
  exists l'. split; auto. apply define_all_spec in E. destruct E as (_ & Hnd & _).
  intros d d' Hd Hd' Heq.
  apply (NoDup_map_inj (fun d => mangle ls (d_name d)) ds); auto.
Qed.

Corollary mangle_collision_is_error g ls ds l d d' :
  In d ds -> In d' ds -> d_name d <> d_name d' -> mangle ls (d_name d) = mangle ls (d_name d') ->
  exists e, define_all g ls ds l = Err e.
Proof.
  intros Hd Hd' Hne Heq. destruct (mangle_injective_or_error g ls ds l) as [(l' & _ & H)|H]; auto.
  elim Hne. now rewrite (H d d' Hd Hd' Heq).
Qed.

(* d' is d as the builder stores it: d itself when d is a rule; the same name and kind when d is a terminal, whose
   tree alloc has replaced by a pointer into the heap *)
Definition same_shape (d d' : defn) : Prop :=
  d_name d' = d_name d /\ d_term d' = d_term d /\ (d_term d = false -> d' = d).

Lemma same_shape_refl1 d : same_shape d d.
Proof. unfold same_shape. auto. Qed.

Lemma alloc_spec d b :
  same_shape d (fst (alloc d b)) /\
  b_defs (snd (alloc d b)) = b_defs b /\ b_ignore (snd (alloc d b)) = b_ignore b /\
  (forall o, o <> b_next b -> hget o (b_heap (snd (alloc d b))) = hget o (b_heap b)).
Proof.
  unfold alloc. destruct (d_term d) eqn:E; destruct (d_tree d); simpl; unfold same_shape; simpl;
    repeat split; auto; try (intros; congruence).
  intros o Ho. destruct (Nat.eqb_spec o (b_next b)); [contradiction | reflexivity].
Qed.

Lemma norm_shape g d d' : same_shape d d' -> same_shape (norm_def g d) (norm_def g d').
Proof.
  intros (N & T & E). unfold same_shape, norm_def; simpl. repeat split; auto.
  intros Ht. now rewrite (E Ht).
Qed.

Lemma define_stmt_spec g o d b b' :
  define_stmt g o d b = Ok b' ->
  exists d', same_shape d d' /\ define g o d' (b_defs b) = Ok (b_defs b') /\ b_ignore b' = b_ignore b.
Proof.
  unfold define_stmt. destruct (alloc d b) as [d' b1] eqn:Ea.
  destruct (alloc_spec d b) as (Hs & Hd & Hi & _). rewrite Ea in Hs, Hd, Hi. simpl in *.
  destruct (define g o d' (b_defs b1)) as [l|] eqn:E; simpl; [|discriminate].
  intros H; inversion H; subst b'; clear H. simpl.
  exists d'. rewrite <- Hd. auto.
Qed.

(* one name of %declare: _define of a terminal without a tree (alloc has nothing to allocate) *)
Lemma declare_step g n b :
  (l <- define g false (mkDef n true None [] (OTerm 1)) (b_defs b) ;; Ok (with_defs l b)) =
  define_stmt g false (mkDef n true None [] (OTerm 1)) b.
Proof. reflexivity. Qed.

Lemma extend_stmt_spec d b b' :
  extend_stmt d b = Ok b' -> extend d (b_defs b) = Ok (b_defs b') /\ b_ignore b' = b_ignore b.
Proof.
  unfold extend_stmt. destruct (extend d (b_defs b)) as [l|]; simpl; [|discriminate].
  destruct (find_def (d_name d) (b_defs b)) as [old|], (d_tree d); try (intros H; inversion H; split; reflexivity).
  destruct (d_tree old) as [[ | | |o]|]; try (intros H; inversion H; split; reflexivity).
  destruct (hget o (b_heap b)); intros H; inversion H; split; reflexivity.
Qed.

(* inside an imported module (non-empty chain: %ignore is skipped) a statement preserves what the
   builder's _define and _extend preserve *)
Lemma apply_stmt_preserves (P : builder -> Prop) g ls s b b' :
  ls <> [] ->
  (forall o d b b', define_stmt g o d b = Ok b' -> P b -> P b') ->
  (forall d b b', extend_stmt d b = Ok b' -> P b -> P b') ->
  apply_stmt g ls s b = Ok b' -> P b -> P b'.
Proof.
  intros Hls Hdef Hext. destruct s as [[] d|t|sy|p al]; simpl; eauto.
  - destruct ls; [contradiction|]. intros H; now inversion H.
  - apply (fold_bind_preserves _ P). intros b0 a b1 _. destruct (negb (fst a)); [discriminate|].
    rewrite declare_step. apply Hdef.
  - intros H; now inversion H.
Qed.

(* %override of a terminal makes a NEW tree object and leaves every existing object alone: trees that
   already hold the old object (imported terminals built from it) keep seeing the old one (finding F35) *)
Theorem override_term_fresh_object g d b b' t :
  d_term d = true -> d_tree d = Some t -> define_stmt g true d b = Ok b' ->
  b_heap b' = (b_next b, t) :: b_heap b /\
  find_def (d_name d) (b_defs b') =
    Some (norm_def g (mkDef (d_name d) true (Some (Ptr (b_next b))) (d_params d) (d_opts d))).
Proof.
  unfold define_stmt, alloc. intros Ht Hd. rewrite Ht, Hd.
  destruct (define g true _ _) as [l|] eqn:E; simpl; [|discriminate].
  intros H; inversion H; subst b'; clear H. simpl. split; auto.
  apply override_replaces in E. simpl in E. apply E.
Qed.

Lemma hget_hset o o' t h : hget o' (hset o t h) = if Nat.eqb o' o then Some t else hget o' h.
Proof.
  induction h as [|[k t'] r IH]; simpl; auto.
  destruct (Nat.eqb_spec o k) as [->|E]; simpl.
  - destruct (Nat.eqb o' k); auto.
  - rewrite IH. destruct (Nat.eqb_spec o' k) as [->|]; auto.
    destruct (Nat.eqb_spec k o); congruence.
Qed.

(* %extend of a terminal changes the terminal's tree OBJECT in place: the object gets the new
   alternative in front, no other object and no definition changes - so every tree that holds the
   object (a terminal built from this one, also one imported earlier) sees the extension *)
Theorem extend_term_in_place d b b' old o base exp :
  extend_stmt d b = Ok b' ->
  find_def (d_name d) (b_defs b) = Some old -> d_tree old = Some (Ptr o) ->
  hget o (b_heap b) = Some base -> d_tree d = Some exp ->
  hget o (b_heap b') = Some (add_alternative exp base) /\
  (forall o', o' <> o -> hget o' (b_heap b') = hget o' (b_heap b)) /\
  map d_name (b_defs b') = map d_name (b_defs b) /\
  (forall n, option_map d_tree (find_def n (b_defs b')) = option_map d_tree (find_def n (b_defs b))) /\
  b_ignore b' = b_ignore b.
Proof.
  unfold extend_stmt. intros H Hf Ht Hh He.
  destruct (extend d (b_defs b)) as [l|] eqn:E; simpl in H; [|discriminate].
  rewrite Hf, He, Ht, Hh in H. inversion H; subst b'; clear H. simpl.
  split; [now rewrite hget_hset, Nat.eqb_refl|].
  split; [intros o' Ho; rewrite hget_hset; now destruct (Nat.eqb_spec o' o)|].
  destruct (extend_is_alternative _ _ _ E exp He) as (old' & base' & Hf' & Hb' & _ & _ & Hnew & Hnames & Hother).
  rewrite Hf in Hf'. inversion Hf'; subst old'. rewrite Ht in Hb'. inversion Hb'; subst base'.
  split; auto. split; auto.
  intros n. destruct (String.eqb_spec n (d_name d)) as [->|Hn].
  - rewrite Hnew, Hf. simpl. now rewrite Ht.
  - now rewrite Hother.
Qed.

Lemma deref_ptr f h o t : hget o h = Some t -> deref (S f) h (Ptr o) = deref f h t.
Proof. simpl. now intros ->. Qed.

Lemma clashes_false a b :
  clashes a b = false -> forall d, In d a -> defined (d_name d) b = false.
Proof.
  unfold clashes. intros H d Hd.
  destruct (defined (d_name d) b) eqn:E; auto.
  assert (existsb (fun d => defined (d_name d) b) a = true) by (apply existsb_exists; eauto). congruence.
Qed.

Lemma do_import_ok_iff loader fs ls b imp b' :
  do_import loader fs ls b imp = Ok b' <->
  exists ms gb kept,
    lookup_module (fst imp) fs = Some ms /\
    loader (b_next b) ((join "__" (fst imp), snd imp) :: ls) ms = Ok gb /\
    remove_unused (b_defs gb) (map (mangle ((join "__" (fst imp), snd imp) :: ls)) (map fst (snd imp))) = Ok kept /\
    clashes kept (b_defs b) = false /\
    b' = mkB (b_defs b ++ kept)%list (b_ignore b) (b_heap b ++ b_heap gb)%list (b_next gb).
Proof.
  unfold do_import. cbv zeta. split.
  - destruct (lookup_module (fst imp) fs) as [ms|]; [|discriminate].
    destruct (loader _ _ ms) as [gb|] eqn:Eg; simpl; [|discriminate].
    destruct (remove_unused _ _) as [kept|] eqn:Er; simpl; [|discriminate].
    destruct (clashes kept (b_defs b)) eqn:Ec; [discriminate|]. intros H; inversion H.
    exists ms, gb, kept. auto.
  - intros (ms & gb & kept & -> & -> & Hr & Hc & ->). simpl. rewrite Hr. simpl. now rewrite Hc.
Qed.

Theorem do_import_spec loader fs ls b imp b' :
  do_import loader fs ls b imp = Ok b' ->
  let ls' := (join "__" (fst imp), snd imp) :: ls in
  exists ms gb kept,
    lookup_module (fst imp) fs = Some ms /\
    loader (b_next b) ls' ms = Ok gb /\
    (forall d, In d kept <-> In d (b_defs gb) /\
                             Reach (b_defs gb) (map (mangle ls') (map fst (snd imp))) (d_name d)) /\
    (forall d, In d kept -> defined (d_name d) (b_defs b) = false) /\
    b_defs b' = (b_defs b ++ kept)%list /\ b_ignore b' = b_ignore b /\
    b_heap b' = (b_heap b ++ b_heap gb)%list.
Proof.
  intros H. apply do_import_ok_iff in H. destruct H as (ms & gb & kept & Hl & Hg & Hr & Hc & ->).
  exists ms, gb, kept. apply remove_unused_is_reachability in Hr.
  split; auto. split; auto. split; [apply Hr|]. split; [now apply clashes_false|]. repeat split; reflexivity.
Qed.

Theorem import_clash_is_error loader fs ls b imp ms gb kept d :
  lookup_module (fst imp) fs = Some ms ->
  loader (b_next b) ((join "__" (fst imp), snd imp) :: ls) ms = Ok gb ->
  remove_unused (b_defs gb) (map (mangle ((join "__" (fst imp), snd imp) :: ls)) (map fst (snd imp))) = Ok kept ->
  In d kept -> defined (d_name d) (b_defs b) = true ->
  do_import loader fs ls b imp = Err EClash.
Proof.
  intros Hl Hg Hr Hd Hdef. unfold do_import. rewrite Hl, Hg. simpl. rewrite Hr. simpl.
  assert (clashes kept (b_defs b) = true) as ->; auto.
  unfold clashes. apply existsb_exists. eauto.
Qed.

Lemma resolve_pass_Nd terms d ch :
  resolve_pass terms (Nd d ch) =
  (ch' <- map_result (resolve_pass terms) ch ;;
   if String.eqb d "value" then
     match ch with
     | [Sy false _] => Err ETermRule
     | [Sy true n] =>
         match find_def n terms with
         | None => Err ETermUndefined
         | Some x => match d_tree x with None => Err ETermAbstract | Some tx => Ok (Nd d [tx]) end
         end
     | _ => Ok (Nd d ch')
     end
   else Ok (Nd d ch')).
Proof. simpl. apply bind_ext; auto. induction ch as [|c ch IH]; simpl; auto. now rewrite IH. Qed.

Lemma load_S f fs g ls ss b :
  load (S f) fs g ls ss b =
  (b1 <- fold_left
           (fun acc imp => b' <- acc ;;
                           do_import (fun next ls' ms => load f fs g ls' ms (fresh_builder next)) fs ls b' imp)
           (collect_imports ss) (Ok b) ;;
   b2 <- apply_stmts g ls ss b1 ;;
   h <- resolve_heap (b_defs b2) (b_heap b2) ;;
   Ok (mkB (b_defs b2) (b_ignore b2) h (b_next b2))).
Proof. reflexivity. Qed.

(* the stages of a successful load: imports, own statements, resolve_term_references (which never
   touches the definitions themselves, only tree objects of terminals) *)
Lemma load_ok f fs g ls ss b b' :
  load (S f) fs g ls ss b = Ok b' ->
  exists b1 b2 h,
    fold_left (fun acc imp => b' <- acc ;;
                 do_import (fun next ls' ms => load f fs g ls' ms (fresh_builder next)) fs ls b' imp)
              (collect_imports ss) (Ok b) = Ok b1 /\
    apply_stmts g ls ss b1 = Ok b2 /\ resolve_heap (b_defs b2) (b_heap b2) = Ok h /\
    b' = mkB (b_defs b2) (b_ignore b2) h (b_next b2).
Proof.
  rewrite load_S. destruct (fold_left _ _ (Ok b)) as [b1|]; [|discriminate].
  cbn [bind]. destruct (apply_stmts g ls ss b1) as [b2|] eqn:E2; [|discriminate].
  cbn [bind]. destruct (resolve_heap _ _) as [h|] eqn:Eh; [|discriminate].
  intros H; inversion H. exists b1, b2, h. auto.
Qed.

Lemma collect_imports_defs k ds acc :
  fold_left (fun acc s => match s with SImport p al => add_import p al acc | _ => acc end)
            (map (SDef k) ds) acc = acc.
Proof. revert acc. induction ds; simpl; auto. Qed.

Lemma same_shape_names l l' : Forall2 same_shape l l' -> map d_name l' = map d_name l.
Proof. induction 1 as [|d d' l l' (N & _) _ IH]; simpl; congruence. Qed.

Lemma apply_defs_defines g ls ds : forall b b',
  apply_stmts g ls (map (SDef KDefine) ds) b = Ok b' ->
  exists ds', Forall2 same_shape (map (mangle_def ls) ds) ds' /\
    fold_left (fun acc d => l <- acc ;; define g false d l) ds' (Ok (b_defs b)) = Ok (b_defs b') /\
    b_ignore b' = b_ignore b.
Proof.
  unfold apply_stmts. induction ds as [|d ds IH]; simpl; intros b b' H.
  - inversion H. exists []. repeat split; constructor.
  - destruct (define_stmt g false (mangle_def ls d) b) as [b1|e] eqn:E; [|rewrite fold_bind_err in H; discriminate].
    apply define_stmt_spec in E. destruct E as (d1 & Hs & Hdef & Hi).
    apply IH in H. destruct H as (ds' & Hf & Hfold & Hi').
    exists (d1 :: ds'). simpl. rewrite Hdef. repeat split; auto; congruence.
Qed.

(* loading a module that consists of plain definitions, under a mangle: every definition is the
   renamed one, in the order of the file; rules are exactly mangle_def of the source rule; terminals
   keep name and kind (their tree is an object of the heap) *)
Theorem load_flat_module f fs g ls ds n gb :
  load (S f) fs g ls (map (SDef KDefine) ds) (fresh_builder n) = Ok gb ->
  Forall2 same_shape (map (fun d => norm_def g (mangle_def ls d)) ds) (b_defs gb) /\
  NoDup (map (fun d => mangle ls (d_name d)) ds) /\ b_ignore gb = [].
Proof.
  intros H. destruct (load_ok _ _ _ _ _ _ _ H) as (b1 & b2 & h & E1 & E2 & _ & ->). clear H.
  unfold collect_imports in E1. rewrite collect_imports_defs in E1. inversion E1; subst b1; clear E1.
  apply apply_defs_defines in E2. destruct E2 as (ds' & Hf & Hfold & Hi).
  apply (define_seq_spec g (fun d => d)) in Hfold. destruct Hfold as (Hdefs & Hnd & _).
  cbn [b_defs b_ignore fresh_builder app] in *. rewrite Hdefs. split; [|split; auto].
  - rewrite <- (map_map (mangle_def ls) (norm_def g)). clear -Hf. induction Hf; simpl; constructor; auto. now apply norm_shape.
  - change (fun x => d_name x) with d_name in Hnd. rewrite (same_shape_names _ _ Hf), map_map in Hnd. exact Hnd.
Qed.

(* import = inlining: what an import of a flat module contributes is, for rules, exactly
   mangle_def of a rule of the module that is reachable from the imported names (and conversely
   every reachable one is contributed); nothing already defined is captured *)
Theorem import_is_inlining f fs g ls b p al ds b' :
  lookup_module p fs = Some (map (SDef KDefine) ds) ->
  do_import (fun next ls' ms => load (S f) fs g ls' ms (fresh_builder next)) fs ls b (p, al) = Ok b' ->
  let ls' := (join "__" p, al) :: ls in
  exists gdefs kept,
    Forall2 same_shape (map (fun d => norm_def g (mangle_def ls' d)) ds) gdefs /\
    b_defs b' = (b_defs b ++ kept)%list /\
    (forall d', In d' kept <-> In d' gdefs /\ Reach gdefs (map (mangle ls') (map fst al)) (d_name d')) /\
    (forall d', In d' kept -> d_term d' = false ->
        exists d, In d ds /\ d_term d = false /\ d' = norm_def g (mangle_def ls' d)) /\
    (forall d', In d' kept -> defined (d_name d') (b_defs b) = false) /\
    NoDup (map (fun d => mangle ls' (d_name d)) ds).
Proof.
  intros Hl H ls'. apply do_import_spec in H. simpl in H.
  destruct H as (ms & gb & kept & Hl' & Hg & Hk & Hfresh & Hd & _).
  rewrite Hl in Hl'. inversion Hl'; subst ms; clear Hl'.
  apply load_flat_module in Hg. destruct Hg as (Hsh & Hnd & _).
  exists (b_defs gb), kept.
  split; [exact Hsh|]. split; [exact Hd|]. split; [exact Hk|]. split; [|split; [exact Hfresh | exact Hnd]].
  intros d' Hd' Ht. apply Hk in Hd'. destruct Hd' as [Hin _].
  destruct (Forall2_In_r _ _ _ _ Hsh Hin) as (x & Hx & (N & T & E)).
  apply in_map_iff in Hx. destruct Hx as (d & <- & Hd0).
  exists d. simpl in *. split; auto. split; [congruence|]. apply E. congruence.
Qed.

(* no capture: a private name of the module is spelled differently after mangling, and a
   contributed name equal to an existing local one is the EClash error above *)
Theorem no_capture l s : assoc s (snd l) = None -> mangle1 l s <> s.
Proof. intros H. rewrite mangle1_unaliased by auto. apply plain_fresh. Qed.

Theorem local_after_import_is_error g d l : defined (d_name d) l = true -> define g false d l = Err EDup.
Proof. unfold define. now intros ->. Qed.

Lemma tree_ind' (P : tree -> Prop) :
  (forall d ch, Forall P ch -> P (Nd d ch)) -> (forall b n, P (Sy b n)) -> (forall v, P (Tk v)) ->
  (forall o, P (Ptr o)) -> forall t, P t.
Proof.
  intros Hn Hs Hk Hp. fix IH 1. intros t. destruct t as [d ch|b n|v|o].
  - apply Hn. induction ch as [|c ch IHch]; constructor. apply IH. exact IHch.
  - apply Hs.
  - apply Hk.
  - apply Hp.
Qed.

(* _ReplaceSymbols on a node: the children are transformed, and then a parameter that is the node's one
   child ('value') or its head ('template_usage') is replaced by its argument *)
Lemma subst_Nd names d ch :
  subst names (Nd d ch) = Nd d (map (subst names) ch) \/
  exists b n a rest, map (subst names) ch = Sy b n :: rest /\ assoc n names = Some a /\
    (subst names (Nd d ch) = a /\ rest = [] \/ subst names (Nd d ch) = Nd d (a :: rest)).
Proof.
  simpl. destruct (String.eqb d "value"); [|destruct (String.eqb d "template_usage")]; auto;
    destruct (map (subst names) ch) as [|[| b n | |] rest]; auto.
  - destruct rest; auto. destruct (assoc n names) as [a|] eqn:E; auto. right. exists b, n, a, []. auto.
  - destruct (assoc n names) as [a|] eqn:E; auto. right. exists b, n, a, rest. auto.
Qed.

Theorem subst_fresh names t :
  (forall s, In s (syms t) -> assoc s names = None) -> subst names t = t.
Proof.
  induction t as [d ch IH|b n|v|o] using tree_ind'; auto. intros Hf.
  assert (Hm : map (subst names) ch = ch).
  { apply map_id_Forall. rewrite Forall_forall in *. intros c Hc. apply IH; auto.
    intros s Hs. apply Hf. simpl. apply in_flat_map. eauto. }
  destruct (subst_Nd names d ch) as [E|(b & n & a & rest & E & Ea & _)]; rewrite Hm in E; auto.
  subst ch. rewrite (Hf n) in Ea; [discriminate | simpl; auto].
Qed.

Corollary subst_nil t : subst [] t = t.
Proof. apply subst_fresh. auto. Qed.

Lemma subst_value names b p a :
  assoc p names = Some a -> subst names (Nd "value" [Sy b p]) = a.
Proof. simpl. now intros ->. Qed.

Lemma subst_template_head names b p a args :
  assoc p names = Some a ->
  subst names (Nd "template_usage" (Sy b p :: args)) = Nd "template_usage" (a :: map (subst names) args).
Proof. simpl. now intros ->. Qed.

Theorem subst_syms names t s :
  In s (syms (subst names t)) ->
  In s (syms t) \/ exists a, In a (map snd names) /\ In s (syms a).
Proof.
  induction t as [d ch IH|b n|v|o] using tree_ind'; auto.
  assert (Hch : forall c', In c' (map (subst names) ch) -> In s (syms c') ->
                In s (syms (Nd d ch)) \/ exists a, In a (map snd names) /\ In s (syms a)).
  { intros c' Hc' Hs. apply in_map_iff in Hc'. destruct Hc' as (c & <- & Hc).
    rewrite Forall_forall in IH. destruct (IH c Hc Hs) as [H1|H1]; auto.
    left. simpl. apply in_flat_map. eauto. }
  destruct (subst_Nd names d ch) as [E|(b & n & a & rest & E & Ea & E')].
  - rewrite E. simpl. intros H. apply in_flat_map in H. destruct H as (c' & Hc' & Hs). eauto.
  - apply assoc_In_pair, (in_map snd) in Ea. destruct E' as [[-> _]| ->]; [eauto|].
    simpl. intros H. apply in_app_or in H. destruct H as [H|H]; [eauto|].
    apply in_flat_map in H. destruct H as (c' & Hc' & Hs). apply (Hch c'); auto. rewrite E. now right.
Qed.

(* ApplyTemplates.template_usage: a new instance is the substitution of the arguments for the
   parameters in the template's body, is named by template and arguments, carries no parameters
   and the template's options; a second use with the same arguments creates nothing *)
Theorem template_is_substitution created rds name args created' rds' rn :
  template_usage_step created rds name args = Ok (created', rds', rn) ->
  rn = instance_name name args /\
  ((mem rn created = true /\ created' = created /\ rds' = rds) \/
   (mem rn created = false /\ created' = (created ++ [rn])%list /\
    exists r, find_rdef name rds = [r] /\ List.length (r_params r) = List.length args /\
      rds' = (rds ++ [mkR rn [] (subst (zip_dict (r_params r) args []) (r_tree r)) (r_opts r)])%list)).
Proof.
  unfold template_usage_step. destruct (mem (instance_name name args) created) eqn:Em.
  - intros H; inversion H; subst. auto.
  - destruct (find_rdef name rds) as [|r [|? ?]] eqn:Ef; try discriminate.
    destruct (Nat.eqb (List.length (r_params r)) (List.length args)) eqn:El; simpl; [|discriminate].
    intros H; inversion H; subst. split; auto. right. repeat split; auto.
    exists r. repeat split; auto. now apply Nat.eqb_eq.
Qed.

Theorem template_cached_second_use created rds name args created' rds' rn :
  template_usage_step created rds name args = Ok (created', rds', rn) ->
  template_usage_step created' rds' name args = Ok (created', rds', rn).
Proof.
  intros H. destruct (template_is_substitution _ _ _ _ _ _ _ H) as (-> & [(Hm & -> & ->)|(Hm & -> & _)]).
  - unfold template_usage_step. now rewrite Hm.
  - unfold template_usage_step.
    assert (mem (instance_name name args) (created ++ [instance_name name args]) = true) as ->; auto.
    apply mem_In. apply in_or_app. right. now left.
Qed.

Definition flat_name (s : string) : Prop := has_char "," s = false /\ s <> "".

Lemma join_cons2 sep x y r : join sep (x :: y :: r) = x ++ sep ++ join sep (y :: r).
Proof. reflexivity. Qed.

Lemma join_nonempty x r : x <> "" -> join "," (x :: r) <> "".
Proof.
  destruct r; simpl; auto. intros Hx H. destruct x; simpl in H; [auto | discriminate].
Qed.

Lemma join_inj l : forall l', Forall flat_name l -> Forall flat_name l' -> join "," l = join "," l' -> l = l'.
Proof.
  induction l as [|x r IH]; intros [|x' r'] Hl Hl' H; auto.
  - inversion Hl' as [|? ? [_ Hx] _]; subst. symmetry in H. now apply join_nonempty in H.
  - inversion Hl as [|? ? [_ Hx] _]; subst. now apply join_nonempty in H.
  - inversion Hl as [|? ? [Hc Hx] Hr]; inversion Hl' as [|? ? [Hc' Hx'] Hr']; subst.
    destruct r as [|y r], r' as [|y' r'].
    + simpl in H. now subst.
    + rewrite join_cons2 in H. simpl in H. subst x. rewrite has_char_mid in Hc. discriminate.
    + rewrite join_cons2 in H. simpl in H. subst x'. rewrite has_char_mid in Hc'. discriminate.
    + rewrite !join_cons2 in H. simpl in H. apply split_at_char in H; auto. destruct H as [-> H].
      f_equal. now apply IH.
Qed.

(* the cache key of ApplyTemplates identifies template and arguments (for flat argument names) *)
Theorem instance_name_injective f args f' args' :
  has_char "{" f = false -> has_char "{" f' = false ->
  Forall flat_name (map arg_name args) -> Forall flat_name (map arg_name args') ->
  instance_name f args = instance_name f' args' ->
  f = f' /\ map arg_name args = map arg_name args'.
Proof.
  unfold instance_name. intros Hf Hf' Ha Ha' H. simpl in H.
  apply split_at_char in H; auto. destruct H as [-> H]. split; auto.
  apply app_str_inj_r in H. now apply join_inj.
Qed.

(* the label of a template's instances (template_source) is renamed with the template *)
Theorem template_label_renamed l ls d k e p :
  d_term d = false -> d_opts d = ORule k e p (Some (d_name d)) ->
  d_opts (mangle_def (l :: ls) d) = ORule k e p (Some (d_name (mangle_def (l :: ls) d))).
Proof. intros Ht Ho. unfold mangle_def. simpl. rewrite Ht, Ho. reflexivity. Qed.

Theorem top_level_options_unchanged d : d_opts (mangle_def [] d) = d_opts d.
Proof. unfold mangle_def, mangle_opts. simpl. reflexivity. Qed.
