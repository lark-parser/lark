(* C07, ContextualLexer: if the parser accepts the token types produced by the basic lexer, the
   per-state sub-lexers produce exactly the same tokens. *)
From Coq Require Import ZArith List Bool String Ascii Arith Lia Sorted Permutation.
From LV Require Import Base.Prelude Lex.LexerBase Gen.LexerSortKey Lex.Lexer
     Lex.LexerOrder_proofs Lex.Lexer_proofs Lex.Unless_proofs.
Import ListNotations.

Section Contextual.

Variable fold : ascii -> ascii.
Variable m : term -> string -> nat -> option nat.
Variable cok : list term -> bool.
Variable text : string.

Notation unless_of := (Lexer.unless_of m).
Notation embedded_of := (Lexer.embedded_of m).
Notation embedded := (Lexer.embedded m).
Notation scanner_terms := (Lexer.scanner_terms m).
Notation report := (Lexer.report fold m).
Notation str_full := (Lexer.str_full fold).
Notation str_match_at := (Lexer.str_match_at fold).
Notation tok_of := (Lexer.tok_of fold).
Notation emit := (Lexer.emit fold).
Notation lex_from := (Lexer.lex_from fold).
Notation ctx_lex := (Lexer.ctx_lex fold).
Notation str_oracle := (str_oracle fold).
Notation fmatch p := (first_some (fun t => m t text p)).

Lemma embedded_incl Ls st x :
  incl Ls st -> In x (embedded Ls) -> In x (embedded st).
Proof.
  intros Hi H. apply embedded_in in H. destruct H as (R & K & HR & Hre & HK & ->).
  apply embedded_in. exists R, K. repeat split; auto.
  apply (embedded_of_mono m Ls); [assumption|]. apply Hi. apply embedded_of_in in HK. apply HK.
Qed.

Lemma report_sub st Ls X v :
  uniq_names st -> StronglySorted doc_le st -> uniq_names Ls -> StronglySorted doc_le Ls ->
  incl Ls st -> In X Ls -> (forall K, In K st -> tname K = report st X v -> In K Ls) ->
  report Ls X v = report st X v.
Proof.
  intros Huniq Hsorted HLuniq HLsorted Hincl HXL HTL.
  destruct (report_inv fold m st X v) as [Hself|(HXre & K & HrK & HKw & HKf & HKfirst)].
  - rewrite Hself. destruct (tre X) eqn:HXre; [|now apply report_string].
    apply report_no_keyword. intros K HK.
    apply (report_self_no_kw fold m st X v); auto. eapply keyword_of_mono; eauto. apply Hincl. now destruct HK.
  - assert (HKwL : keyword_of m Ls X K) by (eapply keyword_of_mono; eauto; apply HTL; auto; apply HKw).
    rewrite HrK.
    destruct (report_inv fold m Ls X v) as [Hself|(_ & K' & HrK' & HK'w & HK'f & HK'first)].
    + pose proof (report_self_no_kw fold m Ls X v HLuniq HXL HXre Hself K HKwL). congruence.
    + (* the first fitting keyword of each list fits in the other *)
      rewrite HrK'. f_equal.
      assert (HK'st : keyword_of m st X K') by (eapply keyword_of_mono; eauto; apply Hincl; now destruct HK'w).
      apply (uniq_names_inj _ _ _ Huniq); auto; [now destruct HK'st|now destruct HKw|].
      apply doc_le_antisym_name; auto.
Qed.

Section Step.

Variable st : list term.            (* all terminals, sorted *)
Variable Ls : list term.            (* the terminals of one parser state's sub-lexer, sorted *)
Variable ign : list string.
Variable keep : string -> bool.

Hypothesis Huniq : uniq_names st.
Hypothesis Hsorted : StronglySorted doc_le st.
Hypothesis HLs : forall t, In t Ls <-> In t st /\ keep (tname t) = true.
Hypothesis HLsorted : StronglySorted doc_le Ls.
Hypothesis HLuniq : uniq_names Ls.
Hypothesis Hkeep_ign : forall nm, mem_string nm ign = true -> keep nm = true.
Hypothesis Hstr : str_oracle m text st.
Hypothesis Hbound : bounded_oracle m text st.
Hypothesis Hsem : embedding_semantic m text st.
Hypothesis Hdisj : regexps_disjoint m text st.
Hypothesis Hiso : keywords_isolated m text st Ls.
Hypothesis Hign : ignore_agrees m st ign.

Lemma Ls_incl : incl Ls st.
Proof. intros t H. apply HLs in H. tauto. Qed.

Lemma scF_sorted : StronglySorted doc_le (scanner_terms st).
Proof. now apply filter_sorted. Qed.

Lemma scL_sorted : StronglySorted doc_le (scanner_terms Ls).
Proof. now apply filter_sorted. Qed.

Lemma embedded_regexp_matches Y p :
  In Y st -> In (tname Y) (embedded st) -> m Y text p <> None ->
  exists R, In R st /\ tre R = true /\ In Y (embedded_of st R) /\ m R text p <> None.
Proof.
  intros HY He Hm. destruct (embedded_term m st Y Huniq HY He) as (R & HR & Hre & HK).
  destruct (m Y text p) as [k|] eqn:Hk; [|congruence].
  destruct (Hsem R Y p k HR Hre HK Hk) as (n & HmR & _).
  exists R. repeat split; auto. congruence.
Qed.

Lemma sub_first_same p X n :
  fmatch p (scanner_terms st) = Some (X, n) -> In X Ls ->
  fmatch p (scanner_terms Ls) = Some (X, n).
Proof.
  intros EF HXL.
  destruct (first_some_sorted _ _ _ _ scF_sorted EF) as (HXsc & HmX & HfirstF).
  pose proof HXsc as HX'. apply scanner_terms_in in HX'. destruct HX' as [HXst HXne].
  apply first_some_least; [apply scL_sorted| |assumption|].
  { apply scanner_terms_in. split; [assumption|]. intros H. apply HXne. eapply embedded_incl; eauto. apply Ls_incl. }
  intros u Hu Hmu HuX. apply scanner_terms_in in Hu. destruct Hu as [HuL Hune].
  assert (Hust : In u st) by now apply Ls_incl.
  destruct (in_dec string_dec (tname u) (embedded st)) as [He|Hne].
  2:{ apply (uniq_names_inj _ _ _ Huniq); auto. apply doc_le_antisym_name; auto.
      apply HfirstF; [apply scanner_terms_in; tauto|assumption]. }
  exfalso. destruct (embedded_regexp_matches u p Hust He Hmu) as (R & HR & Hre & HuR & HmR).
  assert (HXR : doc_le X R) by (apply HfirstF; [now apply regexp_in_scanner|assumption]).
  destruct (tre X) eqn:HXre.
  - (* X is that regexp, so u is embedded in the sub-lexer as well *)
    assert (X = R) by (apply (Hdisj X R p); auto; congruence). subst R.
    apply Hune. apply embedded_in. exists X, u. repeat split; auto. now apply (embedded_of_mono m st).
  - (* a keyword u before the string X (not embedded, so another terminal) has X's priority *)
    apply embedded_of_in in HuR. destruct HuR as [Hukw _].
    apply (Hiso u X p); auto; try congruence.
    + exists R. tauto.
    + destruct Hukw as (_ & _ & Hp & _).
      pose proof (doc_le_prio _ _ HuX). pose proof (doc_le_prio _ _ HXR). lia.
Qed.

Theorem ctx_step p X n :
  fmatch p (scanner_terms st) = Some (X, n) ->
  let v := substring p n text in
  (mem_string (tname X) ign = false -> keep (report st X v) = true) ->
  exists X', fmatch p (scanner_terms Ls) = Some (X', n) /\
             mem_string (tname X') ign = mem_string (tname X) ign /\
             (mem_string (tname X) ign = false -> report Ls X' v = report st X v).
Proof.
  intros EF v Hacc.
  destruct (first_some_sorted _ _ _ _ scF_sorted EF) as (HXsc & HmX & HfirstF).
  pose proof HXsc as HX'. apply scanner_terms_in in HX'. destruct HX' as [HXst HXne].
  destruct (Hbound _ _ _ HXst HmX) as [Hb _].
  destruct (mem_string (tname X) ign) eqn:Hig.
  { exists X. split; [|split; [assumption|discriminate]].
    apply sub_first_same; [assumption|]. apply HLs. split; [assumption|]. now apply Hkeep_ign. }
  specialize (Hacc eq_refl).
  destruct (keep (tname X)) eqn:HkX.
  - assert (HXL : In X Ls) by (apply HLs; tauto).
    exists X. split; [now apply sub_first_same|]. split; [assumption|]. intros _.
    apply (report_sub st Ls X v); auto; [apply Ls_incl|].
    intros K HK En. apply HLs. rewrite En. tauto.
  - (* X is not kept, so the kept type is that of a keyword K of X, which has to win by itself *)
    assert (HXnL : ~ In X Ls) by (intros H; apply HLs in H; destruct H; congruence).
    destruct (report_inv fold m st X v) as [Hself|(HXre & K & HrK & HKw & HKf & _)]; [congruence|].
    pose proof HKw as (HKst & HKs & HKp & HKm).
    assert (HKL : In K Ls) by (apply HLs; rewrite <- HrK; tauto).
    assert (HmK : m K text p = Some n) by (eapply str_full_match; eauto).
    exists K. split; [|split; [now rewrite (Hign X K HXst HXre HKw)|intros _; rewrite HrK; now apply report_string]].
    apply first_some_least; [apply scL_sorted| |assumption|].
    + (* a regexp that embeds K in the sub-lexer matches at p, so it would be X *)
      apply scanner_terms_in. split; [assumption|]. intros He.
      destruct (embedded_term m Ls K HLuniq HKL He) as (R2 & HR2 & HR2re & HK2).
      assert (HR2st : In R2 st) by now apply Ls_incl.
      destruct (Hsem R2 K p n HR2st HR2re (embedded_of_mono m _ _ _ _ HK2 HKst) HmK) as (n2 & HmR2 & _).
      apply HXnL. rewrite <- (Hdisj R2 X p); auto; congruence.
    + intros u Hu Hmu HuK. apply scanner_terms_in in Hu. destruct Hu as [HuL Hune].
      assert (Hust : In u st) by now apply Ls_incl.
      destruct (string_dec (tname u) (tname K)) as [En|Hn];
        [exact (uniq_names_inj _ _ _ Huniq Hust HKst En)|exfalso].
      destruct (tre u) eqn:Hure.
      { apply HXnL. rewrite <- (Hdisj u X p); auto; congruence. }
      (* a string before K has X's priority and matches beside the keyword K *)
      apply (Hiso K u p); auto; try congruence.
      * exists X. tauto.
      * destruct (in_dec string_dec (tname u) (embedded st)) as [He|Hne].
        -- destruct (embedded_regexp_matches u p Hust He Hmu) as (R & HR & Hre & HuR & HmR).
           assert (R = X) by (apply (Hdisj R X p); auto; congruence). subst R.
           apply embedded_of_in in HuR. destruct HuR as [(_ & _ & Hp & _) _]. lia.
        -- assert (HXu : doc_le X u) by (apply HfirstF; [apply scanner_terms_in; tauto|assumption]).
           pose proof (doc_le_prio _ _ HXu). pose proof (doc_le_prio _ _ HuK). lia.
Qed.

End Step.

Hypothesis Hcok : forall l, cok l = true.    (* re.compile never refuses (this interpreter) *)

Lemma scanner_mres_total ts : exists mres, scanner_mres cok ts = Some mres /\ List.concat mres = ts.
Proof.
  unfold scanner_mres. destruct ts as [|t ts].
  - exists []. split; reflexivity.
  - exists [t :: ts]. split; [|cbn; now rewrite app_nil_r].
    cbn [build_mres build_loop List.length]. rewrite Hcok.
    change (firstn (S (List.length ts)) (t :: ts)) with (t :: firstn (List.length ts) ts).
    change (skipn (S (List.length ts)) (t :: ts)) with (skipn (List.length ts) ts).
    rewrite firstn_all, skipn_all. destruct (List.length ts); reflexivity.
Qed.

Lemma make_lexer_total ts ign :
  exists L, make_lexer m cok ts ign = Some L /\ lx_terms L = sort_terms ts /\ lx_ign L = ign /\
            List.concat (lx_mres L) = scanner_terms (sort_terms ts).
Proof.
  unfold make_lexer.
  destruct (scanner_mres_total (scanner_terms (sort_terms ts))) as (mres & E & Hc).
  rewrite E. eexists. split; [reflexivity|]. cbn. auto.
Qed.

Section Run.

Variable pstate : Type.
Variable accepts : pstate -> list string.
Variable step : pstate -> tok -> option pstate.
Variable terms : list term.
Variable ign always : list string.

Let st := sort_terms terms.
Let keep_of (s : pstate) (nm : string) : bool :=
  (mem_string nm (accepts s) || mem_string nm ign || mem_string nm always)%bool.
Let Lsub (s : pstate) := sort_terms (sub_terms pstate accepts terms ign always s).
Let SF := scanner_terms st.

Hypothesis Hun : uniq_names terms.
Hypothesis Hstr : str_oracle m text st.
Hypothesis Hbound : bounded_oracle m text st.
Hypothesis Hpos : forall t p n, In t st -> m t text p = Some n -> (0 < n)%nat.
Hypothesis Hsem : embedding_semantic m text st.
Hypothesis Hdisj : regexps_disjoint m text st.
Hypothesis Hign : ignore_agrees m st ign.
Hypothesis Hiso : forall s, keywords_isolated m text st (Lsub s).
Hypothesis Hacc : forall s t s', step s t = Some s' -> In (ktype t) (accepts s).

Fixpoint run (s : pstate) (l : list tok) : option pstate :=
  match l with
  | [] => Some s
  | a :: r => match step s a with Some s' => run s' r | None => None end
  end.

Lemma st_uniq : uniq_names st.
Proof. eapply uniq_names_perm; [apply sort_perm|assumption]. Qed.

Lemma Lsub_in s t : In t (Lsub s) <-> In t st /\ keep_of s (tname t) = true.
Proof.
  unfold Lsub, st, sub_terms, keep_of. rewrite !sort_in, filter_In. reflexivity.
Qed.

Lemma Lsub_uniq s : uniq_names (Lsub s).
Proof.
  eapply uniq_names_perm; [apply sort_perm|]. unfold sub_terms. now apply uniq_names_filter.
Qed.

Lemma keep_ign s nm : mem_string nm ign = true -> keep_of s nm = true.
Proof. unfold keep_of. intros ->. now rewrite orb_true_r. Qed.

Inductive raw_run : nat -> list rawtok -> Prop :=
| rr_eof p : (String.length text <= p)%nat -> raw_run p []
| rr_tok p X n rs :
    (p < String.length text)%nat -> fmatch p SF = Some (X, n) -> raw_run (p + n) rs ->
    raw_run p (mkRaw X p n :: rs).

Lemma lex_raw_run mres : List.concat mres = SF -> forall fuel p rs,
  Lexer.lex_raw m text fuel mres p = (rs, AtEOF) -> raw_run p rs.
Proof.
  intros Hc. induction fuel as [|f IH]; intros p rs; cbn [Lexer.lex_raw];
    (destruct (String.length text <=? p)%nat eqn:El;
       [intros H; injection H as <-; constructor; now apply Nat.leb_le|]); [discriminate|].
  apply Nat.leb_gt in El. rewrite scan_concat, Hc.
  destruct (fmatch p SF) as [[X n]|] eqn:Es; [|discriminate].
  destruct (Lexer.lex_raw m text f mres (p + n)) as [ts e] eqn:Er.
  intros H; injection H as <- ->. constructor; auto.
Qed.

Definition live (r : rawtok) : bool := negb (ignored ign r).

Lemma raw_run_after p rs : raw_run p rs -> forall r frs,
  filter live rs = r :: frs ->
  exists rs', raw_run (rstart r + rlen r) rs' /\ filter live rs' = frs.
Proof.
  induction 1 as [|p X n rs Hp Hm Hr IH]; intros r frs; cbn [filter]; [discriminate|].
  destruct (live (mkRaw X p n)).
  - intros H; injection H as <- <-. cbn. eauto.
  - apply IH.
Qed.

Lemma fmatch_in p X n : fmatch p SF = Some (X, n) -> In X st /\ m X text p = Some n.
Proof.
  intros H. apply (first_some_spec (fun t => m t text p)) in H.
  destruct H as (pre & post & E & Hm & _). split; [|assumption].
  assert (HX : In X SF) by (rewrite E; apply in_elt). now apply scanner_terms_in in HX.
Qed.

Section State.

Variable s : pstate.
Variable L : blexer.
Hypothesis HLt : lx_terms L = Lsub s.
Hypothesis HLi : lx_ign L = ign.
Hypothesis HLm : List.concat (lx_mres L) = scanner_terms (Lsub s).

Lemma step_here p X n :
  fmatch p SF = Some (X, n) ->
  let v := substring p n text in
  (mem_string (tname X) ign = false -> In (report st X v) (accepts s)) ->
  exists X', fmatch p (scanner_terms (Lsub s)) = Some (X', n) /\
             mem_string (tname X') ign = mem_string (tname X) ign /\
             (mem_string (tname X) ign = false -> report (Lsub s) X' v = report st X v).
Proof.
  intros EF v Ha.
  apply (ctx_step st (Lsub s) ign (keep_of s)); auto.
  - apply st_uniq.
  - apply sort_sorted.
  - apply Lsub_in.
  - apply sort_sorted.
  - apply Lsub_uniq.
  - apply keep_ign.
  - intros Hi. subst v. unfold keep_of. now rewrite (proj2 (mem_string_In _ _) (Ha Hi)).
Qed.

(* next_token of the state's sub-lexer follows the full lexer's matches *)
Lemma nt_follow p rs : raw_run p rs -> forall fuel, (String.length text - p < fuel)%nat ->
  match filter live rs with
  | [] => next_token m text fuel L p = NEOF
  | r :: _ =>
      In (ktype (tok_of m text st r)) (accepts s) ->
      exists X', next_token m text fuel L p = NTok (mkRaw X' (rstart r) (rlen r)) /\
                 tok_of m text (Lsub s) (mkRaw X' (rstart r) (rlen r)) = tok_of m text st r
  end.
Proof.
  induction 1 as [p Hp|p X n rs Hp Hm Hr IH]; intros fuel Hf.
  - cbn [filter]. destruct fuel; cbn [next_token]; apply Nat.leb_le in Hp; now rewrite Hp.
  - destruct fuel as [|f]; [lia|].
    destruct (fmatch_in _ _ _ Hm) as [HX HmX]. pose proof (Hpos _ _ _ HX HmX) as Hn.
    cbn [filter next_token]. apply Nat.leb_gt in Hp. rewrite Hp. apply Nat.leb_gt in Hp.
    rewrite scan_concat, HLm. unfold live at 1, ignored at 1. cbn [rterm].
    destruct (mem_string (tname X) ign) eqn:Hig; cbn [negb].
    + destruct (step_here p X n Hm) as (X' & EL & Hi' & _); [rewrite Hig; discriminate|].
      rewrite EL. unfold ignored. cbn [rterm]. rewrite HLi, Hi', Hig.
      apply IH. lia.
    + intros Hin. unfold Lexer.tok_of in Hin. cbn [ktype rterm rstart rlen] in Hin.
      destruct (step_here p X n Hm) as (X' & EL & Hi' & Hrep); [intros _; exact Hin|].
      rewrite EL. unfold ignored. cbn [rterm]. rewrite HLi, Hi', Hig.
      exists X'. cbn [rstart rlen]. split; [reflexivity|].
      unfold Lexer.tok_of. cbn [rterm rstart rlen]. now rewrite Hrep.
Qed.

End State.

Lemma sub_lexer_total s :
  exists L, sub_lexer m cok pstate accepts terms ign always s = Some L /\
            lx_terms L = Lsub s /\ lx_ign L = ign /\ List.concat (lx_mres L) = scanner_terms (Lsub s).
Proof. unfold sub_lexer. apply make_lexer_total. Qed.

Lemma ctx_follow root ts : forall p rs s sf fuel,
  raw_run p rs -> map (tok_of m text st) (filter live rs) = ts ->
  run s ts = Some sf -> (List.length ts < fuel)%nat ->
  ctx_lex m cok text pstate accepts step fuel terms ign always root s p = (ts, CEOF).
Proof.
  induction ts as [|t ts IH]; intros p rs s sf fuel Hr Hts Hrun Hf;
    (destruct fuel as [|f]; [cbn in Hf; lia|]); cbn [ctx_lex];
    destruct (sub_lexer_total s) as (L & EL & HLt & HLi & HLm); rewrite EL;
    pose proof (nt_follow s L HLi HLm p rs Hr (S (String.length text - p))) as Hnt.
  - destruct (filter live rs) as [|r frs]; [|discriminate].
    rewrite Hnt by lia. reflexivity.
  - destruct (filter live rs) as [|r frs] eqn:Ef; [discriminate|].
    cbn [map] in Hts. injection Hts as Ht Hts'.
    cbn [map run] in Hrun. destruct (step s t) as [s'|] eqn:Est; [|discriminate].
    destruct Hnt as (X' & Ent & Etok); [lia|rewrite Ht; eapply Hacc; eauto|].
    rewrite Ent, HLt, Etok, Ht, Est. cbn [rstart rlen].
    destruct (raw_run_after p rs Hr r frs Ef) as (rs' & Hr' & Ef').
    rewrite (IH (rstart r + rlen r)%nat rs' s' sf f); auto.
    + now rewrite Ef'.
    + cbn in Hf. lia.
Qed.

Theorem contextual_refines_basic root ts sf s0 :
  make_lexer m cok terms ign = Some root ->
  lex_from m text root 0 = (ts, AtEOF) ->
  run s0 ts = Some sf ->
  forall fuel, (List.length ts < fuel)%nat ->
  ctx_lex m cok text pstate accepts step fuel terms ign always root s0 0 = (ts, CEOF).
Proof.
  intros Hroot Hlex Hrun fuel Hf.
  destruct (make_lexer_total terms ign) as (root' & E & HRt & HRi & HRm).
  rewrite Hroot in E. injection E as <-.
  unfold Lexer.lex_from in Hlex.
  destruct (Lexer.lex_raw m text (S (String.length text - 0)) (lx_mres root) 0) as [rs e] eqn:Er.
  injection Hlex as Hts ->.
  eapply ctx_follow; eauto.
  - eapply lex_raw_run; eauto.
  - rewrite <- Hts, HRt, HRi. reflexivity.
Qed.

End Run.

End Contextual.
