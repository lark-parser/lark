(* repr() of str / list of pairs of str is a prefix code, hence the framed cache key is injective.
   The str repr covers all of Unicode (Cache/PyRepr.v); nothing here depends on the contents of the printable table. *)
From Coq Require Import List Ascii String Bool Arith NArith Lia.
From LV Require Import Cache.Bytes Gen.Printable Cache.PyRepr Gen.CacheKey.
Import ListNotations.

Lemma beqb_refl a : beqb a a = true.
Proof. induction a; cbn; [reflexivity|]. now rewrite Ascii.eqb_refl. Qed.

Lemma beqb_eq a b : beqb a b = true <-> a = b.
Proof.
  split; [|intros ->; apply beqb_refl].
  revert b; induction a; destruct b; cbn; try discriminate; auto.
  intros H; apply andb_true_iff in H as [H1 H2]. apply Ascii.eqb_eq in H1. f_equal; auto.
Qed.

Lemma beqb_neq a b : beqb a b = false <-> a <> b.
Proof.
  split.
  - intros H E. apply beqb_eq in E. congruence.
  - intros H. destruct (beqb a b) eqn:E; [apply beqb_eq in E; contradiction | reflexivity].
Qed.

Lemma strip1 (a : ascii) x y : a :: x = a :: y -> x = y.
Proof. now inversion 1. Qed.

Definition is_quote (q : ascii) : Prop := q = squote \/ q = dquote.

Lemma quote_of_is_quote s : is_quote (quote_of s).
Proof. unfold quote_of, is_quote. destruct (_ && _); auto. Qed.

Lemma unhex_hexd k : k < 16 -> unhex (hexd k) = k.
Proof. intros L. do 16 (destruct k as [|k]; [reflexivity|]). lia. Qed.

Lemma hexd_inj a b : a < 16 -> b < 16 -> hexd a = hexd b -> a = b.
Proof. intros La Lb H. rewrite <- (unhex_hexd a La), <- (unhex_hexd b Lb), H. reflexivity. Qed.

Lemma esc_cases q c :
  (esc q c = [c] /\ c <> q /\ 32 <= nat_of_ascii c < 127) \/ exists t, esc q c = bslash :: t.
Proof.
  unfold esc. destruct (Ascii.eqb_spec c q) as [|Nq]; cbn [orb]; [eauto|].
  destruct (Ascii.eqb c bslash); [eauto|]. destruct (Ascii.eqb c tab); [eauto|].
  destruct (Ascii.eqb c nl); [eauto|]. destruct (Ascii.eqb c cr); [eauto|].
  destruct (_ || _) eqn:E; [eauto|]. left.
  apply orb_false_iff in E as [E1 E2]. apply Nat.ltb_ge in E1. apply Nat.leb_gt in E2. auto.
Qed.

Lemma unesc_x h1 h2 X :
  unesc (bslash :: "x"%char :: h1 :: h2 :: X) = Some (ascii_of_nat (unhex h1 * 16 + unhex h2), X).
Proof. reflexivity. Qed.

Lemma unesc_esc q c r : is_quote q -> unesc (esc q c ++ r) = Some (c, r).
Proof.
  intros Hq. unfold esc. destruct (Ascii.eqb c q || Ascii.eqb c bslash) eqn:E.
  { assert (C : c = squote \/ c = dquote \/ c = bslash).
    { apply orb_true_iff in E as [E | E]; apply Ascii.eqb_eq in E; subst; unfold is_quote in Hq; tauto. }
    destruct C as [-> | [-> | ->]]; reflexivity. }
  apply orb_false_iff in E as [_ E].
  destruct (Ascii.eqb_spec c tab) as [-> | _]; [reflexivity|].
  destruct (Ascii.eqb_spec c nl) as [-> | _]; [reflexivity|].
  destruct (Ascii.eqb_spec c cr) as [-> | _]; [reflexivity|].
  destruct (_ || _); cbn [app].
  - (* \xNN: the two digits are the quotient and the remainder by 16 *)
    pose proof (nat_ascii_bounded c) as L. rewrite unesc_x.
    rewrite !unhex_hexd by (first [apply Nat.div_lt_upper_bound | apply Nat.mod_upper_bound]; lia).
    rewrite Nat.mul_comm, <- Nat.div_mod by lia. now rewrite ascii_nat_embedding.
  - cbn [unesc]. now rewrite E.
Qed.

Lemma esc_prefix q c c' r r' : is_quote q -> esc q c ++ r = esc q c' ++ r' -> c = c' /\ r = r'.
Proof. intros Hq H. apply (f_equal unesc) in H. rewrite !unesc_esc in H by assumption. now injection H. Qed.

Local Open Scope N_scope.

Lemma in_range a b n : (a <=? n) && (n <? b) = true -> a <= n < b.
Proof. intros H. apply andb_true_iff in H as [H1 H2]. apply N.leb_le in H1. apply N.ltb_lt in H2. auto. Qed.

(* a byte at or above b, written as b plus its offset: keeps truncated subtraction away from lia *)
Lemma byte_off b c : b <= N_of_ascii c -> c = ascii_of_N (b + (N_of_ascii c - b)).
Proof. intros L. rewrite N.add_comm, N.sub_add by exact L. symmetry. apply ascii_N_embedding. Qed.

(* a continuation byte 10xxxxxx is 128 plus its payload *)
Lemma cont_inv r x r1 : cont r = Some (x, r1) -> r = ascii_of_N (128 + x) :: r1 /\ x < 64.
Proof.
  unfold cont. destruct r as [|c r']; [discriminate|].
  destruct (_ && _) eqn:E; [|discriminate]. apply in_range in E. intros H; injection H as <- <-.
  split; [f_equal; apply byte_off|]; lia.
Qed.

(* the three shapes of a well-formed sequence, as the digits of the code point in base 64 *)
Lemma utf8_lead_inv c r cp k :
  utf8_lead c r = Some (cp, k) ->
  (exists a x r1, c = ascii_of_N (192 + a) /\ r = ascii_of_N (128 + x) :: r1 /\ k = 1%nat /\
     2 <= a < 32 /\ x < 64 /\ cp = a * 64 + x) \/
  (exists a x y r2, c = ascii_of_N (224 + a) /\ r = ascii_of_N (128 + x) :: ascii_of_N (128 + y) :: r2 /\ k = 2%nat /\
     a < 16 /\ x < 64 /\ y < 64 /\ cp = a * 4096 + x * 64 + y /\ 2048 <= cp) \/
  (exists a x y z r3,
     c = ascii_of_N (240 + a) /\ r = ascii_of_N (128 + x) :: ascii_of_N (128 + y) :: ascii_of_N (128 + z) :: r3 /\
     k = 3%nat /\ a < 5 /\ x < 64 /\ y < 64 /\ z < 64 /\ cp = a * 262144 + x * 4096 + y * 64 + z /\
     65536 <= cp <= 1114111).
Proof.
  unfold utf8_lead. set (n := N_of_ascii c).
  destruct ((194 <=? n) && (n <? 224)) eqn:E2.
  { apply in_range in E2. destruct (cont r) as [[x r1]|] eqn:C1; [|discriminate]. intros H; injection H as <- <-.
    apply cont_inv in C1 as [-> Lx]. left. exists (n - 192), x, r1.
    repeat split; try assumption; [apply byte_off | |]; lia. }
  destruct ((224 <=? n) && (n <? 240)) eqn:E3.
  { apply in_range in E3. destruct (cont r) as [[x r1]|] eqn:C1; [|discriminate].
    destruct (cont r1) as [[y r2]|] eqn:C2; [|discriminate].
    destruct (2048 <=? _) eqn:L; [|discriminate]. apply N.leb_le in L. intros H; injection H as <- <-.
    apply cont_inv in C1 as [-> Lx]. apply cont_inv in C2 as [-> Ly]. right; left. exists (n - 224), x, y, r2.
    repeat split; try assumption; [apply byte_off|]; lia. }
  destruct ((240 <=? n) && (n <? 245)) eqn:E4; [|discriminate]. apply in_range in E4.
  destruct (cont r) as [[x r1]|] eqn:C1; [|discriminate].
  destruct (cont r1) as [[y r2]|] eqn:C2; [|discriminate].
  destruct (cont r2) as [[z r3]|] eqn:C3; [|discriminate].
  destruct ((65536 <=? _) && _) eqn:L; [|discriminate]. apply andb_true_iff in L as [L1 L2].
  apply N.leb_le in L1. apply N.leb_le in L2. intros H; injection H as <- <-.
  apply cont_inv in C1 as [-> Lx]. apply cont_inv in C2 as [-> Ly]. apply cont_inv in C3 as [-> Lz].
  right; right. exists (n - 240), x, y, z, r3. repeat split; try assumption; [apply byte_off|]; lia.
Qed.

Definition ncont (cp : N) : nat := if cp <? 2048 then 1 else if cp <? 65536 then 2 else 3.

Lemma utf8_lead_range c r cp k :
  utf8_lead c r = Some (cp, k) -> 128 <= cp <= 1114111 /\ k = ncont cp /\ (k <= List.length r)%nat.
Proof.
  intros H. unfold ncont.
  apply utf8_lead_inv in H as [(a & x & r1 & _ & -> & -> & ? & ? & ?) |
    [(a & x & y & r2 & _ & -> & -> & ? & ? & ? & ? & ?) | (a & x & y & z & r3 & _ & -> & -> & ? & ? & ? & ? & ? & ?)]];
    cbn [List.length]; (destruct (N.ltb_spec cp 2048); [|destruct (N.ltb_spec cp 65536)]); lia.
Qed.

Lemma utf8_lead_inj c r c' r' cp k k' :
  utf8_lead c r = Some (cp, k) -> utf8_lead c' r' = Some (cp, k') ->
  c = c' /\ k = k' /\ firstn k r = firstn k' r'.
Proof.
  intros H H'.
  pose proof (utf8_lead_range _ _ _ _ H) as (_ & K & _). pose proof (utf8_lead_range _ _ _ _ H') as (_ & K' & _).
  apply utf8_lead_inv in H, H'.
  destruct H as [(a & x & r1 & -> & -> & -> & _ & Lx & E) |
                 [(a & x & y & r2 & -> & -> & -> & _ & Lx & Ly & E & _) |
                  (a & x & y & z & r3 & -> & -> & -> & _ & Lx & Ly & Lz & E & _)]],
           H' as [(a' & x' & r1' & -> & -> & -> & _ & Lx' & E') |
                  [(a' & x' & y' & r2' & -> & -> & -> & _ & Lx' & Ly' & E' & _) |
                   (a' & x' & y' & z' & r3' & -> & -> & -> & _ & Lx' & Ly' & Lz' & E' & _)]];
    try congruence; clear K K'.
  - assert (a = a' /\ x = x') as [-> ->] by lia. now repeat split.
  - assert (a = a' /\ x = x' /\ y = y') as (-> & -> & ->) by lia. now repeat split.
  - assert (a = a' /\ x = x' /\ y = y' /\ z = z') as (-> & -> & -> & ->) by lia. now repeat split.
Qed.

Fixpoint pow16 (w : nat) : N := match w with O => 1 | S w' => 16 * pow16 w' end.

Lemma hexw_length w : forall n, List.length (hexw w n) = w.
Proof. induction w; intros n; cbn [hexw]; [reflexivity|]. rewrite app_length, IHw. cbn. lia. Qed.

Lemma hexw_prefix w : forall n n' r r',
  n < pow16 w -> n' < pow16 w -> hexw w n ++ r = hexw w n' ++ r' -> n = n' /\ r = r'.
Proof.
  induction w as [|w IH]; intros n n' r r' L L' H; cbn [pow16 hexw] in *. { split; [lia | exact H]. }
  rewrite <- !app_assoc in H. apply IH in H as [D H]; [|apply N.div_lt_upper_bound; lia ..].
  injection H as H ->. split; [|reflexivity].
  pose proof (N.mod_lt n 16). pose proof (N.mod_lt n' 16). apply hexd_inj in H; [|lia ..].
  rewrite (N.div_mod n 16), (N.div_mod n' 16) by lia. lia.
Qed.

Lemma esc_uesc q c : esc q c = uesc q (N_of_ascii c).
Proof. unfold uesc. pose proof (N_ascii_bounded c) as L. apply N.ltb_lt in L. now rewrite L, ascii_N_embedding. Qed.

Lemma uesc_head q cp : 128 <= cp -> exists t, uesc q cp = bslash :: t.
Proof.
  intros L. unfold uesc. destruct (N.ltb_spec cp 256) as [A|_]; [|destruct (cp <? 65536); eauto].
  destruct (esc_cases q (ascii_of_N cp)) as [(_ & _ & B) | E]; [|exact E].
  unfold nat_of_ascii in B. rewrite N_ascii_embedding in B by exact A. lia.
Qed.

Lemma esc_not_wide q c l X r : is_quote q -> l = "u"%char \/ l = "U"%char -> esc q c ++ r <> bslash :: l :: X.
Proof.
  intros Hq Hl H. pose proof (f_equal unesc H) as U. rewrite unesc_esc in U by assumption.
  destruct Hl as [-> | ->]; injection U as -> _; destruct Hq as [-> | ->]; discriminate H.
Qed.

Lemma uesc_prefix q cp cp' r r' :
  is_quote q -> cp <= 1114111 -> cp' <= 1114111 -> uesc q cp ++ r = uesc q cp' ++ r' -> cp = cp' /\ r = r'.
Proof.
  intros Hq L L' H. unfold uesc in H.
  destruct (N.ltb_spec cp 256) as [A|A], (N.ltb_spec cp' 256) as [A'|A'].
  - apply esc_prefix in H as [E ->]; [|assumption]. split; [|reflexivity].
    rewrite <- (N_ascii_embedding cp), <- (N_ascii_embedding cp'), E by assumption. reflexivity.
  - exfalso. destruct (cp' <? 65536); cbn [app] in H; revert H; apply esc_not_wide; auto.
  - exfalso. symmetry in H. destruct (cp <? 65536); cbn [app] in H; revert H; apply esc_not_wide; auto.
  - destruct (N.ltb_spec cp 65536) as [B|B], (N.ltb_spec cp' 65536) as [B'|B']; cbn [app] in H; try discriminate H;
      do 2 apply strip1 in H.
    + now apply (hexw_prefix 4) in H.
    + apply (hexw_prefix 8) in H; [exact H | cbn; lia ..].
Qed.

Definition valid (t : tok) : Prop :=
  match t with
  | TA c => N_of_ascii c < 128
  | TR c => 128 <= N_of_ascii c
  | TN cp raw => exists c r k, raw = c :: firstn k r /\ utf8_lead c r = Some (cp, k)
  end.

Lemma toks_valid s : forall k, Forall valid (toks k s).
Proof.
  induction s as [|c r IH]; intros k; cbn [toks]; [constructor|].
  destruct k as [|k]; [|apply IH].
  destruct (N_of_ascii c <? 128) eqn:E.
  { constructor; [apply N.ltb_lt in E; exact E | apply IH]. }
  apply N.ltb_ge in E.
  destruct (utf8_lead c r) as [[cp k]|] eqn:U; [|constructor; [exact E | apply IH]].
  destruct (printable cp); constructor; try apply IH; [exact E|].
  exists c, r, k. auto.
Qed.

Lemma toks_raw s : forall k, (k <= List.length s)%nat -> List.concat (map raw_of (toks k s)) = skipn k s.
Proof.
  induction s as [|c r IH]; intros k L; cbn [toks].
  - destruct k; reflexivity.
  - destruct k as [|k]; [|cbn [skipn]; apply IH; cbn in L; lia].
    cbn [skipn]. assert (I0 : List.concat (map raw_of (toks 0 r)) = r) by (apply (IH 0%nat); lia).
    destruct (N_of_ascii c <? 128); [cbn; now rewrite I0|].
    destruct (utf8_lead c r) as [[cp k]|] eqn:U; [|cbn; now rewrite I0].
    destruct (printable cp); [cbn; now rewrite I0|].
    cbn [map List.concat raw_of]. rewrite IH by (apply utf8_lead_range in U; lia).
    cbn. now rewrite firstn_skipn.
Qed.

Lemma valid_TN cp raw : valid (TN cp raw) -> 128 <= cp <= 1114111.
Proof. intros (c & r & k & _ & U). now apply utf8_lead_range in U. Qed.

Lemma etok_head q t :
  is_quote q -> valid t -> exists h x, etok q t = h :: x /\ h <> q /\ (N_of_ascii h < 128 \/ t = TR h).
Proof.
  intros Hq V.
  assert (Bq : bslash <> q /\ N_of_ascii bslash < 128) by (destruct Hq as [-> | ->]; (split; [discriminate | cbn; lia])).
  destruct Bq as [Bq Bs]. destruct t as [c|c|cp raw]; cbn [etok].
  - destruct (esc_cases q c) as [(-> & Nq & _) | [x ->]]; [exists c, [] | exists bslash, x]; repeat split; auto.
  - exists c, []. repeat split; auto. intros ->. destruct Hq as [-> | ->]; cbn in V; lia.
  - apply valid_TN in V as [L _]. destruct (uesc_head q cp L) as [x ->]. exists bslash, x. auto.
Qed.

Lemma TR_clash q c t r r' :
  is_quote q -> 128 <= N_of_ascii c -> valid t -> (forall d, t <> TR d) -> c :: r <> etok q t ++ r'.
Proof.
  intros Hq L V N H. destruct (etok_head q t Hq V) as (h & x & E & _ & [C | C]); [|now apply N in C].
  rewrite E in H. injection H as -> _. lia.
Qed.

Lemma etok_prefix q t t' r r' :
  is_quote q -> valid t -> valid t' -> etok q t ++ r = etok q t' ++ r' -> t = t' /\ r = r'.
Proof.
  intros Hq V V' H.
  destruct t as [c|c|cp raw], t' as [c'|c'|cp' raw']; cbn [etok app] in H.
  - (* TA / TA *)
    apply esc_prefix in H as [-> ->]; auto.
  - (* TA / TR *)
    symmetry in H. now apply (TR_clash q c' (TA c)) in H.
  - (* TA / TN *)
    exfalso. apply valid_TN in V'. cbn in V. rewrite esc_uesc in H. apply uesc_prefix in H as [E _]; [|assumption|lia ..]. lia.
  - (* TR / TA *)
    now apply (TR_clash q c (TA c')) in H.
  - (* TR / TR *)
    injection H as -> ->. auto.
  - (* TR / TN *)
    now apply (TR_clash q c (TN cp' raw')) in H.
  - (* TN / TA *)
    exfalso. apply valid_TN in V. cbn in V'. rewrite esc_uesc in H. apply uesc_prefix in H as [E _]; [|assumption|lia ..]. lia.
  - (* TN / TR *)
    symmetry in H. now apply (TR_clash q c' (TN cp raw)) in H.
  - (* TN / TN: the code points agree, and a code point has one encoding *)
    pose proof (valid_TN _ _ V). pose proof (valid_TN _ _ V').
    apply uesc_prefix in H as [<- <-]; [|assumption|lia ..]. split; [|reflexivity].
    destruct V as (c0 & r0 & k0 & -> & U0), V' as (c1 & r1 & k1 & -> & U1).
    destruct (utf8_lead_inj _ _ _ _ _ _ _ U0 U1) as (-> & -> & ->). reflexivity.
Qed.

Lemma flat_etok_inj q : is_quote q -> forall l l' r r',
  Forall valid l -> Forall valid l' ->
  flat_map (etok q) l ++ q :: r = flat_map (etok q) l' ++ q :: r' -> l = l' /\ r = r'.
Proof.
  intros Hq. induction l as [|t l IH]; intros [|t' l'] r r' V V' H; cbn [flat_map] in H.
  - inversion H; auto.
  - exfalso. inversion V' as [|? ? Vt _]; subst. destruct (etok_head q t' Hq Vt) as (h & x & E & N & _).
    rewrite E in H. cbn in H. inversion H; subst. congruence.
  - exfalso. inversion V as [|? ? Vt _]; subst. destruct (etok_head q t Hq Vt) as (h & x & E & N & _).
    rewrite E in H. cbn in H. inversion H; subst. congruence.
  - inversion V as [|? ? Vt Vl]; inversion V' as [|? ? Vt' Vl']; subst.
    rewrite <- !app_assoc in H. apply etok_prefix in H as [-> H]; auto.
    apply IH in H as [-> ->]; auto.
Qed.

Local Close Scope N_scope.

Lemma body_inj q s s' r r' :
  is_quote q -> body q s ++ q :: r = body q s' ++ q :: r' -> s = s' /\ r = r'.
Proof.
  intros Hq H. unfold body in H.
  apply flat_etok_inj in H as [E ->]; auto using toks_valid.
  split; [|reflexivity].
  pose proof (toks_raw s 0 (Nat.le_0_l _)) as A. pose proof (toks_raw s' 0 (Nat.le_0_l _)) as A'.
  cbn [skipn] in A, A'. rewrite <- A, <- A', E. reflexivity.
Qed.

Lemma srepr_prefix s s' r r' : srepr s ++ r = srepr s' ++ r' -> s = s' /\ r = r'.
Proof.
  unfold srepr. cbn. intros H. inversion H as [[Hq H']]. rewrite Hq in H'.
  rewrite <- ?app_assoc in H'. cbn in H'.
  eapply body_inj; [apply quote_of_is_quote | exact H'].
Qed.

Lemma srepr_inj s s' : srepr s = srepr s' -> s = s'.
Proof.
  intros H. assert (H' : srepr s ++ [] = srepr s' ++ []) by now rewrite H.
  now apply srepr_prefix in H'.
Qed.

Lemma item_prefix x x' r r' : item x ++ r = item x' ++ r' -> x = x' /\ r = r'.
Proof.
  destruct x as [k v], x' as [k' v']. unfold item. cbn [fst snd B list_ascii_of_string].
  rewrite <- ?app_assoc. cbn [app]. intros H. apply strip1 in H.
  apply srepr_prefix in H as [-> H]. do 2 apply strip1 in H.
  apply srepr_prefix in H as [-> H]. apply strip1 in H. auto.
Qed.

Lemma item_head x : exists t, item x = "("%char :: t.
Proof. unfold item. cbn. eauto. Qed.

Lemma ltail_prefix l l' r r' : ltail l ++ r = ltail l' ++ r' -> l = l' /\ r = r'.
Proof.
  revert l'. induction l as [|x l IH]; intros [|x' l'] H; cbn [ltail B list_ascii_of_string app] in H.
  - apply strip1 in H. auto.
  - discriminate.
  - discriminate.
  - do 2 apply strip1 in H. rewrite <- ?app_assoc in H.
    apply item_prefix in H as [-> H]. apply IH in H as [-> ->]. auto.
Qed.

Lemma lrepr_prefix l l' r r' : lrepr l ++ r = lrepr l' ++ r' -> l = l' /\ r = r'.
Proof.
  destruct l as [|x l], l' as [|x' l']; cbn [lrepr B list_ascii_of_string app]; intros H.
  - do 2 apply strip1 in H. auto.
  - exfalso. destruct (item_head x') as [t E]. rewrite E in H. cbn in H. discriminate.
  - exfalso. destruct (item_head x) as [t E]. rewrite E in H. cbn in H. discriminate.
  - apply strip1 in H. rewrite <- ?app_assoc in H.
    apply item_prefix in H as [-> H]. apply ltail_prefix in H as [-> ->]. auto.
Qed.

(* The framing the code uses (F3 repaired): repr of the tuple. *)
Theorem key_frame_injective g o v p g' o' v' p' :
  key_frame g o v p = key_frame g' o' v' p' -> g = g' /\ o = o' /\ v = v' /\ p = p'.
Proof.
  unfold key_frame. cbn [B list_ascii_of_string]. rewrite <- ?app_assoc. cbn [app].
  intros H. apply strip1 in H.
  apply srepr_prefix in H as [-> H]. do 2 apply strip1 in H.
  apply lrepr_prefix in H as [-> H]. do 2 apply strip1 in H.
  apply srepr_prefix in H as [-> H]. do 2 apply strip1 in H.
  apply app_inv_tail in H. auto.
Qed.

(* The framing the code used before the repair of F3 (plain concatenation) is not injective. *)
Definition key_concat (g : bytes) (o : list (bytes * bytes)) (v p : bytes) : bytes :=
  g ++ flat_map (fun kv => fst kv ++ snd kv) o ++ v ++ p.

Lemma key_concat_not_injective :
  exists g o g' o' v p, (g, o) <> (g', o') /\ key_concat g o v p = key_concat g' o' v p.
Proof.
  exists (B "start: ""a"" ""b"" //"), [(B "keep_all_tokens", B "True")],
         (B "start: ""a"" ""b"" //keep_all_tokensTrue"), [], (B "1.3.1"), (B "(3, 12)").
  split; [discriminate | reflexivity].
Qed.
