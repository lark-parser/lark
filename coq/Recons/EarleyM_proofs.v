(* C19: the matcher hypotheses of the round-trip theorem, proved for the Earley model M_earley.
   (1) conv: every derivation tree of cfg_of G becomes, through the callbacks, a valid match of G with the same leaves.
   (2) all_supported: under plain_roots every valid match of G_for data rooted at data is a supported match.
   (3) M_earley_ok / M_earley_complete from C04's exactness of the model forest (which rests on C01).
   (4) recons_token_roundtrip_earley. *)
From Coq Require Import String Ascii List Arith Bool Lia.
From LV Require Import Base.Prelude Cfg.Grammar Cfg.Analysis Cfg.Analysis_proofs Earley.Spec Earley.Alg Earley.Alg_proofs
     Forest.ExplicitBuild Forest.ExplicitBuild_proofs Forest.ExplicitAlgBuild Forest.ExplicitAlgBuild_proofs
     Recons.Recons Recons.Recons_proofs Recons.ReconsCheck Recons.ReconsCheck_proofs Recons.Complete_proofs
     Recons.Link_proofs Recons.Roundtrip_proofs Recons.EarleyM.
Import ListNotations.

Lemma cfg_of_to_cfg G : cfg_of G = to_cfg G.
Proof. reflexivity. Qed.

Lemma occurs_st_spec cs x i : occurs_st cs x i = true <-> nth_error cs i = Some x.
Proof.
  unfold occurs_st. destruct (nth_error cs i) as [y|]; split; intros H; try discriminate.
  - apply stree_eqb_eq in H. congruence.
  - inversion H. apply stree_eqb_refl.
Qed.

Fixpoint dt_ind2 (tok : Type) (Q : dt tok -> Prop) (HL : forall t x, Q (DL tok t x))
         (HN : forall r ks, Forall Q ks -> Q (DN tok r ks)) (d : dt tok) : Q d :=
  match d with
  | DL _ t x => HL t x
  | DN _ r ks =>
      HN r ks ((fix go (l : list (dt tok)) : Forall Q l :=
                  match l with
                  | [] => Forall_nil _
                  | x :: l' => Forall_cons _ (dt_ind2 tok Q HL HN x) (go l')
                  end) ks)
  end.

Lemma yield_DN (tok : Type) r ks : ExplicitBuild.yield tok (DN tok r ks) = flat_map (ExplicitBuild.yield tok) ks.
Proof. simpl. induction ks as [|k ks IH]; simpl; auto; try (rewrite IH; reflexivity). Qed.

Section Conv.
  Variable G : list rrule.

  Lemma find_rrule_in x : In x G ->
    exists y, find_rrule G (mkRule (r_origin x) (r_exp x)) = Some y /\ In y G /\
              r_origin y = r_origin x /\ r_exp y = r_exp x.
  Proof.
    intros Hin. unfold find_rrule.
    destruct (find _ G) as [y|] eqn:E.
    - apply find_some in E. destruct E as (Hy & Hk). simpl in Hk.
      apply andb_true_iff in Hk. destruct Hk as (H1 & H2). apply Nat.eqb_eq in H1.
      apply (list_eqb_eq _ symbol_eqb_eq) in H2. exists y. auto.
    - exfalso. pose proof (find_none _ _ E x Hin) as Hn. simpl in Hn.
      rewrite Nat.eqb_refl, (list_eqb_refl _ symbol_eqb_refl) in Hn. discriminate.
  Qed.

  Definition Cv (d : dt stree) : Prop :=
    forall s, wfd (cfg_of G) stree cmatch d s ->
    match d with
    | DL _ t x => s = T t /\ cmatch t x = true
    | DN _ r ks => exists y, find_rrule G r = Some y /\ In y G /\ r_origin y = lhs r /\ r_exp y = rhs r /\
                             s = NT (lhs r) /\
                             uargs_gen (uvalid G) (rhs r) (map (to_utree G) ks) /\
                             flat_map leaves (map (to_utree G) ks) = ExplicitBuild.yield stree d
    end.

  Lemma conv : forall d, Cv d.
  Proof.
    apply dt_ind2.
    - intros t x s H. inversion H; subst. auto.
    - intros r ks IH s H. inversion H as [|r0 ks0 Hin HF]; subst.
      unfold cfg_of in Hin. apply in_map_iff in Hin. destruct Hin as (x & Ex & Hx). subst r.
      destruct (find_rrule_in x Hx) as (y & Hf & Hy & Ho & He).
      cbn [lhs rhs] in *.
      assert (H2 : uargs_gen (uvalid G) (r_exp x) (map (to_utree G) ks) /\
                   flat_map leaves (map (to_utree G) ks) = flat_map (ExplicitBuild.yield stree) ks).
      { clear Hf H. revert HF IH. generalize (r_exp x) as ss. induction ks as [|k ks IHk]; intros ss HF IH;
          inversion HF as [|k0 s0 ks0 ss0 Hk HF']; subst; [split; constructor|].
        inversion IH as [|? ? Hq IH']; subst. specialize (Hq _ Hk). destruct (IHk _ HF' IH') as (Hu & Hl).
        cbn [map flat_map]. rewrite Hl. destruct k as [t c|r' ks'].
        - destruct Hq as (-> & Hm). cbn [to_utree]. split; [constructor; auto|reflexivity].
        - destruct Hq as (y' & Hf' & Hy' & Ho' & He' & -> & Hu' & Hl'). cbn [to_utree]. rewrite Hf'. split.
          + constructor; auto. constructor; auto. rewrite He'. exact Hu'.
          + cbn [leaves]. rewrite Hl'. reflexivity. }
      exists y. rewrite yield_DN. destruct H2. repeat split; auto.
  Qed.

  Lemma conv_root d a : wfd (cfg_of G) stree cmatch d (NT a) ->
    exists r args, to_utree G d = UNode r args /\ In r G /\ r_origin r = a /\
                   uargs_gen (uvalid G) (r_exp r) args /\ leaves (UNode r args) = ExplicitBuild.yield stree d.
  Proof.
    intros H. pose proof (conv d _ H) as Hc. destruct d as [t x|r ks].
    - destruct Hc as (E & _). discriminate.
    - destruct Hc as (y & Hf & Hy & Ho & He & Es & Hu & Hl). inversion Es; subst a.
      exists y, (map (to_utree G) ks). cbn [to_utree]. rewrite Hf. repeat split; auto. rewrite He. exact Hu.
  Qed.

  Fixpoint from_utree (u : utree) : dt stree :=
    match u with
    | ULeaf c => DL stree (name_of c) c
    | UNode r args => DN stree (mkRule (r_origin r) (r_exp r)) (map from_utree args)
    end.

  Definition Fv (u : utree) : Prop :=
    match u with
    | ULeaf _ => True
    | UNode r _ => wfd (cfg_of G) stree cmatch (from_utree u) (NT (r_origin r)) /\
                   ExplicitBuild.yield stree (from_utree u) = leaves u
    end.

  Lemma from_args ss args : uargs_gen Fv ss args ->
    Forall2 (wfd (cfg_of G) stree cmatch) (map from_utree args) ss /\
    flat_map (ExplicitBuild.yield stree) (map from_utree args) = flat_map leaves args.
  Proof.
    induction 1 as [|t c ss args Hm _ (H1 & H2)|a r args0 ss args <- (Hw & Hy) _ (H1 & H2)].
    - split; constructor.
    - split.
      + cbn [map from_utree]. constructor; auto. unfold cmatch in Hm. apply Nat.eqb_eq in Hm. subst t.
        constructor. unfold cmatch. apply Nat.eqb_refl.
      + cbn [map flat_map from_utree leaves ExplicitBuild.yield app]. rewrite H2. reflexivity.
    - split.
      + cbn [map]. constructor; auto.
      + cbn [map flat_map]. rewrite Hy, H2. reflexivity.
  Qed.

  Lemma from_valid : forall u, uvalid G u -> Fv u.
  Proof.
    apply uvalid_ind2. intros r args Hin Hu. destruct (from_args _ _ Hu) as (H1 & H2). split.
    - cbn [from_utree]. change (NT (r_origin r)) with (NT (lhs (mkRule (r_origin r) (r_exp r)))).
      constructor; auto. apply In_to_cfg; auto.
    - cbn [from_utree leaves]. rewrite yield_DN. exact H2.
  Qed.
End Conv.

Section Supp.
  Variable us : nat -> bool.
  Variable P : list prule.
  Hypothesis Hc : cls us P.

  Definition plain_roots : Prop := forall data r, In r (rfr us P data) -> is_nonterminal us P data = false.

  Lemma plain_roots_b_sound : plain_roots_b us P = true -> plain_roots.
  Proof.
    unfold plain_roots_b. rewrite forallb_forall. intros H data r Hin.
    specialize (H _ (rfr_in_all us P _ _ Hin)). simpl in H. apply negb_true_iff in H. exact H.
  Qed.

  Lemma rules_origin_nt r : In r (rules us P) -> is_nonterminal us P (r_origin r) = true.
  Proof.
    intros Hin. apply (rules_kind us P) in Hin. apply is_nonterminal_iff.
    destruct Hin as [pr HinP _ _ Hinl | pr HinP _ Hr1 | pr HinP Hal | pr al HinP Hal]; cbn [regular unit_rule r_origin].
    - apply orb_true_iff in Hinl. destruct Hinl as [Hu|He].
      + assert (H : p_alias pr = None).
        { destruct (p_alias pr) as [al|] eqn:E; auto. destruct (c_alias Hc _ _ HinP E) as (_ & Hf & _).
          unfold sym_name in Hu. rewrite E in Hu. congruence. }
        unfold sym_name in *. rewrite H in *. split; auto. apply In_rule_names; auto.
      + apply memn_In in He. split; auto. apply (expand1s_names P); auto.
    - apply andb_true_iff in Hr1. destruct Hr1 as (He1 & _). apply memn_In in He1.
      split; auto. apply (expand1s_names P); auto.
    - split; [apply In_rule_names; auto|]. right; right. apply In_aliased. exists pr. auto.
    - split; [apply In_rule_names; auto|]. right; right. apply In_aliased. exists pr. eauto using has_alias_Some.
  Qed.

  Lemma recons_exp_nt pr a : In (NT a) (recons_exp us P pr) -> is_nonterminal us P a = true.
  Proof.
    unfold recons_exp. rewrite in_map_iff. intros (s & E & _). destruct s as [n fo|n]; simpl in E; [discriminate|].
    destruct (is_nonterminal us P n) eqn:En; inversion E; subst; auto.
  Qed.

  Lemma gfor_nt_syms data r a : In r (G_for us P data) -> In (NT a) (r_exp r) -> is_nonterminal us P a = true.
  Proof.
    unfold G_for. intros Hin Ha. apply in_app_or in Hin. destruct Hin as [Hin|Hin].
    - apply (rules_kind us P) in Hin.
      destruct Hin as [pr HinP _ _ _ | pr HinP _ _ | pr HinP Hal | pr al HinP Hal];
        cbn [regular unit_rule r_exp] in Ha; try (destruct Ha as [Ha|[]]; discriminate).
      eapply recons_exp_nt; eauto.
    - destruct (rfr_kind us P _ _ Hin) as (pr & _ & -> & _). cbn [regular r_exp] in Ha. eapply recons_exp_nt; eauto.
  Qed.

  Section Data.
    Variable data : nat.
    Hypothesis Hplain : is_nonterminal us P data = false.

    Lemma gfor_rules r : In r (G_for us P data) -> is_nonterminal us P (r_origin r) = true ->
      In r (rules us P) /\ forall a, In (NT a) (r_exp r) -> is_nonterminal us P a = true.
    Proof.
      intros Hin Hnt. split; [|intros a Ha; eapply gfor_nt_syms; eauto].
      unfold G_for in Hin. apply in_app_or in Hin. destruct Hin as [Hin'|Hin']; auto.
      destruct (rfr_kind us P _ _ Hin') as (pr & _ & -> & Hs). cbn [regular r_origin] in Hnt. congruence.
    Qed.

    Lemma restrict : forall u, uvalid (G_for us P data) u -> forall r a, u = UNode r a ->
      is_nonterminal us P (r_origin r) = true -> uvalid (rules us P) u.
    Proof. intros u Hv r a ->. exact (uvalid_transfer _ _ (fun a => is_nonterminal us P a = true) gfor_rules _ Hv). Qed.

    Theorem all_supported r args cs :
      In r (G_for us P data) -> r_origin r = data -> uargs_gen (uvalid (G_for us P data)) (r_exp r) args ->
      leaves (UNode r args) = cs -> supported us P (UNode r args) data cs.
    Proof.
      intros Hin Ho Hu Hl. exists r, args.
      assert (Hr : In r (rfr us P data)).
      { unfold G_for in Hin. apply in_app_or in Hin. destruct Hin as [Hin'|Hin']; auto.
        apply rules_origin_nt in Hin'. congruence. }
      repeat split; auto.
      - apply (uargs_transfer (rules us P) (fun a => is_nonterminal us P a = true)).
        + intros a Ha. eapply gfor_nt_syms; eauto.
        + exact (uargs_gen_impl _ _ (uvalid_transfer _ _ _ gfor_rules) _ _ Hu).
      - intros He. exfalso. assert (is_nonterminal us P data = true); [|congruence].
        apply is_nonterminal_iff. split; auto. apply (expand1s_names P); auto.
    Qed.
  End Data.
End Supp.

Section Main.
  Variable us : nat -> bool.
  Variable P : list prule.
  Hypothesis Hc : cls us P.
  Hypothesis Hx : cls_extra us P.
  Hypothesis Hplain : plain_roots us P.
  Variable sel : nat -> list stree -> list (fam stree) -> option (dt stree).
  (* what is assumed of ForestToParseTree(resolve): it returns one of the derivations the forest stores, and it
     returns one whenever the forest stores one (Forest/Prio_proofs.resolve_in_derivs for acyclic forests) *)
  Hypothesis sel_sound : forall data cs fams d, sel data cs fams = Some d ->
    den stree (in_forest stree fams) (NSym stree data 0 (length cs)) [d].
  Hypothesis sel_total : forall data cs fams d,
    den stree (in_forest stree fams) (NSym stree data 0 (length cs)) [d] -> sel data cs fams <> None.

  Notation M := (M_earley us P sel).

  Let ps G : forall a r, In r (pred_lookup G (pred_table G) a) -> In r G /\ lc_reach G a (lhs r).
  Proof. intros a r. rewrite pred_lookup_eq. apply predictions_spec. Qed.
  Let pd G : forall a r, In r G -> lhs r = a -> In r (pred_lookup G (pred_table G) a).
  Proof. intros a r. rewrite pred_lookup_eq. apply predictions_direct. Qed.

  Theorem M_earley_sound data cs u : M (Node data cs) = Some u ->
    exists r args, u = UNode r args /\ In r (G_for us P data) /\ r_origin r = data /\
                   uargs_gen (uvalid (G_for us P data)) (r_exp r) args /\ leaves u = cs.
  Proof.
    unfold M_earley. set (G := cfg_of (G_for us P data)). intros H.
    destruct (r_out (fst (run us P data cs))) eqn:Eo; try discriminate.
    destruct (sel data cs (snd (run us P data cs))) as [d|] eqn:Es; [|discriminate]. inversion H; subst u. clear H.
    apply sel_sound in Es.
    apply (model_forest_exact G (pred_lookup G (pred_table G)) stree cmatch data cs (ps G) (pd G)
             (occurs_st cs) (occurs_st_spec cs)) in Es; [|left; exact Eo].
    destruct Es as (d' & E & Hw & Hy). inversion E; subst d'.
    destruct (conv_root (G_for us P data) d data Hw) as (r & args & Eu & Hin & Ho & Hu & Hl).
    exists r, args. rewrite Eu. repeat split; auto. rewrite Hl. exact Hy.
  Qed.

  Theorem M_earley_ok t u : ptree us P t -> M t = Some u ->
    exists data cs, t = Node data cs /\ supported us P u data cs.
  Proof.
    intros Hp H. destruct (ptree_node us P t Hp) as (pr & ds & Hwf & Hun & -> & HinP).
    exists (sym_name pr), (kids us (DNode pr ds)). split; auto.
    destruct (match_exists us P Hc Hx pr ds Hwf Hun) as (u0 & r0 & a0 & _ & Hr0 & _).
    destruct (M_earley_sound _ _ _ H) as (r & args & -> & Hin & Ho & Hu & Hl).
    apply (all_supported us P Hc (sym_name pr) (Hplain _ _ Hr0)); auto.
  Qed.

  Theorem M_earley_complete data cs : (exists u, supported us P u data cs) -> M (Node data cs) <> None.
  Proof.
    intros (u & Hsup). destruct (supported_valid _ _ _ _ _ Hsup) as (r & args & -> & Ho & Hv & Hl).
    destruct (from_valid (G_for us P data) _ Hv) as (Hw & Hy).
    set (G := cfg_of (G_for us P data)) in *.
    destruct (model_forest_complete G (pred_lookup G (pred_table G)) stree cmatch data cs (ps G) (pd G)
                (occurs_st cs) (occurs_st_spec cs) (from_utree (UNode r args))) as (Hacc & Hden).
    { rewrite <- Ho. exact Hw. }
    { rewrite Hy. exact Hl. }
    unfold M_earley. fold G. unfold run. fold G. rewrite Hacc.
    pose proof (sel_total _ _ _ _ Hden) as Hs.
    destruct (sel data cs _); [discriminate|congruence].
  Qed.

  (* the token-level round trip with lark's Earley tree matcher *)
  Theorem recons_token_roundtrip_earley lit
    (Hlit : forall r n, In r P -> In (Tm n true) (p_exp r) -> lit n <> None)
    (Hdisj : forall r n fo, In r P -> In (Tm n fo) (p_exp r) ->
             forall r', In r' P -> p_origin r' <> n /\ p_alias r' <> Some n)
    start pr0 ds0 :
    wf P (DNode pr0 ds0) -> p_origin pr0 = start -> ~ In start (expand1s P) -> us start = false ->
    exists fuel toks, recon lit M fuel (shape us (DNode pr0 ds0)) = Ok toks /\
      parses us P start toks (shape us (DNode pr0 ds0)) /\
      (unambiguous P start -> forall t', parses us P start toks t' -> t' = shape us (DNode pr0 ds0)).
  Proof.
    apply (recons_token_roundtrip_p us P Hc Hx lit Hlit Hdisj M).
    - intros t u. apply M_earley_ok.
    - apply M_earley_complete.
  Qed.
End Main.
