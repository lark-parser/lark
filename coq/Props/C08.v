(* C08 - Rejections are UnexpectedInput errors at the first offending position.
   Earley half, stated over the specification chart of Earley/Spec.v (which the executable
   model of lark/parsers/earley.py is proved/tied to in C01).  Property theorems only. *)
From Coq Require Import List Arith Bool.
From LV Require Import Cfg.Grammar Earley.Spec Earley.Prefix Earley.Alg Earley.Expected.
Import ListNotations.

(* Valid-prefix property: whenever the chart holds an item at position k, the k tokens
   consumed so far can be extended to a sentence (grammars whose rule bodies are productive). *)
Theorem C08_valid_prefix (G : grammar) (tok : Type) (tmatch : nat -> tok -> bool) (start : nat)
        (w : list tok) k it :
  productive_bodies G tok tmatch -> chart G tok tmatch w start k it ->
  item_viable G tok tmatch start w k it.
Proof. exact (chart_item_viable G tok tmatch start w k it). Qed.
Print Assumptions C08_valid_prefix.

(* Every terminal the chart expects at position k can legally come next ... *)
Theorem C08_expected_sound (G : grammar) (tok : Type) (tmatch : nat -> tok -> bool) (start : nat)
        (w : list tok) k t x :
  productive_bodies G tok tmatch -> expects G tok tmatch start w k t -> tmatch t x = true ->
  k <= length w -> viable G tok tmatch start (firstn k w ++ [x]).
Proof. exact (expected_sound G tok tmatch start w k t x). Qed.
Print Assumptions C08_expected_sound.

(* ... and every terminal that can legally come next is expected (no productivity needed). *)
Theorem C08_expected_complete (G : grammar) (tok : Type) (tmatch : nat -> tok -> bool) (start : nat)
        (w : list tok) k x :
  k <= length w -> viable G tok tmatch start (firstn k w ++ [x]) ->
  exists t, expects G tok tmatch start w k t /\ tmatch t x = true.
Proof. exact (expected_complete G tok tmatch start w k x). Qed.
Print Assumptions C08_expected_complete.

(* The scan of token k succeeds iff w[0..k] is still a viable prefix: the position at which
   the parser stops is exactly the first offending token. *)
Theorem C08_first_offending_token (G : grammar) (tok : Type) (tmatch : nat -> tok -> bool)
        (start : nat) (w : list tok) k x :
  productive_bodies G tok tmatch -> nth_error w k = Some x ->
  ((exists t, expects G tok tmatch start w k t /\ tmatch t x = true) <->
   viable G tok tmatch start (firstn (S k) w)).
Proof. exact (first_offending_token G tok tmatch start w k x). Qed.
Print Assumptions C08_first_offending_token.

(* The executable model of lark's Earley parser (Earley/Alg.v, compared with the code column by
   column in C01 and on the expected sets here) reports exactly that set. *)
Theorem C08_model_expected_exact G start toks k t :
  k < length (r_cols (earley_parse G start toks)) ->
  (In t (expected_at (earley_parse G start toks) k) <-> expects G nat Nat.eqb start toks k t).
Proof. exact (expected_at_exact G start toks k t). Qed.
Print Assumptions C08_model_expected_exact.

(* Non-vacuity: S -> a S b | c ; after "a" the terminals a and c are expected. *)
Definition exG : grammar := [mkRule 0 [T 0; NT 0; T 1]; mkRule 0 [T 2]].
Example C08_example :
  productive_bodies exG nat Nat.eqb /\
  expects exG nat Nat.eqb 0 [0; 2; 1] 1 0 /\ expects exG nat Nat.eqb 0 [0; 2; 1] 1 2.
Proof.
  split.
  - intros r d Hin.
    assert (Hc : derives exG nat Nat.eqb [NT 0] [2]).
    { change [2] with ([2] ++ []). eapply d_nt with (r := mkRule 0 [T 2]); simpl; auto.
      - constructor; [reflexivity | constructor].
      - constructor. }
    assert (Hr1 : derives exG nat Nat.eqb [T 0; NT 0; T 1] [0; 2; 1]).
    { constructor; [reflexivity|]. change [2; 1] with ([2] ++ [1]).
      eapply d_nt with (r := mkRule 0 [T 2]); simpl; auto.
      - constructor; [reflexivity | constructor].
      - constructor; [reflexivity | constructor]. }
    destruct Hin as [<-|[<-|[]]]; simpl.
    + destruct d as [|[|[|[|d]]]]; simpl.
      * eexists; exact Hr1.
      * exists [2; 1]. change [2; 1] with ([2] ++ [1]).
        eapply d_nt with (r := mkRule 0 [T 2]); simpl; auto.
        -- constructor; [reflexivity | constructor].
        -- constructor; [reflexivity | constructor].
      * exists [1]. constructor; [reflexivity | constructor].
      * exists []. constructor.
      * exists []. constructor.
    + destruct d as [|[|d]]; simpl.
      * exists [2]. constructor; [reflexivity | constructor].
      * exists []. constructor.
      * exists []. constructor.
  - assert (H0 : chart exG nat Nat.eqb [0; 2; 1] 0 0 (mkItem (mkRule 0 [T 0; NT 0; T 1]) 0 0)).
    { constructor; simpl; auto. }
    assert (H1 : chart exG nat Nat.eqb [0; 2; 1] 0 1 (mkItem (mkRule 0 [T 0; NT 0; T 1]) 1 0)).
    { eapply c_scan with (t := 0) (x := 0); eauto. }
    split.
    + exists (mkRule 0 [T 0; NT 0; T 1]), 0, 1. split; [|reflexivity].
      eapply c_pred with (r := mkRule 0 [T 0; NT 0; T 1]) (d := 1) (a := 0); eauto; simpl; auto.
    + exists (mkRule 0 [T 2]), 0, 1. split; [|reflexivity].
      eapply c_pred with (r := mkRule 0 [T 0; NT 0; T 1]) (d := 1) (a := 0); eauto; simpl; auto.
Qed.

(* ------------------------------------------------------------------------------------------
   LALR half, never-late direction.  Stated over the executable models of lalr_analysis.py
   (LR/Automaton.v) and ParserState.feed_token (LR/Driver.v), which C02 ties to the code on every
   run; [viable] and [productive_bodies] are the Earley-side definitions above.  Only LR(0) item
   validity is used (every item of a reached state is justified: kernel / root / predicted by a
   justified item) - nothing about look-ahead sets, so the theorems hold whatever conflicts were
   resolved.  G = user rules, the model runs on G ++ [$root -> start] as lark does. *)
From Coq Require Import ZArith.
From LV Require Import LR.Driver LR.Driver_proofs LR.Automaton LR.Viable LR.Viable_proofs LR.Viable_model.

(* any table with a valid item annotation: every reachable stack spells a viable prefix *)
Theorem C08_lalr_valid_items_viable (tok : Type) (ttype : tok -> nat) (G : grammar) (P : ptable) (start : nat)
        (items : state -> list (rule * nat)) ss vs :
  wf_items_v G P start items -> productive_bodies G tok (Driver_proofs.tmatch tok ttype) ->
  stack_ok tok ttype G P ss vs ->
  viable G tok (Driver_proofs.tmatch tok ttype) start (consumed tok vs).
Proof. exact (fun WV Hp => stack_viable tok ttype G P start items WV Hp ss vs). Qed.
Print Assumptions C08_lalr_valid_items_viable.

(* if after consuming u the driver shifts token k (after any reductions), u ++ [k] can be
   extended to a sentence: a token is never shifted after the first offending one *)
Theorem C08_lalr_shift_viable (G : grammar) (prio : list Z) (rootnt start tEND fuel : nat)
        (A : lr0) (rel : relations) (LA : list (nat * nat * nat)) (R : rows) (qe : nat)
        fuel' u c k c' :
  compute_lalr (G ++ [mkRule rootnt [NT start]]) prio [length G] tEND fuel = ATable A rel LA R ->
  (forall r, In r G -> ~ In (NT rootnt) (rhs r)) -> start <> rootnt ->
  end_state (G ++ [mkRule rootnt [NT start]]) [length G] A 0 = Some qe ->
  productive_bodies G nat (Driver_proofs.tmatch nat (fun k => k)) -> (exists r, In r G /\ lhs r = start) ->
  feed_all nat (fun k => k) (ptable_of_rows R 0 qe) fuel' (init_config (ptable_of_rows R 0 qe)) u = Shifted c ->
  feed nat (fun k => k) (ptable_of_rows R 0 qe) fuel' c k false = Shifted c' ->
  viable G nat (Driver_proofs.tmatch nat (fun k => k)) start (u ++ [k]).
Proof.
  exact (fun H1 H2 H3 H4 H5 H6 =>
           model_shift_viable G prio rootnt start tEND fuel A rel LA R qe H1 H2 H3 H4 H5 H6 fuel' u c k c').
Qed.
Print Assumptions C08_lalr_shift_viable.

(* when UnexpectedToken is raised, the tokens consumed so far (a prefix of the input, all
   reductions included) form a viable prefix: the error is never late *)
Theorem C08_lalr_error_not_late (G : grammar) (prio : list Z) (rootnt start tEND fuel : nat)
        (A : lr0) (rel : relations) (LA : list (nat * nat * nat)) (R : rows) (qe : nat)
        fuel' w c :
  compute_lalr (G ++ [mkRule rootnt [NT start]]) prio [length G] tEND fuel = ATable A rel LA R ->
  (forall r, In r G -> ~ In (NT rootnt) (rhs r)) -> start <> rootnt ->
  end_state (G ++ [mkRule rootnt [NT start]]) [length G] A 0 = Some qe ->
  productive_bodies G nat (Driver_proofs.tmatch nat (fun k => k)) -> (exists r, In r G /\ lhs r = start) ->
  feed_all nat (fun k => k) (ptable_of_rows R 0 qe) fuel' (init_config (ptable_of_rows R 0 qe)) w = Unexpected c ->
  exists w1 w2, w = w1 ++ w2 /\ consumed nat (vstack c) = w1 /\
                viable G nat (Driver_proofs.tmatch nat (fun k => k)) start w1.
Proof.
  exact (fun H1 H2 H3 H4 H5 H6 =>
           model_error_not_late G prio rootnt start tEND fuel A rel LA R qe H1 H2 H3 H4 H5 H6 fuel' w c).
Qed.
Print Assumptions C08_lalr_error_not_late.

(* accepts(): a terminal whose trial feed succeeds can legally come next, and $END is accepted
   only after a sentence *)
Theorem C08_lalr_accepts_sound (G : grammar) (prio : list Z) (rootnt start tEND fuel : nat)
        (A : lr0) (rel : relations) (LA : list (nat * nat * nat)) (R : rows) (qe : nat)
        fuel' u c :
  compute_lalr (G ++ [mkRule rootnt [NT start]]) prio [length G] tEND fuel = ATable A rel LA R ->
  (forall r, In r G -> ~ In (NT rootnt) (rhs r)) -> start <> rootnt ->
  end_state (G ++ [mkRule rootnt [NT start]]) [length G] A 0 = Some qe ->
  productive_bodies G nat (Driver_proofs.tmatch nat (fun k => k)) -> (exists r, In r G /\ lhs r = start) ->
  feed_all nat (fun k => k) (ptable_of_rows R 0 qe) fuel' (init_config (ptable_of_rows R 0 qe)) u = Shifted c ->
  (forall k c', feed nat (fun k => k) (ptable_of_rows R 0 qe) fuel' c k false = Shifted c' ->
                viable G nat (Driver_proofs.tmatch nat (fun k => k)) start (u ++ [k])) /\
  (forall t, feed nat (fun k => k) (ptable_of_rows R 0 qe) fuel' c tEND true = Accepted t ->
             derives G nat (Driver_proofs.tmatch nat (fun k => k)) [NT start] u).
Proof.
  exact (fun H1 H2 H3 H4 H5 H6 H7 =>
           conj (fun k c' => model_accepts_sound G prio rootnt start tEND fuel A rel LA R qe H1 H2 H3 H4 H5 H6 fuel' u c k c' H7)
                (fun t => model_accepts_end_sound G prio rootnt start tEND fuel A rel LA R qe H1 H2 H3 H4 fuel' u c t H7)).
Qed.
Print Assumptions C08_lalr_accepts_sound.

(* The never-early direction needs look-ahead completeness (every terminal that can follow a
   viable prefix has an action after the reductions it triggers) and holds only for
   conflict-free tables: it is C08_lalr_never_early below.  On the code it is also checked
   differentially (position of the error vs the longest viable prefix). *)
Definition C08_lalr_never_early_full_statement : Prop :=
  forall (G : grammar) (prio : list Z) (rootnt start tEND fuel : nat)
         (A : lr0) (rel : relations) (LA : list (nat * nat * nat)) (R : rows) (qe : nat) fuel' u c k,
  compute_lalr (G ++ [mkRule rootnt [NT start]]) prio [length G] tEND fuel = ATable A rel LA R ->
  (forall r, In r G -> ~ In (NT rootnt) (rhs r) /\ ~ In (T tEND) (rhs r)) -> start <> rootnt ->
  end_state (G ++ [mkRule rootnt [NT start]]) [length G] A 0 = Some qe ->
  (forall q s, In s (la_terms LA q) -> trans A q (T s) = None /\ length (la_rules LA q s) <= 1) ->
  feed_all nat (fun k => k) (ptable_of_rows R 0 qe) fuel' (init_config (ptable_of_rows R 0 qe)) u = Shifted c ->
  k <> tEND ->
  viable G nat (Driver_proofs.tmatch nat (fun k => k)) start (u ++ [k]) ->
  exists fuel'' c', feed nat (fun k => k) (ptable_of_rows R 0 qe) fuel'' c k false = Shifted c'.

(* Non-vacuity for the LALR half: exG = S -> a S b | c with $root = non-terminal 1, $END = 3.
   The table is built; after "a c" the token b is shifted; "a b" is rejected with consumed = "a". *)
Example C08_lalr_example :
  match compute_lalr (exG ++ [mkRule 1 [NT 0]]) [0%Z; 0%Z; 0%Z] [2] 3 100 with
  | ATable A rel LA R =>
      match end_state (exG ++ [mkRule 1 [NT 0]]) [2] A 0 with
      | Some qe =>
          let P := ptable_of_rows R 0 qe in
          match feed_all nat (fun k => k) P 50 (init_config P) [0; 2] with
          | Shifted c => exists c', feed nat (fun k => k) P 50 c 1 false = Shifted c'
          | _ => False
          end /\
          (exists c, feed_all nat (fun k => k) P 50 (init_config P) [0; 1] = Unexpected c /\
                     consumed nat (vstack c) = [0])
      | None => False
      end
  | _ => False
  end.
Proof. vm_compute. split; [eexists; reflexivity | eexists; split; reflexivity]. Qed.

(* ------------------------------------------------------------------------------------------
   LALR half, never-EARLY direction (round 6): for CONFLICT-FREE model tables (no shift/reduce
   and no reduce/reduce set, cf. C02_complete) an error is raised only when the token really
   cannot follow, so with the never-late theorems above the reported position is exactly the
   first offending token, and accepts() is exact.  Proof: the driver follows a derivation tree
   of any sentence u ++ k :: v (LR/Lalr_complete.v); that run is cut where k is shifted and
   fuel monotonicity identifies the configuration there with the driver's own (LR/Lalr_exact.v).
   With conflicts the statement is false: see C08_lalr_never_early_needs_conflict_free. *)
From LV Require Import LR.Lalr_complete LR.Lalr_exact.

Theorem C08_lalr_never_early : C08_lalr_never_early_full_statement.
Proof.
  exact (fun G prio rootnt start tEND fuel A rel LA R qe fuel' u c k HT Hfr Hne Hqe CF Hf _ Hvi =>
           never_early_shift G prio rootnt start tEND fuel A rel LA R qe HT
             (fun r Hr => proj1 (Hfr r Hr)) Hne Hqe CF fuel' u c k Hf Hvi).
Qed.
Print Assumptions C08_lalr_never_early.

(* an UnexpectedToken on k after consuming u: u is a viable prefix and u ++ [k] is not -
   the reported position is EXACTLY the first offending token *)
Theorem C08_lalr_error_position_exact (G : grammar) (prio : list Z) (rootnt start tEND fuel : nat)
        (A : lr0) (rel : relations) (LA : list (nat * nat * nat)) (R : rows) (qe : nat)
        f u c f' k c' :
  compute_lalr (G ++ [mkRule rootnt [NT start]]) prio [length G] tEND fuel = ATable A rel LA R ->
  (forall r, In r G -> ~ In (NT rootnt) (rhs r)) -> start <> rootnt ->
  end_state (G ++ [mkRule rootnt [NT start]]) [length G] A 0 = Some qe ->
  productive_bodies G nat (Driver_proofs.tmatch nat (fun k => k)) -> (exists r, In r G /\ lhs r = start) ->
  conflict_free A LA ->
  feed_all nat (fun k => k) (ptable_of_rows R 0 qe) f (init_config (ptable_of_rows R 0 qe)) u = Shifted c ->
  feed nat (fun k => k) (ptable_of_rows R 0 qe) f' c k false = Unexpected c' ->
  viable G nat (Driver_proofs.tmatch nat (fun k => k)) start u /\
  ~ viable G nat (Driver_proofs.tmatch nat (fun k => k)) start (u ++ [k]).
Proof.
  exact (fun H1 H2 H3 H4 H5 H6 H7 =>
           error_position_exact G prio rootnt start tEND fuel A rel LA R qe H1 H2 H3 H4 H5 H6 H7 f u c f' k c').
Qed.
Print Assumptions C08_lalr_error_position_exact.

(* accepts() is exact: a terminal passes the trial feed iff it can legally come next, and
   $END passes iff the consumed input is a sentence *)
Theorem C08_lalr_accepts_exact (G : grammar) (prio : list Z) (rootnt start tEND fuel : nat)
        (A : lr0) (rel : relations) (LA : list (nat * nat * nat)) (R : rows) (qe : nat)
        f u c :
  compute_lalr (G ++ [mkRule rootnt [NT start]]) prio [length G] tEND fuel = ATable A rel LA R ->
  (forall r, In r G -> ~ In (NT rootnt) (rhs r)) -> start <> rootnt ->
  end_state (G ++ [mkRule rootnt [NT start]]) [length G] A 0 = Some qe ->
  productive_bodies G nat (Driver_proofs.tmatch nat (fun k => k)) -> (exists r, In r G /\ lhs r = start) ->
  conflict_free A LA ->
  feed_all nat (fun k => k) (ptable_of_rows R 0 qe) f (init_config (ptable_of_rows R 0 qe)) u = Shifted c ->
  (forall k, (exists f' c', feed nat (fun k => k) (ptable_of_rows R 0 qe) f' c k false = Shifted c') <->
             viable G nat (Driver_proofs.tmatch nat (fun k => k)) start (u ++ [k])) /\
  ((exists f' t, feed nat (fun k => k) (ptable_of_rows R 0 qe) f' c tEND true = Accepted t) <->
   derives G nat (Driver_proofs.tmatch nat (fun k => k)) [NT start] u).
Proof.
  exact (fun H1 H2 H3 H4 H5 H6 H7 H8 =>
           conj (fun k => accepts_exact G prio rootnt start tEND fuel A rel LA R qe H1 H2 H3 H4 H5 H6 H7 f u c k H8)
                (accepts_end_exact G prio rootnt start tEND fuel A rel LA R qe H1 H2 H3 H4 H7 f u c H8)).
Qed.
Print Assumptions C08_lalr_accepts_exact.

(* Conflict-freedom is necessary.  exSR:  start -> a B D ;  a -> C | C B   (B=1 C=2 D=3,
   $END=0, $root = non-terminal 2).  After "c" the shift/reduce conflict on B is resolved as
   shift, so after "c b" the token d raises UnexpectedToken although "c b d" is a sentence. *)
Definition exSR : grammar := [mkRule 0 [NT 1; T 1; T 3]; mkRule 1 [T 2]; mkRule 1 [T 2; T 1]].
Example C08_lalr_never_early_needs_conflict_free :
  derives exSR nat (Driver_proofs.tmatch nat (fun k => k)) [NT 0] [2; 1; 3] /\
  match compute_lalr (exSR ++ [mkRule 2 [NT 0]]) [0%Z; 0%Z; 0%Z; 0%Z] [3] 0 100 with
  | ATable A rel LA R =>
      match end_state (exSR ++ [mkRule 2 [NT 0]]) [3] A 0 with
      | Some qe =>
          let P := ptable_of_rows R 0 qe in
          conflict_free_b A LA = false /\
          match feed_all nat (fun k => k) P 50 (init_config P) [2; 1] with
          | Shifted c => exists c', feed nat (fun k => k) P 50 c 3 false = Unexpected c'
          | _ => False
          end
      | None => False
      end
  | _ => False
  end.
Proof.
  split.
  - change [2; 1; 3] with ([2; 1; 3] ++ []).
    apply d_nt with (r := mkRule 0 [NT 1; T 1; T 3]); simpl; auto; [|constructor].
    change [2; 1; 3] with ([2] ++ [1; 3]).
    apply d_nt with (r := mkRule 1 [T 2]); simpl; auto.
    + constructor; [reflexivity|constructor].
    + constructor; [reflexivity|]. constructor; [reflexivity|constructor].
  - vm_compute. split; [reflexivity|eexists; reflexivity].
Qed.

(* ------------------------------------------------------------------------------------------
   Round 12, Earley half for the DYNAMIC lexers at the level of the error REPORT.
   Model: Earley/Dyn.v (xearley._parse / scan, tied per column by C01) + Earley/DynReport.v (what the raise sites pass:
   position, the main loop's line/column, {item.expect.name for item in to_scan}, set(to_scan), frozenset(i.s ...));
   the raise sites and their decision conditions are pinned / regenerated by translator/gen_earley.py
   (Gen/EarleySteps.v).  Specification: the position graph read as tilings of the text by token types - every token
   a lexeme the scanner explores, ignored matches before each token and after the last (Earley/DynReport_proofs.v) -
   against the token-level notions [viable] / [productive_bodies] of the basic-lexer theorems above. *)
From LV Require Import Earley.Alg_proofs Earley.Dyn Earley.Dyn_proofs Earley.DynReport Earley.DynReport_proofs Pos.Coord
  Gen.EarleySteps Earley.Steps Earley.Steps_proofs Gen.ErrorSites.

(* the language of the dynamic lexers at token level: some tiling of the whole text is a sentence *)
Theorem C08_dynamic_tilings G start n rmatch rtrunc complete_lex ignore :
  gsentence G start n rmatch rtrunc complete_lex ignore <->
  exists u, derives G nat Nat.eqb [NT start] u /\ tiles rmatch rtrunc complete_lex ignore u 0 n.
Proof. exact (gsentence_tiles G start n rmatch rtrunc complete_lex ignore). Qed.
Print Assumptions C08_dynamic_tilings.

(* the set the model reports at position k (allowed of UnexpectedCharacters, expected of UnexpectedEOF) is EXACTLY the
   set of terminals t such that some tiling u of the consumed text 0..k extended by t is a viable prefix *)
Theorem C08_dynamic_expected_exact G start n rmatch rtrunc complete_lex ignore k t :
  fwd rmatch rtrunc -> productive_bodies G nat Nat.eqb ->
  k < length (d_cols (dyn_parse G start n rmatch rtrunc complete_lex ignore)) ->
  (In t (scan_expected (colf (d_scans (dyn_parse G start n rmatch rtrunc complete_lex ignore)) k)) <->
   exists u, tiles rmatch rtrunc complete_lex ignore u 0 k /\ viable G nat Nat.eqb start (u ++ [t])).
Proof.
  exact (fun Hf Hp Hk => conj (dyn_expected_sound G start n rmatch rtrunc complete_lex ignore Hf k t Hp Hk)
           (fun '(ex_intro _ u (conj Tu Hv)) =>
              dyn_expected_complete G start n rmatch rtrunc complete_lex ignore Hf k t u Hk Tu Hv)).
Qed.
Print Assumptions C08_dynamic_expected_exact.

(* an UnexpectedCharacters at i is never early: no viable reading of the text reaches beyond i (no productivity needed) *)
Theorem C08_dynamic_error_not_early G start n rmatch rtrunc complete_lex ignore i j u :
  fwd rmatch rtrunc ->
  d_out (dyn_parse G start n rmatch rtrunc complete_lex ignore) = DRejectChar i -> i < j ->
  tiles rmatch rtrunc complete_lex ignore u 0 j -> ~ viable G nat Nat.eqb start u.
Proof. exact (fun Hf => dyn_error_not_early G start n rmatch rtrunc complete_lex ignore Hf i j u). Qed.
Print Assumptions C08_dynamic_error_not_early.

(* the UnexpectedCharacters report: position inside the text, (line, column) = the source coordinates of that position,
   considered_tokens = the chart items at that position that expect a terminal, allowed = their terminals = exactly the
   legal continuations, state = their (rule, ptr) pairs; nothing viable beyond the position *)
Theorem C08_dynamic_report_chars G start rmatch rtrunc complete_lex ignore (text : list nat)
        pos line col allowed considered state :
  fwd rmatch rtrunc ->
  dyn_report text (dyn_parse G start (length text) rmatch rtrunc complete_lex ignore)
    = Some (RepChars pos line col allowed considered state) ->
  d_out (dyn_parse G start (length text) rmatch rtrunc complete_lex ignore) = DRejectChar pos /\ pos < length text /\
  (line, col) = coord Nat.eqb 10 text pos /\
  (forall x, In x considered <->
             gchart G start rmatch rtrunc complete_lex ignore pos x /\ is_term_item x = true) /\
  allowed = scan_expected considered /\ state = map item_state considered /\
  (forall t u, tiles rmatch rtrunc complete_lex ignore u 0 pos -> viable G nat Nat.eqb start (u ++ [t]) -> In t allowed) /\
  (productive_bodies G nat Nat.eqb -> forall t, In t allowed ->
     exists u, tiles rmatch rtrunc complete_lex ignore u 0 pos /\ viable G nat Nat.eqb start (u ++ [t])) /\
  (forall j u, pos < j -> tiles rmatch rtrunc complete_lex ignore u 0 j -> ~ viable G nat Nat.eqb start u).
Proof.
  exact (fun Hf => dyn_report_chars G start (length text) rmatch rtrunc complete_lex ignore Hf text
                     pos line col allowed considered state eq_refl).
Qed.
Print Assumptions C08_dynamic_report_chars.

(* the UnexpectedEOF report: the whole text was read, no tiling of it is a sentence, expected = exactly the legal
   continuations of the whole text *)
Theorem C08_dynamic_report_eof G start n rmatch rtrunc complete_lex ignore (text : list nat) expected state :
  fwd rmatch rtrunc ->
  dyn_report text (dyn_parse G start n rmatch rtrunc complete_lex ignore) = Some (RepEOF expected state) ->
  d_out (dyn_parse G start n rmatch rtrunc complete_lex ignore) = DRejectEOF /\
  ~ gsentence G start n rmatch rtrunc complete_lex ignore /\
  (forall t u, tiles rmatch rtrunc complete_lex ignore u 0 n -> viable G nat Nat.eqb start (u ++ [t]) -> In t expected) /\
  (productive_bodies G nat Nat.eqb -> forall t, In t expected ->
     exists u, tiles rmatch rtrunc complete_lex ignore u 0 n /\ viable G nat Nat.eqb start (u ++ [t])) /\
  exists q, (forall x, In x q <-> gchart G start rmatch rtrunc complete_lex ignore n x /\ is_term_item x = true) /\
            expected = scan_expected q /\ state = map item_state q.
Proof.
  exact (fun Hf => dyn_report_eof G start n rmatch rtrunc complete_lex ignore Hf text expected state).
Qed.
Print Assumptions C08_dynamic_report_eof.

(* Non-vacuity, and finding F52 at model level.  start: A B, A: "ab", B: "c", text "ab  d" (a b blank blank d).
   Without %ignore the report is UnexpectedCharacters at offset 2 (line 1, column 3) with allowed = {B}.
   With  %ignore "b  "  the ignored terminal matches text[1:4], i.e. it starts INSIDE the pending match of A, where
   the column is empty: scan(1) executes delayed_matches[4].extend([]) and creates key 4; `not delayed_matches` is
   then false at scan(2), and the error is raised only at scan(3): offset 3, column 4, allowed = {} - although no
   chart item exists at 3 and position 2 is the last one a viable reading reaches.  So the reported position is not
   always the first offending one (never early by the theorem above, but it can be LATE): lark agrees with the model. *)
Definition f52_G : grammar := [mkRule 0 [T 0; T 1]].
Definition f52_re (t i : nat) : option nat := match t, i with 0, 0 => Some 2 | 2, 1 => Some 4 | _, _ => None end.
Definition f52_text : list nat := [97; 98; 32; 32; 100].

Example C08_dynamic_report_example :
  fwd f52_re (fun _ _ _ => None) /\ productive_bodies f52_G nat Nat.eqb /\
  dyn_report f52_text (dyn_parse f52_G 0 5 f52_re (fun _ _ _ => None) false [])
  = Some (RepChars 2 1 3 [1] [mkItem (mkRule 0 [T 0; T 1]) 1 0] [(mkRule 0 [T 0; T 1], 1)]).
Proof.
  split; [|split].
  - split; [|discriminate]. intros [|[|[|t]]] [|[|i]] j H; inversion H; auto.
  - intros r d [<-|[]]. destruct d as [|[|d]]; simpl.
    + exists [0; 1]. repeat constructor.
    + exists [1]. repeat constructor.
    + exists []. destruct d; constructor.
  - vm_compute. reflexivity.
Qed.

Example C08_dynamic_error_late_refuted :
  let res := dyn_parse f52_G 0 5 f52_re (fun _ _ _ => None) false [2] in
  d_out res = DRejectChar 3 /\
  dyn_report f52_text res = Some (RepChars 3 1 4 [] [] []) /\
  (forall x, ~ gchart f52_G 0 f52_re (fun _ _ _ => None) false [2] 3 x) /\
  (exists x, gchart f52_G 0 f52_re (fun _ _ _ => None) false [2] 2 x /\ expect x = Some (T 1)).
Proof.
  assert (F : fwd f52_re (fun _ _ _ => None)).
  { split; [|discriminate]. intros [|[|[|t]]] [|[|i]] j H; inversion H; auto. }
  cbv zeta. split; [vm_compute; reflexivity|]. split; [vm_compute; reflexivity|]. split.
  - intros x Hx.
    apply (dyn_trace_is_gchart f52_G 0 5 f52_re (fun _ _ _ => None) false [2] F 3 x) in Hx;
      [|vm_compute; auto].
    vm_compute in Hx. destruct Hx as [[]|[]].
  - exists (mkItem (mkRule 0 [T 0; T 1]) 1 0). split; [|reflexivity].
    apply (dyn_trace_is_gchart f52_G 0 5 f52_re (fun _ _ _ => None) false [2] F 2); [vm_compute; auto|].
    right. vm_compute. left. reflexivity.
Qed.

(* F10: productivity of the rule bodies is NECESSARY for the valid-prefix property.  start: A x | A B; x: C x.
   After "a c" the chart still holds an item although no sentence starts with a c, and it expects C. *)
Definition f10_G : grammar := [mkRule 0 [T 0; NT 1]; mkRule 0 [T 0; T 1]; mkRule 1 [T 2; NT 1]].
Lemma f10_x_dead : forall ss (u : list nat), derives f10_G nat Nat.eqb ss u -> ~ In (NT 1) ss.
Proof.
  induction 1 as [| t k ss w Hm Hd IH | a r ss w1 w2 Hr Hl Hd1 IH1 Hd2 IH2]; intros Hin.
  - destruct Hin.
  - destruct Hin as [E|Hin]; [discriminate|]. auto.
  - destruct Hin as [E|Hin]; [|auto]. inversion E as [Ea]. rewrite Ea in Hl.
    destruct Hr as [<-|[<-|[<-|[]]]]; simpl in Hl; try discriminate. apply IH1. simpl. auto.
Qed.
Example C08_nonproductive_refuted :
  ~ productive_bodies f10_G nat Nat.eqb /\
  chart f10_G nat Nat.eqb [0; 2; 2] 0 2 (mkItem (mkRule 1 [T 2; NT 1]) 1 1) /\
  expects f10_G nat Nat.eqb 0 [0; 2; 2] 2 2 /\
  ~ viable f10_G nat Nat.eqb 0 [0; 2].
Proof.
  assert (C1 : chart f10_G nat Nat.eqb [0; 2; 2] 0 1 (mkItem (mkRule 0 [T 0; NT 1]) 1 0)).
  { eapply c_scan with (t := 0) (x := 0); [apply c_init; simpl; auto|reflexivity|reflexivity|reflexivity]. }
  assert (C2 : chart f10_G nat Nat.eqb [0; 2; 2] 0 1 (mkItem (mkRule 1 [T 2; NT 1]) 0 1)).
  { eapply c_pred with (a := 1); [exact C1|reflexivity|simpl; auto|reflexivity]. }
  assert (C3 : chart f10_G nat Nat.eqb [0; 2; 2] 0 2 (mkItem (mkRule 1 [T 2; NT 1]) 1 1)).
  { eapply c_scan with (t := 2) (x := 2); [exact C2|reflexivity|reflexivity|reflexivity]. }
  split; [|split; [exact C3|split]].
  - intros Hp. destruct (Hp (mkRule 1 [T 2; NT 1]) 0) as (u & Hu); [simpl; auto|].
    simpl in Hu. apply (f10_x_dead _ _ Hu). simpl. auto.
  - exists (mkRule 1 [T 2; NT 1]), 0, 2. split; [|reflexivity].
    eapply c_pred with (a := 1); [exact C3|reflexivity|simpl; auto|reflexivity].
  - intros (v & Hv). simpl in Hv.
    inversion Hv as [| |a r ss w1 w2 Hr Hl Hd1 Hd2 Ea Ew]. subst a ss.
    destruct Hr as [<-|[<-|[<-|[]]]]; simpl in Hl; try discriminate.
    + apply (f10_x_dead _ _ Hd1). simpl. auto.
    + inversion Hd2; subst w2. rewrite app_nil_r in Ew. subst w1.
      inversion Hd1 as [|t k ss w Hm Hd' E1 E2|]; subst.
      inversion Hd' as [|t' k' ss' w' Hm' Hd'' E1' E2'|]; subst. simpl in Hm'. discriminate.
Qed.

(* the decisions of the two Earley engines on WHEN to raise which error are the conditions of the source
   (the tests before raise UnexpectedToken / UnexpectedEOF / UnexpectedCharacters, regenerated into Gen/EarleySteps.v) *)
Theorem C08_earley_error_decisions_are_source :
  (forall G predictions (tok : Type) tmatch start (toks : list tok),
     Alg.r_out (Alg.parse G predictions tok tmatch start toks) =
     Alg.r_out (Steps.g_parse G predictions tok tmatch start toks)) /\
  (forall G predictions start n rmatch rtrunc_rel complete_lex ignore,
     Dyn.d_out (Dyn.dparse G predictions start n rmatch (rtrunc_abs rtrunc_rel) complete_lex ignore) =
     Dyn.d_out (Steps.g_dparse G predictions start n rmatch rtrunc_rel complete_lex ignore)).
Proof.
  exact (conj (fun G p tok tm s toks => f_equal Alg.r_out (parse_gen G p tok tm s toks))
              (fun G p s n rm rt cl ig => f_equal Dyn.d_out (dparse_gen G p s rm rt cl ig n))).
Qed.
Print Assumptions C08_earley_error_decisions_are_source.

(* LALR + contextual lexer, an error that the state's lexer raises and the root lexer turns into an UnexpectedToken
   (ContextualLexer.lex, pinned by Gen/ErrorSites.v): its `expected` is the `allowed` of the state's lexer, i.e. the
   terminals of that lexer (state's terminals | ignore | always_accept, those known by name) minus the ignored ones.
   Every terminal the parser accepts in that state is among the state's terminals (accepts() tries exactly the keys of
   the state's row, Gen/InterHoles.v), so it belongs to expected - unless it is itself %ignore'd. *)
Theorem C08_contextual_fallback_expected_covers_accepts
        (state_terms ignore always_accept : list nat) (known : nat -> bool) (t : nat) :
  let lexer_terms := filter known (ctx_state_terminals state_terms ignore always_accept) in
  let allowed := filter (fun x => negb (existsb (Nat.eqb x) ignore)) lexer_terms in
  In t state_terms -> known t = true -> ~ In t ignore ->
  In t (ctx_fallback_expected allowed).
Proof.
  cbv zeta. unfold ctx_fallback_expected, ctx_state_terminals. intros Ht Hk Hi.
  apply filter_In. split.
  - apply filter_In. split; auto. apply in_or_app. auto.
  - apply negb_true_iff. destruct (existsb (Nat.eqb t) ignore) eqn:E; auto.
    apply existsb_exists in E. destruct E as (y & Hy & He). apply Nat.eqb_eq in He. subst y. contradiction.
Qed.
Print Assumptions C08_contextual_fallback_expected_covers_accepts.
