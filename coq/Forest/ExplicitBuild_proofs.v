(* C04 layer A - soundness of the forest: if every family is locally of the form the parser's add_family calls
   produce, every derivation stored below a node is a derivation of that node's symbol over that node's span. *)
From Coq Require Import List Arith Bool Lia.
From LV Require Import Cfg.Grammar Earley.Spec Forest.ExplicitBuild.
Import ListNotations.

Lemma nth_error_lt {A} (l : list A) d s : nth_error l d = Some s -> d < length l.
Proof. intros E. apply nth_error_Some. congruence. Qed.

Lemma Forall2_skipn_nil {A B} (R : A -> B -> Prop) n (l : list B) : Forall2 R [] (skipn n l) -> length l <= n.
Proof. intros H. pose proof (skipn_length n l) as L. destruct (skipn n l); [simpl in L; lia | inversion H]. Qed.

Lemma Forall2_skipn_cons {A B} (R : A -> B -> Prop) k post n : forall l : list B,
  Forall2 R (k :: post) (skipn n l) ->
  exists s, nth_error l n = Some s /\ R k s /\ Forall2 R post (skipn (S n) l).
Proof.
  induction n as [|n IH]; intros [|x l] H; simpl in *; try (inversion H; fail).
  - inversion H; subst. eauto.
  - apply IH; auto.
Qed.

Lemma fold_left_commute {A B C} (h : A -> C) (f : A -> B -> A) (g : C -> B -> C) :
  (forall a b, h (f a b) = g (h a) b) -> forall l a, h (fold_left f l a) = fold_left g l (h a).
Proof. intros H. induction l as [|b l IH]; intros a; simpl; auto. rewrite IH, H. reflexivity. Qed.

Scheme den_mind := Minimality for ExplicitBuild.den Sort Prop
  with den_opt_mind := Minimality for ExplicitBuild.den_opt Sort Prop.

Section Trees.
  Variable tok : Type.
  Notation dt := (dt tok).

  Lemma yield_DN r (ks : list dt) : yield tok (DN tok r ks) = yields tok ks.
  Proof. simpl. unfold yields. induction ks; simpl; auto. Qed.

  Lemma yields_app (a b : list dt) : yields tok (a ++ b) = yields tok a ++ yields tok b.
  Proof. unfold yields. apply flat_map_app. Qed.

  Lemma ilabel_cases r d i j :
    (d = length (rhs r) /\ ilabel tok r d i j = NSym tok (lhs r) i j) \/
    (d <> length (rhs r) /\ ilabel tok r d i j = NInter tok r d i j).
  Proof.
    unfold ilabel. destruct (Nat.eqb_spec d (length (rhs r))); [left | right]; auto.
  Qed.

  Lemma den_mono (F1 F2 : nlabel tok -> family tok -> Prop) : (forall lbl f, F1 lbl f -> F2 lbl f) ->
    forall lbl ds, den tok F1 lbl ds -> den tok F2 lbl ds.
  Proof.
    intros Hsub lbl ds H.
    refine (den_mind tok F1 (fun l ds => den tok F2 l ds) (fun o ds => den_opt tok F2 o ds) _ _ _ _ lbl ds H).
    - intros; constructor.
    - intros. eapply den_fam; eauto.
    - constructor.
    - intros. constructor; auto.
  Qed.

  (* the left child of a family that advances (r, dd, i) standing in column m, given the trees below its node *)
  Lemma den_opt_inode (F : nlabel tok -> family tok -> Prop) r dd i m pre :
    dd < length (rhs r) -> length pre = dd ->
    (1 <= dd -> den tok F (ilabel tok r dd i m) (pack tok (ilabel tok r dd i m) r pre)) ->
    den_opt tok F (match dd with 0 => None | S _ => Some (NInter tok r dd i m) end) pre.
  Proof.
    intros Hlt Hlen H. destruct dd as [|dd'].
    - destruct pre; [constructor | discriminate].
    - constructor. specialize (H ltac:(lia)). unfold ilabel in H.
      destruct (Nat.eqb_spec (S dd') (length (rhs r))); [lia|]. exact H.
  Qed.
End Trees.

(* soundness of a forest, for the basic and the dynamic lexers at once.  [wf] says which trees derive a symbol,
   [tl] which lexeme sequences fill a span; a family either stands for an empty rule or puts one more child, sound for
   the next symbol of the rule, to the right of what its left node stores (nothing, for the first child). *)
Section Sound.
  Variable G : grammar.
  Variable tok : Type.
  Variable wf : dt tok -> symbol -> Prop.
  Variable tl : nat -> nat -> list tok -> Prop.
  Hypothesis wf_node : forall r ks, In r G -> Forall2 wf ks (rhs r) -> wf (DN tok r ks) (NT (lhs r)).
  Hypothesis tl_app : forall i m j u v, tl i m u -> tl m j v -> tl i j (u ++ v).

  Definition gsound (lbl : nlabel tok) (ds : list (dt tok)) : Prop :=
    match lbl with
    | NSym _ a i j => exists d, ds = [d] /\ wf d (NT a) /\ tl i j (yield tok d)
    | NInter _ r d i j => In r G /\ Forall2 wf ds (firstn d (rhs r)) /\ tl i j (yields tok ds)
    | NTok _ t x i j => ds = [DL tok t x]
    end.

  Inductive step_ok : nlabel tok -> family tok -> Prop :=
  | so_empty r k j : In r G -> rhs r = [] -> tl k j [] -> step_ok (NSym tok (lhs r) k j) (r, None, None)
  | so_child r d s rn i m j : In r G -> nth_error (rhs r) d = Some s -> (d = 0 -> tl i m []) ->
      (forall ds, gsound rn ds -> exists c, ds = [c] /\ wf c s /\ tl m j (yield tok c)) ->
      step_ok (ilabel tok r (S d) i j)
              (r, match d with 0 => None | S _ => Some (NInter tok r d i m) end, Some rn).

  Variable F : nlabel tok -> family tok -> Prop.
  Hypothesis F_ok : forall lbl f, F lbl f -> step_ok lbl f.

  Theorem den_sound lbl ds : den tok F lbl ds -> gsound lbl ds.
  Proof.
    intros H.
    refine (den_mind tok F gsound (fun o ds => match o with None => ds = [] | Some l => gsound l ds end)
              _ _ _ _ lbl ds H); clear lbl ds H; auto.
    - intros t x i j. reflexivity.
    - intros lbl r l rt ds1 ds2 HF _ H1 _ H2. apply F_ok in HF.
      inversion HF as [r0 k j Hin Hr Hk|r0 d s rn i m j Hin Hn H0 Hc]; subst; simpl in H1, H2.
      + subst. simpl. exists (DN tok r []). repeat split; auto. apply wf_node; auto. rewrite Hr. constructor.
      + destruct (Hc _ H2) as (c & -> & Hw & Ht).
        (* what the left node stores: the first d children, over i..m *)
        assert (HL : Forall2 wf ds1 (firstn d (rhs r)) /\ tl i m (yields tok ds1)).
        { destruct d; [subst ds1; split; [constructor | apply H0; reflexivity] | apply H1]. }
        destruct HL as (HF1 & HT1).
        assert (HF2 : Forall2 wf (ds1 ++ [c]) (firstn (S d) (rhs r))).
        { rewrite (firstn_S_nth _ _ _ Hn). apply Forall2_app; auto. }
        assert (HT2 : tl i j (yields tok (ds1 ++ [c]))).
        { rewrite yields_app. apply tl_app with m; auto. unfold yields. simpl. rewrite app_nil_r. auto. }
        destruct (ilabel_cases tok r (S d) i j) as [(E & ->)|(E & ->)]; simpl; auto.
        exists (DN tok r (ds1 ++ [c])). split; [reflexivity|]. rewrite yield_DN. split; auto.
        apply wf_node; auto. rewrite E, firstn_all in HF2. auto.
  Qed.
End Sound.

Section Proofs.
  Variable G : grammar.
  Variable tok : Type.
  Variable tmatch : nat -> tok -> bool.
  Variable tlen : tok -> nat.
  Variable occurs : tok -> nat -> bool.

  Notation nlabel := (nlabel tok).
  Notation family := (family tok).
  Notation fam_ok := (fam_ok G tok tmatch tlen occurs).
  Notation fam_okb := (fam_okb G tok tmatch tlen occurs).
  Notation wfd := (wfd G tok tmatch).
  Notation tiles := (tiles tok tlen occurs).
  Notation sound := (sound G tok tmatch tlen occurs).
  Notation dt := (dt tok).

  Lemma tiles_app i m j u v : tiles i m u -> tiles m j v -> tiles i j (u ++ v).
  Proof. induction 1; simpl; auto. intros. constructor; auto. Qed.

  Lemma child_sound s rn m j ds :
    child_ok tok tmatch tlen occurs s rn m j -> sound rn ds ->
    exists d, ds = [d] /\ wfd d s /\ tiles m j (yield tok d).
  Proof.
    destruct s as [t|a]; simpl.
    - intros (x & -> & Hm & Ho & ->) ->. exists (DL tok t x). repeat split; auto. constructor; auto.
      simpl. constructor; auto. constructor.
    - intros -> (d & -> & Hw & Ht). eauto.
  Qed.

  Lemma fam_ok_step lbl f : fam_ok lbl f -> step_ok G tok wfd tiles lbl f.
  Proof.
    intros [r k Hin Hr|r s rn i j Hin Hn Hc|r d s rn i m j Hin Hd Hn Hc].
    - apply so_empty; auto. constructor.
    - apply (so_child G tok wfd tiles r 0 s rn i i j); auto; [constructor | intros ds; exact (child_sound _ _ _ _ ds Hc)].
    - destruct d; [lia|]. apply (so_child G tok wfd tiles r (S d) s rn i m j); auto; [discriminate | intros ds; exact (child_sound _ _ _ _ ds Hc)].
  Qed.

  Section Forest.
    Variable F : nlabel -> family -> Prop.
    Hypothesis F_ok : forall lbl f, F lbl f -> fam_ok lbl f.

    Notation den := (den tok F).

    Theorem A_sound_gen lbl ds : den lbl ds -> sound lbl ds.
    Proof.
      apply (den_sound G tok wfd tiles (wfd_node G tok tmatch) tiles_app). intros l f Hf. apply fam_ok_step; auto.
    Qed.
  End Forest.

  Section DtInd.
    Variable P : dt -> Prop.
    Hypothesis HL : forall t x, P (DL tok t x).
    Hypothesis HN : forall r ks, Forall P ks -> P (DN tok r ks).
    Fixpoint dt_ind2 (d : dt) : P d :=
      match d with
      | DL _ t x => HL t x
      | DN _ r ks => HN r ks ((fix go (ks : list dt) : Forall P ks :=
                                match ks with [] => Forall_nil _ | k :: r => Forall_cons _ (dt_ind2 k) (go r) end) ks)
      end.
  End DtInd.

  Notation derives := (derives G tok tmatch).

  Lemma wfd_derives d : forall s, wfd d s -> derives [s] (yield tok d).
  Proof.
    induction d as [t x|r ks IH] using dt_ind2; intros s H; inversion H; subst.
    - simpl. constructor; auto. constructor.
    - rewrite yield_DN. rewrite <- (app_nil_r (yields tok ks)). econstructor; eauto; [|constructor].
      match goal with Hf : Forall2 _ ks (rhs r) |- _ => revert Hf end. generalize (rhs r). clear -IH.
      induction IH as [|k ks Hk _ IHks]; intros ss Hf; inversion Hf; subst; simpl. constructor.
      change (y :: l') with ([y] ++ l'). apply derives_app; auto.
  Qed.

  Lemma rule_eqb_eq a b : rule_eqb a b = true -> a = b.
  Proof. unfold rule_eqb. destruct (rule_eq_dec a b); auto; discriminate. Qed.

  Lemma mem_rule_In r : mem_rule G r = true -> In r G.
  Proof.
    unfold mem_rule. rewrite existsb_exists. intros (x & Hx & E). apply rule_eqb_eq in E. subst; auto.
  Qed.

  Lemma is_ilabel_eq lbl r d i j : is_ilabel tok lbl r d = Some (i, j) -> lbl = ilabel tok r d i j.
  Proof.
    unfold is_ilabel, ilabel. destruct lbl as [a i0 j0|r0 d0 i0 j0|]; try discriminate.
    - destruct (Nat.eqb_spec d (length (rhs r))); simpl; try discriminate.
      destruct (Nat.eqb_spec a (lhs r)); simpl; try discriminate. intros E; inversion E; subst; auto.
    - destruct (rule_eqb r0 r) eqn:Er; simpl; try discriminate. apply rule_eqb_eq in Er. subst.
      destruct (Nat.eqb_spec d0 d); simpl; try discriminate. subst.
      destruct (Nat.eqb d (length (rhs r))); simpl; try discriminate. intros E; inversion E; subst; auto.
  Qed.

  Lemma child_okb_ok s rn m j : child_okb tok tmatch tlen occurs s rn m j = true ->
    child_ok tok tmatch tlen occurs s rn m j.
  Proof.
    destruct s as [t|a], rn as [a' i' j'|?|t' x m' j']; simpl; try discriminate.
    - rewrite !andb_true_iff, !Nat.eqb_eq. intros (((((H1 & H2) & H3) & H4) & H5) & H6). subst. exists x. auto.
    - rewrite !andb_true_iff, !Nat.eqb_eq. intros ((H1 & H2) & H3). subst. auto.
  Qed.

  Lemma fam_okb_ok lbl f : fam_okb lbl f = true -> fam_ok lbl f.
  Proof.
    destruct f as [[r l] rt]. unfold ExplicitBuild.fam_okb. rewrite andb_true_iff. intros (Hm & H).
    apply mem_rule_In in Hm. destruct l as [ln|], rt as [rn|]; try discriminate.
    - destruct ln as [|r' d i m|]; try discriminate.
      rewrite !andb_true_iff in H. destruct H as ((Hr & Hd) & H). apply rule_eqb_eq in Hr. subst r'.
      apply Nat.leb_le in Hd.
      destruct (nth_error (rhs r) d) as [s|] eqn:En; try discriminate.
      destruct (is_ilabel tok lbl r (S d)) as [[i' j]|] eqn:El; try discriminate.
      rewrite andb_true_iff, Nat.eqb_eq in H. destruct H as (-> & Hc).
      apply is_ilabel_eq in El. subst lbl. eapply ok_next; eauto. apply child_okb_ok; auto.
    - destruct ln; discriminate.
    - destruct (nth_error (rhs r) 0) as [s|] eqn:En; try discriminate.
      destruct (is_ilabel tok lbl r 1) as [[i j]|] eqn:El; try discriminate.
      apply is_ilabel_eq in El. subst lbl. eapply ok_first; eauto. apply child_okb_ok; auto.
    - destruct (rhs r) eqn:Er; try discriminate. destruct lbl as [a i j| |]; try discriminate.
      rewrite andb_true_iff, !Nat.eqb_eq in H. destruct H as (-> & ->). apply ok_empty; auto.
  Qed.

  Notation in_forest := (in_forest tok).
  Notation forest_okb := (forest_okb G tok tmatch tlen occurs).

  Theorem A_sound fams : forest_okb fams = true ->
    forall lbl ds, den tok (in_forest fams) lbl ds -> sound lbl ds.
  Proof.
    intros H. apply A_sound_gen. intros lbl f Hin. apply fam_okb_ok.
    unfold ExplicitBuild.forest_okb in H. rewrite forallb_forall in H. apply (H (lbl, f)); auto.
  Qed.

  (* every tree stored below a symbol node (a, i, j) is a derivation of a whose yield tiles i..j *)
  Corollary A_sound_root fams a i j ds : forest_okb fams = true ->
    den tok (in_forest fams) (NSym tok a i j) ds ->
    exists d, ds = [d] /\ derives [NT a] (yield tok d) /\ tiles i j (yield tok d).
  Proof.
    intros H Hd. destruct (A_sound fams H _ _ Hd) as (d & -> & Hw & Ht). exists d. repeat split; auto.
    apply wfd_derives; auto.
  Qed.
End Proofs.

(* the families the parser adds, over the chart of Earley/Spec (token positions: every lexeme has length 1) *)
Section Chart.
  Variable G : grammar.
  Variable tok : Type.
  Variable tmatch : nat -> tok -> bool.
  Variable w : list tok.
  Variable start : nat.
  Variable occurs : tok -> nat -> bool.
  Hypothesis occurs_spec : forall x i, occurs x i = true <-> nth_error w i = Some x.

  Notation chart := (chart G tok tmatch w start).
  Notation nlabel := (nlabel tok).
  Notation family := (family tok).
  Definition tlen1 (x : tok) : nat := 1.

  (* item.node: None for ptr = 0, else the node labelled ((rule, ptr), start, column) *)
  Definition inode (r : rule) (d j k : nat) : option nlabel :=
    match d with 0 => None | S _ => Some (NInter tok r d j k) end.

  (* the add_family calls of earley.py, one constructor per call site:
     completer on an empty completed item; scanner; completer (and the predictor's use of a held completion,
     which is the case i = k) *)
  Inductive added : nlabel -> family -> Prop :=
  | add_empty k r : chart k (mkItem r 0 k) -> rhs r = [] -> added (NSym tok (lhs r) k k) (r, None, None)
  | add_scan k r d j t x : chart k (mkItem r d j) -> nth_error (rhs r) d = Some (T t) ->
      nth_error w k = Some x -> tmatch t x = true ->
      added (ilabel tok r (S d) j (S k)) (r, inode r d j k, Some (NTok tok t x k (S k)))
  | add_comp k r d j a r' i : chart i (mkItem r d j) -> nth_error (rhs r) d = Some (NT a) ->
      chart k (mkItem r' (length (rhs r')) i) -> lhs r' = a ->
      added (ilabel tok r (S d) j k) (r, inode r d j i, Some (NSym tok a i k)).

  (* the scanner and the completer advance an item of column m over a child from m to e *)
  Lemma advance_ok m r d j s rn e : chart m (mkItem r d j) -> nth_error (rhs r) d = Some s ->
    child_ok tok tmatch tlen1 occurs s rn m e ->
    fam_ok G tok tmatch tlen1 occurs (ilabel tok r (S d) j e) (r, inode r d j m, Some rn).
  Proof.
    intros Hc Hn Hch. pose proof (chart_in_G _ _ _ _ _ _ _ Hc) as Hin. destruct d as [|d']; simpl inode.
    - pose proof (chart_dot0 _ _ _ _ _ _ _ Hc eq_refl) as E. simpl in E. subst j. eapply ok_first; eauto.
    - eapply ok_next; eauto. lia.
  Qed.

  Theorem A_added_ok lbl f : added lbl f -> fam_ok G tok tmatch tlen1 occurs lbl f.
  Proof.
    intros [k r Hc Hr|k r d j t x Hc Hn Hw Hm|k r d j a r' i Hc Hn Hc' Hl].
    - apply ok_empty; auto. apply (chart_in_G _ _ _ _ _ _ _ Hc).
    - apply advance_ok with (s := T t); auto. exists x. repeat split; auto. apply occurs_spec; auto. unfold tlen1; lia.
    - apply advance_ok with (s := NT a); auto. reflexivity.
  Qed.

  (* every derivation stored in the forest built over the chart - finite unfoldings, so also for cyclic
     grammars - is a derivation of its node's symbol over its node's span *)
  Theorem A_sound_chart lbl ds : den tok added lbl ds -> sound G tok tmatch tlen1 occurs lbl ds.
  Proof. apply A_sound_gen. apply A_added_ok. Qed.

  Lemma tiles_span i j u : tiles tok tlen1 occurs i j u -> i <= length w -> span tok w i j u.
  Proof.
    induction 1 as [i|x i j u Ho Ht IH]; intros Hi.
    - apply span_nil; auto.
    - apply occurs_spec in Ho. assert (i < length w) by (apply nth_error_Some; congruence).
      apply span_cons_inv; auto. unfold tlen1 in IH. replace (S i) with (i + 1) by lia. apply IH. lia.
  Qed.

  Lemma A_sound_whole ds : den tok added (NSym tok start 0 (length w)) ds ->
    exists d, ds = [d] /\ wfd G tok tmatch d (NT start) /\ yield tok d = w.
  Proof.
    intros H. apply A_sound_chart in H. destruct H as (d & -> & Hw & Ht). exists d. repeat split; auto.
    apply tiles_span in Ht; [|lia]. apply span_whole in Ht. exact Ht.
  Qed.

  Theorem A_sound_sentence ds : den tok added (NSym tok start 0 (length w)) ds ->
    exists d, ds = [d] /\ yield tok d = w /\ derives G tok tmatch [NT start] w.
  Proof.
    intros H. destruct (A_sound_whole ds H) as (d & -> & Hw & E). exists d. repeat split; auto.
    rewrite <- E. apply (wfd_derives _ _ _ _ _ Hw).
  Qed.

  Notation wfd := (wfd G tok tmatch).
  Notation tiles := (tiles tok tlen1 occurs).
  Notation den := (den tok added).
  Notation den_opt := (den_opt tok added).

  Definition expects (i a : nat) : Prop :=
    (exists r0 d0 j0, chart i (mkItem r0 d0 j0) /\ nth_error (rhs r0) d0 = Some (NT a)) \/ (a = start /\ i = 0).

  Lemma expects_pred i a r : expects i a -> In r G -> lhs r = a -> chart i (mkItem r 0 i).
  Proof.
    intros [(r0 & d0 & j0 & Hc & Hn)|(-> & ->)] Hin Hl.
    - eapply c_pred; eauto.
    - apply c_init; auto.
  Qed.

  Lemma tiles_split u : forall i j v, tiles i j (u ++ v) -> exists m, tiles i m u /\ tiles m j v.
  Proof.
    induction u as [|x u IH]; simpl; intros i j v H.
    - exists i; split; auto. constructor.
    - inversion H; subst. destruct (IH _ _ _ H5) as (m & H1 & H2). exists m; split; auto. constructor; auto.
  Qed.

  Lemma tiles_nil_eq i j : tiles i j [] -> i = j.
  Proof. inversion 1; auto. Qed.

  (* what completeness says about one derivation tree *)
  Definition CT (d : dt tok) : Prop :=
    forall a i j, wfd d (NT a) -> tiles i j (yield tok d) -> expects i a ->
    exists r ks, d = DN tok r ks /\ chart j (mkItem r (length (rhs r)) i) /\ den (NSym tok a i j) [d].

  Lemma steps r i : In r G ->
    forall post pre m j,
      Forall CT post ->
      Forall2 wfd post (skipn (length pre) (rhs r)) ->
      tiles m j (yields tok post) ->
      chart m (mkItem r (length pre) i) ->
      (length pre = 0 -> m = i) ->
      (1 <= length pre -> den (ilabel tok r (length pre) i m) (pack tok (ilabel tok r (length pre) i m) r pre)) ->
      chart j (mkItem r (length (rhs r)) i) /\ den (NSym tok (lhs r) i j) [DN tok r (pre ++ post)].
  Proof.
    intros Hin post. induction post as [|k post IH]; intros pre m j HC HF Ht Hch H0 Hden.
    - (* all children consumed *)
      pose proof (Forall2_skipn_nil _ _ _ HF) as Hlen.
      pose proof (chart_wf _ _ _ _ _ _ _ Hch) as (_ & Hle & _). simpl in Hle.
      apply tiles_nil_eq in Ht. subst j. rewrite app_nil_r.
      assert (Eq : length pre = length (rhs r)) by lia.
      rewrite <- Eq. split; auto.
      destruct (length pre) as [|dd'] eqn:El.
      + (* empty rule *)
        destruct pre; [|discriminate]. rewrite (H0 eq_refl) in *.
        assert (Hr : rhs r = []) by (destruct (rhs r); auto; discriminate).
        change [DN tok r []] with (pack tok (NSym tok (lhs r) i i) r ([] ++ [])).
        eapply den_fam; [apply add_empty; auto | constructor | constructor].
      + specialize (Hden ltac:(lia)). unfold ilabel in Hden. rewrite Eq, Nat.eqb_refl in Hden. exact Hden.
    - (* one more child *)
      destruct (Forall2_skipn_cons _ _ _ _ _ HF) as (s & Hn & Hk & HF').
      pose proof (nth_error_lt _ _ _ Hn) as Hlt.
      assert (Elen : length (pre ++ [k]) = S (length pre)) by (rewrite app_length; simpl; lia).
      rewrite <- Elen in HF'.
      inversion HC as [|? ? HCk HC']; subst.
      pose proof (den_opt_inode tok added r (length pre) i m pre Hlt eq_refl Hden) as Hleft.
      unfold yields in Ht. simpl in Ht. fold (yields tok post) in Ht.
      replace (pre ++ k :: post) with ((pre ++ [k]) ++ post) by (rewrite <- app_assoc; reflexivity).
      destruct s as [t|b].
      + (* terminal: scanner *)
        inversion Hk as [t0 x Hm|]; subst. simpl in Ht. inversion Ht as [|? ? ? ? Ho Ht']; subst.
        unfold tlen1 in Ht'. replace (m + 1) with (S m) in Ht' by lia.
        pose proof (proj1 (occurs_spec _ _) Ho) as Hw.
        apply (IH (pre ++ [DL tok t x]) (S m) j); auto.
        * rewrite Elen. eapply c_scan; eauto.
        * rewrite Elen. discriminate.
        * intros _. rewrite Elen. eapply den_fam; [eapply add_scan; eauto | exact Hleft | constructor; constructor].
      + (* non-terminal: completer *)
        apply tiles_split in Ht. destruct Ht as (m' & Ht1 & Ht2).
        destruct (HCk b m m' Hk Ht1) as (r' & ks' & -> & Hc' & Hd').
        { left. eauto. }
        assert (Hl' : lhs r' = b) by (inversion Hk; auto).
        apply (IH (pre ++ [DN tok r' ks']) m' j); auto.
        * rewrite Elen. eapply c_comp; eauto.
        * rewrite Elen. discriminate.
        * intros _. rewrite Elen. eapply den_fam; [eapply add_comp; eauto | exact Hleft | constructor; exact Hd'].
  Qed.

  Lemma CT_all d : CT d.
  Proof.
    induction d as [t x|r ks IH] using (dt_ind2 tok); intros a i j Hw Ht Hex.
    - inversion Hw.
    - inversion Hw as [|? ? Hin HF]; subst. exists r, ks. split; auto.
      rewrite yield_DN in Ht.
      pose proof (expects_pred _ _ _ Hex Hin eq_refl) as Hc.
      apply (steps r i Hin ks [] i j); auto.
      simpl. intros; lia.
  Qed.

  Lemma tiles_suffix u : forall p, w = p ++ u -> tiles (length p) (length w) u.
  Proof.
    induction u as [|x u IH]; intros p E.
    - rewrite E, app_nil_r. constructor.
    - constructor.
      + apply occurs_spec. rewrite E. rewrite nth_error_app2 by lia. rewrite Nat.sub_diag. reflexivity.
      + unfold tlen1. specialize (IH (p ++ [x])). rewrite app_length in IH. simpl in IH. apply IH.
        rewrite E, <- app_assoc. reflexivity.
  Qed.

  (* every derivation tree of the input is stored below the root of the forest built over the chart *)
  Theorem A_complete_chart d : wfd d (NT start) -> yield tok d = w ->
    den (NSym tok start 0 (length w)) [d].
  Proof.
    intros Hw Hy. destruct (CT_all d start 0 (length w) Hw) as (r & ks & _ & _ & H); auto.
    - rewrite Hy. apply (tiles_suffix w []). reflexivity.
    - right; auto.
  Qed.

  (* exactness at the specification level: the trees below the root are exactly the derivation trees of w *)
  Theorem A_exact_chart ds :
    den (NSym tok start 0 (length w)) ds <-> exists d, ds = [d] /\ wfd d (NT start) /\ yield tok d = w.
  Proof.
    split; [apply A_sound_whole|].
    intros (d & -> & Hw & Hy). apply A_complete_chart; auto.
  Qed.

  Theorem A_complete_superset (F : nlabel -> family -> Prop) :
    (forall lbl f, added lbl f -> F lbl f) ->
    forall d, wfd d (NT start) -> yield tok d = w -> ExplicitBuild.den tok F (NSym tok start 0 (length w)) [d].
  Proof. intros Hsub d Hw Hy. eapply den_mono; eauto. apply A_complete_chart; auto. Qed.
End Chart.
