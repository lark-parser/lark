(* lalr_builds_shape: evaluating a derivation tree bottom-up (post-order shift / reduce, the
   rule's callback at each reduction, as LALR's feed_token does) yields exactly [shape] of the
   derivation tree; and shaping a well-formed derivation never fails. *)
From Coq Require Import String Ascii List Bool Arith Lia.
From LV Require Import Base.Prelude Shape.Chain Shape.Spec Shape.Chain_proofs.
Import ListNotations.

Section DtreeInd.
  Variable P : dtree -> Prop.
  Hypothesis Htok : forall ty v, P (DTok ty v).
  Hypothesis Hnode : forall r ch, Forall P ch -> P (DNode r ch).
  Fixpoint dtree_ind' (d : dtree) : P d :=
    match d with
    | DTok ty v => Htok ty v
    | DNode r ch => Hnode r ch ((fix go l : Forall P l :=
                                   match l with [] => Forall_nil P | x :: t => Forall_cons x (dtree_ind' x) (go t) end) ch)
    end.
End DtreeInd.

Lemma wf_dtree_node mp r ch : wf_dtree mp (DNode r ch) = true ->
  rule_wf r mp = true /\ inline_ok r = true /\ forall2b child_ok (r_exp r) ch = true /\
  Forall (fun c => wf_dtree mp c = true) ch.
Proof.
  cbn [wf_dtree]. rewrite !andb_true_iff, forallb_forall, <- Forall_forall. intros [[[H1 H2] H3] H4]. auto.
Qed.

Section Driver.
  Variable X : Type.
  Variable none : X.
  Variable kids : X -> option (list X).
  Variable user : string -> option (list X -> X).
  Variable mk : string -> list X -> X.
  Variable tokf : string -> string -> X.
  Variable mp : bool.
  Notation run_actions := (run_actions X none kids user mk tokf mp).
  Notation eval := (eval X none kids user mk tokf mp).

  Lemma run_actions_app st a b :
    run_actions st (a ++ b) = match run_actions st a with Some st' => run_actions st' b | None => None end.
  Proof.
    revert st; induction a as [|x a IH]; intros st; simpl; auto.
    destruct (step X none kids user mk tokf mp st x); auto.
  Qed.

  Lemma node_callback r ch (f : dtree -> option X) vs amb :
    wf_dtree mp (DNode r ch) = true -> all_some (map f ch) = Some vs ->
    run_callback X none kids user mk r mp amb vs = Ok (spec_rule X none kids user mk r mp vs).
  Proof.
    intros Hwf Hvs. destruct (wf_dtree_node _ _ _ Hwf) as (Hr & _ & Har & _). apply chain_spec; [exact Hr|].
    apply all_some_length in Hvs. apply forall2b_length in Har. rewrite map_length in Hvs. lia.
  Qed.

  Theorem driver_builds_gen d : wf_dtree mp d = true -> forall st rest,
    run_actions st (postorder d ++ rest)
    = match eval d with Some v => run_actions (st ++ [v]) rest | None => None end.
  Proof.
    induction d as [ty v|r ch IH] using dtree_ind'; intros Hwf st rest; [reflexivity|].
    destruct (wf_dtree_node _ _ _ Hwf) as (_ & _ & Har & Hall). apply forall2b_length in Har.
    cbn [postorder Spec.eval]. rewrite <- app_assoc.
    assert (Hch : forall st rest',
      run_actions st (flat_map postorder ch ++ rest')
      = match all_some (map eval ch) with
        | Some vs => run_actions (st ++ vs) rest' | None => None end).
    { pose proof (Forall_mp _ _ _ IH Hall) as IH'. clear -IH'.
      induction IH' as [|c ch Hc _ IHch]; intros st rest'; simpl.
      - rewrite app_nil_r. reflexivity.
      - rewrite <- app_assoc, Hc. destruct (eval c) as [vc|]; auto.
        rewrite IHch. destruct (all_some (map eval ch)); auto.
        rewrite <- app_assoc. reflexivity. }
    rewrite Hch. destruct (all_some (map eval ch)) as [vs|] eqn:Evs; auto.
    pose proof (node_callback r ch eval vs false Hwf Evs) as Hcb.
    apply all_some_length in Evs. rewrite map_length in Evs.
    cbn [app Spec.run_actions step].
    (* value_stack[-size:] are the children's values *)
    replace (length (st ++ vs) - length (r_exp r)) with (length st) by (rewrite app_length; lia).
    replace (Nat.ltb (length (st ++ vs)) (length (r_exp r))) with false
      by (symmetry; apply Nat.ltb_ge; rewrite app_length; lia).
    rewrite skipn_app, firstn_app, Nat.sub_diag, skipn_all, firstn_all. simpl. rewrite app_nil_r, Hcb.
    destruct (spec_rule X none kids user mk r mp vs); reflexivity.
  Qed.

  Theorem driver_builds d : wf_dtree mp d = true ->
    run_actions [] (postorder d) = option_map (fun v => [v]) (eval d).
  Proof.
    intros H. pose proof (driver_builds_gen d H [] []) as E. rewrite app_nil_r in E.
    rewrite E. destruct (eval d); reflexivity.
  Qed.
End Driver.

Theorem lalr_builds_shape mp d : wf_dtree mp d = true ->
  lalr_run mp (postorder d) = option_map (fun v => [v]) (shape mp d).
Proof. apply driver_builds. Qed.

Lemma spec_walk_total (X : Type) (none : X) kids ka : forall m exp vs,
  count_false m = length exp ->
  Forall2 (fun s v => inlined s = true -> exists k, kids v = Some k) exp vs ->
  exists l, spec_walk X none kids ka m exp vs = Some l.
Proof.
  induction m as [|[|] m IH]; intros exp vs Hc HF; simpl.
  - eauto.
  - destruct (IH exp vs Hc HF) as [l ->]. simpl. eauto.
  - destruct HF as [|s v exp vs Hs HF]; [discriminate|]. simpl in Hc.
    destruct (IH exp vs ltac:(lia) HF) as [l ->].
    unfold contrib. destruct (negb (kept ka s)); simpl; eauto.
    destruct (inlined s) eqn:Ei; simpl; eauto.
    destruct (Hs eq_refl) as [k ->]. simpl. eauto.
Qed.

Definition is_inline_node (d : dtree) : bool :=
  match d with DNode r _ => starts_us (r_origin r) | DTok _ _ => false end.

Lemma child_ok_inline s d : child_ok s d = true -> inlined s = true -> is_inline_node d = true.
Proof.
  unfold inlined. intros Hc Hi. apply andb_true_iff in Hi. destruct Hi as [Hnt Hus].
  destruct d as [ty v|r ch]; simpl in Hc; apply andb_true_iff in Hc; destruct Hc as [H1 H2].
  - rewrite H1 in Hnt. discriminate.
  - apply String.eqb_eq in H2. simpl. rewrite H2. exact Hus.
Qed.

Section Total.
  Variable X : Type.
  Variable none : X.
  Variable kids : X -> option (list X).
  Variable user : string -> option (list X -> X).
  Variable mk : string -> list X -> X.
  Variable tokf : string -> string -> X.
  Variable mp : bool.
  Hypothesis Hkids : forall n l, kids (mk n l) = Some l.
  Hypothesis Huser : forall n, starts_us n = true -> user n = None.
  Notation eval := (eval X none kids user mk tokf mp).

  Definition inline_val (d : dtree) (t : X) : Prop :=
    is_inline_node d = true -> exists n l, t = mk n l /\ starts_us n = true.

  (* no AttributeError / IndexError: every `_rule` child is a tree node when it is spliced *)
  Theorem eval_total d : wf_dtree mp d = true -> exists t, eval d = Some t /\ inline_val d t.
  Proof.
    induction d as [ty v|r ch IH] using dtree_ind'; intros Hwf.
    - exists (tokf ty v). split; auto. discriminate.
    - destruct (wf_dtree_node _ _ _ Hwf) as (Hr & Hinl & Har & Hall).
      destruct (all_some_Forall2 _ _ _ (Forall_mp _ _ _ IH Hall)) as (vs & Evs & HF).
      cbn [Spec.eval]. rewrite Evs. unfold spec_rule, spec_children.
      assert (HF2 : Forall2 (fun s v => inlined s = true -> exists k, kids v = Some k) (r_exp r) vs).
      { eapply Forall2_comp; [|apply forall2b_Forall2, Har|exact HF]. intros s c v Hc Hv Hi.
        destruct (Hv (child_ok_inline _ _ Hc Hi)) as (n & l & -> & _). rewrite Hkids. eauto. }
      assert (Hcf : count_false (marks r mp) = length (r_exp r)).
      { unfold marks, rule_wf in *. destruct (mp && nonempty (r_empty r)); simpl in Hr.
        - apply Nat.eqb_eq; auto.
        - apply count_false_repeat_false. }
      destruct (spec_walk_total X none kids (r_keep_all r) _ _ _ Hcf HF2) as [l ->].
      unfold inline_val, inline_ok in *. cbn [is_inline_node].
      destruct (starts_us (r_origin r)); cbn [negb orb] in Hinl.
      + (* a `_rule`: no `?`, no alias, and no user callback under its name *)
        repeat (apply andb_true_iff in Hinl; destruct Hinl as [Hinl ?]). apply negb_true_iff in Hinl.
        rewrite Hinl, spec_name_eq, Huser by assumption. cbn [andb]. eauto 6.
      + destruct (r_expand1 r && negb (truthy (r_alias r))); [destruct l as [|c [|]]|]; eexists;
          (split; [reflexivity|discriminate]).
  Qed.
End Total.

Theorem shape_total mp d : wf_dtree mp d = true -> exists t, shape mp d = Some t.
Proof.
  intros H. destruct (eval_total stree NoneV skids no_user Tr Tok mp (fun _ _ => eq_refl) (fun _ _ => eq_refl) d H)
    as (t & Ht & _). eauto.
Qed.
