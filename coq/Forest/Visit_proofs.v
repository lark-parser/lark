(* ForestVisitor.visit: the recursive model terminates on every finite graph whatever the
   callbacks return, it reports a cycle exactly for the returned nodes that are on the
   current path, and the coded explicit-stack loop computes the same trace. *)
From Coq Require Import List Bool Arith Lia Permutation.
From LV Require Import Base.Prelude Forest.Visit.
Import ListNotations.

Lemma memn_in x l : memn x l = true <-> In x l.
Proof.
  induction l as [|y r IH]; cbn; [intuition discriminate|].
  rewrite orb_true_iff, IH, Nat.eqb_eq. intuition.
Qed.
Lemma memn_not_in x l : memn x l = false <-> ~ In x l.
Proof. rewrite <- memn_in. destruct (memn x l); intuition congruence. Qed.

Lemma nodup_snoc (path : list nat) n : NoDup path -> ~ In n path -> NoDup (path ++ [n]).
Proof.
  intros H1 H2. apply (Permutation_NoDup (l := n :: path)).
  - apply Permutation_cons_append.
  - constructor; assumption.
Qed.

Section Proofs.
  Variable g : vgraph.
  Variable single : bool.
  Variable sel : list event -> nat -> vret.
  Notation vrec := (visit_rec g single sel).

  Definition valid (path : list nat) : Prop := forall x, In x path -> x < List.length g.

  Lemma path_bound path : NoDup path -> valid path -> List.length path <= List.length g.
  Proof.
    intros Hnd Hv. rewrite <- (seq_length (List.length g) 0).
    apply NoDup_incl_length; [exact Hnd|]. intros x Hx. apply in_seq. specialize (Hv x Hx). lia.
  Qed.

  Lemma valid_snoc path n : valid path -> n < List.length g -> valid (path ++ [n]).
  Proof. intros Hv Hn x Hx. apply in_app_or in Hx. destruct Hx as [Hx|[<-|[]]]; auto. Qed.

  (* a path of distinct nodes of the graph, with fuel for every level that can still follow *)
  Definition fits (path : list nat) (fuel : nat) : Prop :=
    NoDup path /\ valid path /\ List.length g < fuel + List.length path.

  Lemma fits_nil : fits [] (S (List.length g)).
  Proof. split; [constructor|]. split; [intros x []|]. cbn [List.length]. lia. Qed.

  Lemma fits_fuel path fuel : fits path fuel -> fuel <> 0.
  Proof. intros [Hnd [Hv Hf]] ->. pose proof (path_bound _ Hnd Hv). lia. Qed.

  Lemma fits_snoc path f n : fits path (S f) -> ~ In n path -> nth_error g n <> None -> fits (path ++ [n]) f.
  Proof.
    intros [Hnd [Hv Hf]] Hn Hg. apply nth_error_Some in Hg. split; [apply nodup_snoc; assumption|].
    split; [apply valid_snoc; assumption|]. rewrite app_length. cbn [List.length]. lia.
  Qed.

  Lemma fold_kids_avoids (bad : res vstate) (visit1 : vstate -> nat -> res vstate) path' ks :
    (forall st, bad <> Ok st) -> (forall st c, In c ks -> ~ In c path' -> visit1 st c <> bad) ->
    forall st, fold_kids visit1 path' ks st <> bad.
  Proof.
    intros Hbad. induction ks as [|c r IH]; intros H st; cbn [fold_kids]; [apply not_eq_sym, Hbad|].
    assert (IH' := IH (fun st0 c0 H0 => H st0 c0 (or_intror H0))).
    destruct (memn c path') eqn:E; [apply IH'|].
    apply memn_not_in in E. specialize (H st c (or_introl eq_refl) E).
    destruct (visit1 st c) as [st1| |]; cbn [rbind]; [apply IH'|exact H|exact H].
  Qed.

  Lemma visit_rec_fuel : forall fuel path st n, fits path fuel -> ~ In n path -> vrec fuel path st n <> OutOfFuel.
  Proof.
    induction fuel as [|f IH]; intros path st n Hfit Hn; [destruct (fits_fuel _ _ Hfit eq_refl)|].
    cbn [visit_rec]. destruct (nth_error g n) as [[t|]|] eqn:E; try discriminate.
    destruct (single && memn n (snd st)); [discriminate|].
    destruct (fold_kids _ _ _ _) as [st2| |] eqn:Ek; cbn [rbind]; try discriminate.
    exfalso. revert Ek. apply fold_kids_avoids; [discriminate|]. intros st0 c _ Hc. apply IH; [|exact Hc].
    apply fits_snoc; [exact Hfit|exact Hn|congruence].
  Qed.

  (* C20: the walk terminates on every finite forest graph, cyclic or not, for every visitor
     (whatever its callbacks return) *)
  Theorem visit_terminates root : visit g single sel root <> OutOfFuel.
  Proof.
    unfold visit. apply visit_rec_fuel; [apply fits_nil|intros []].
  Qed.

  (* ... and completes when the callbacks return nodes of the graph: no node is looked up in vain *)
  Lemma visit_rec_no_fail : (forall tr n c, In c (sel_kids (sel tr n)) -> c < List.length g) ->
    forall fuel path st n, n < List.length g -> vrec fuel path st n <> AssertFail.
  Proof.
    intros Hsel. induction fuel as [|f IH]; intros path st n Hlt; cbn [visit_rec]; [discriminate|].
    destruct (nth_error g n) as [[t|]|] eqn:E; [discriminate| |apply nth_error_None in E; lia].
    destruct (single && memn n (snd st)); [discriminate|].
    destruct (fold_kids _ _ _ _) as [st2| |] eqn:Ek; cbn [rbind]; try discriminate.
    exfalso. revert Ek. apply fold_kids_avoids; [discriminate|]. intros st0 c Hc _. apply IH. eapply Hsel. exact Hc.
  Qed.

  Theorem visit_total root :
    (forall tr n c, In c (sel_kids (sel tr n)) -> c < List.length g) -> root < List.length g ->
    exists st, visit g single sel root = Ok st.
  Proof.
    intros Hsel Hr. pose proof (visit_terminates root) as Ht. unfold visit in *.
    pose proof (visit_rec_no_fail Hsel (S (List.length g)) [] ([], []) root Hr) as Hf.
    destruct (vrec _ _ _ _) as [st| |]; [eauto|congruence|congruence].
  Qed.

  (* [dfs path st n st']: visiting [n] below [path] takes state [st] to [st'].
     A returned node is reported by on_cycle iff it is on the current path (K_cycle / K_visit);
     the path handed to on_cycle is the current one. *)
  Inductive dfs : list nat -> vstate -> nat -> vstate -> Prop :=
  | D_tok path st n t : nth_error g n = Some (VTok t) -> dfs path st n (fst st ++ [ETok t], snd st)
  | D_skip path st n : nth_error g n = Some VInner -> single = true -> In n (snd st) -> dfs path st n st
  | D_node path st n st2 :
      nth_error g n = Some VInner -> (single = false \/ ~ In n (snd st)) ->
      dfs_kids (path ++ [n]) (fst st ++ [EIn n], snd st) (sel_kids (sel (fst st ++ [EIn n]) n)) st2 ->
      dfs path st n (fst st2 ++ [EOut n], n :: snd st2)
  with dfs_kids : list nat -> vstate -> list nat -> vstate -> Prop :=
  | K_nil path st : dfs_kids path st [] st
  | K_cycle path st c ks st' :
      In c path -> dfs_kids path (fst st ++ [ECycle c path], snd st) ks st' -> dfs_kids path st (c :: ks) st'
  | K_visit path st c ks st1 st' :
      ~ In c path -> dfs path st c st1 -> dfs_kids path st1 ks st' -> dfs_kids path st (c :: ks) st'.

  Scheme dfs_mind := Minimality for dfs Sort Prop
    with dfs_kids_mind := Minimality for dfs_kids Sort Prop.
  Combined Scheme dfs_mutind from dfs_mind, dfs_kids_mind.

  Lemma skip_cond n (vis : list nat) :
    single && memn n vis = true <-> single = true /\ In n vis.
  Proof. rewrite andb_true_iff, memn_in. reflexivity. Qed.
  Lemma enter_cond n (vis : list nat) :
    single && memn n vis = false <-> single = false \/ ~ In n vis.
  Proof. rewrite andb_false_iff, memn_not_in. reflexivity. Qed.

  Lemma fold_kids_sound (visit1 : vstate -> nat -> res vstate) path' :
    (forall st c st', visit1 st c = Ok st' -> dfs path' st c st') ->
    forall ks st st', fold_kids visit1 path' ks st = Ok st' -> dfs_kids path' st ks st'.
  Proof.
    intros H ks. induction ks as [|c r IH]; intros st st'; cbn [fold_kids].
    - intros [= <-]. constructor.
    - destruct (memn c path') eqn:E.
      + intros Hk. apply K_cycle; [apply memn_in; exact E|]. apply IH. exact Hk.
      + destruct (visit1 st c) as [st1| |] eqn:E1; cbn [rbind]; try discriminate.
        intros Hk. eapply K_visit; [apply memn_not_in; exact E|apply H; exact E1|apply IH; exact Hk].
  Qed.

  (* the executable model satisfies the declarative reading *)
  Theorem visit_rec_sound : forall fuel path st n st', vrec fuel path st n = Ok st' -> dfs path st n st'.
  Proof.
    induction fuel as [|f IH]; intros path st n st'; cbn [visit_rec]; [discriminate|].
    destruct (nth_error g n) as [[t|]|] eqn:E; try discriminate.
    - intros [= <-]. apply D_tok. exact E.
    - destruct (single && memn n (snd st)) eqn:Es.
      + intros [= <-]. apply skip_cond in Es. destruct Es. apply D_skip; assumption.
      + destruct (fold_kids _ _ _ _) as [st2| |] eqn:Ek; cbn [rbind]; try discriminate.
        intros [= <-]. apply D_node; [exact E|apply enter_cond; exact Es|].
        eapply fold_kids_sound; [|exact Ek]. intros st0 c st0' H0. apply (IH _ _ _ _ H0).
  Qed.

  (* ... and conversely, with enough fuel, computes every walk the reading allows: the
     reading determines the trace *)
  Lemma dfs_complete_aux :
    (forall path st n st', dfs path st n st' ->
       forall fuel, fits path fuel -> ~ In n path -> vrec fuel path st n = Ok st') /\
    (forall path st ks st', dfs_kids path st ks st' ->
       forall f, fits path f -> fold_kids (vrec f path) path ks st = Ok st').
  Proof.
    apply dfs_mutind.
    - intros path st n t E fuel Hfit _. destruct fuel as [|f]; [destruct (fits_fuel _ _ Hfit eq_refl)|].
      cbn [visit_rec]. rewrite E. reflexivity.
    - intros path st n E Hs Hin fuel Hfit _. destruct fuel as [|f]; [destruct (fits_fuel _ _ Hfit eq_refl)|].
      cbn [visit_rec]. rewrite E, (proj2 (skip_cond n (snd st)) (conj Hs Hin)). reflexivity.
    - intros path st n st2 E Hs _ IH fuel Hfit Hn. destruct fuel as [|f]; [destruct (fits_fuel _ _ Hfit eq_refl)|].
      cbn [visit_rec]. rewrite E, (proj2 (enter_cond _ _) Hs), (IH f); [reflexivity|]. apply fits_snoc; [exact Hfit|exact Hn|congruence].
    - intros path st f _. reflexivity.
    - intros path st c ks st' Hc _ IH f Hfit. cbn [fold_kids].
      apply memn_in in Hc. rewrite Hc. apply IH. exact Hfit.
    - intros path st c ks st1 st' Hc _ IH1 _ IH2 f Hfit. cbn [fold_kids].
      rewrite (proj2 (memn_not_in c path) Hc), (IH1 f Hfit Hc). cbn [rbind]. apply IH2. exact Hfit.
  Qed.

  (* C20: on_cycle is called exactly on the returned nodes that lie on the current path, with
     that path: the walk computed by the model is the unique one allowed by [dfs] *)
  Theorem on_cycle_exact root st :
    visit g single sel root = Ok st <-> dfs [] ([], []) root st.
  Proof.
    unfold visit. split.
    - apply visit_rec_sound.
    - intros H. apply (proj1 dfs_complete_aux _ _ _ _ H); [apply fits_nil|intros []].
  Qed.

  (* cycle callbacks in the trace are sound: the node is on the path passed along, that path
     extends the path at the start of the walk, and it never contains a node twice *)
  Lemma dfs_cycles_sound :
    (forall path st n st', dfs path st n st' -> NoDup path -> ~ In n path ->
       exists evs, fst st' = fst st ++ evs /\
         forall c p, In (ECycle c p) evs -> In c p /\ NoDup p /\ exists q, p = path ++ q) /\
    (forall path st ks st', dfs_kids path st ks st' -> NoDup path ->
       exists evs, fst st' = fst st ++ evs /\
         forall c p, In (ECycle c p) evs -> In c p /\ NoDup p /\ exists q, p = path ++ q).
  Proof.
    apply dfs_mutind.
    - intros path st n t _ _ _. exists [ETok t]. split; [reflexivity|]. intros c p [H|[]]. discriminate.
    - intros path st n _ _ _ _ _. exists []. split; [rewrite app_nil_r; reflexivity|]. intros c p [].
    - intros path st n st2 _ _ _ IH Hnd Hn.
      destruct (IH (nodup_snoc _ _ Hnd Hn)) as [evs [He Hc]]. cbn [fst] in He.
      exists ([EIn n] ++ evs ++ [EOut n]). cbn [fst]. split.
      + rewrite He. rewrite <- !app_assoc. reflexivity.
      + intros c p Hin. apply in_app_or in Hin. destruct Hin as [[H|[]]|Hin]; [discriminate|].
        apply in_app_or in Hin. destruct Hin as [Hin|[H|[]]]; [|discriminate].
        destruct (Hc c p Hin) as [H1 [H2 [q ->]]]. split; [exact H1|]. split; [exact H2|].
        exists ([n] ++ q). rewrite app_assoc. reflexivity.
    - intros path st _. exists []. split; [rewrite app_nil_r; reflexivity|]. intros c p [].
    - intros path st c ks st' Hc _ IH Hnd. destruct (IH Hnd) as [evs [He Hcs]]. cbn [fst] in He.
      exists ([ECycle c path] ++ evs). split; [rewrite He, <- app_assoc; reflexivity|].
      intros c0 p Hin. apply in_app_or in Hin. destruct Hin as [[H|[]]|Hin]; [|apply Hcs; exact Hin].
      injection H as <- <-. split; [exact Hc|]. split; [exact Hnd|]. exists []. rewrite app_nil_r. reflexivity.
    - intros path st c ks st1 st' Hc _ IH1 _ IH2 Hnd.
      destruct (IH1 Hnd Hc) as [e1 [He1 Hc1]]. destruct (IH2 Hnd) as [e2 [He2 Hc2]].
      exists (e1 ++ e2). split; [rewrite He2, He1, <- app_assoc; reflexivity|].
      intros c0 p Hin. apply in_app_or in Hin. destruct Hin; [apply Hc1|apply Hc2]; assumption.
  Qed.

  Theorem cycle_events_sound root st c p :
    visit g single sel root = Ok st -> In (ECycle c p) (fst st) -> In c p /\ NoDup p.
  Proof.
    intros H Hin. apply on_cycle_exact in H.
    destruct (proj1 dfs_cycles_sound _ _ _ _ H (NoDup_nil _) (fun x => x)) as [evs [He Hc]].
    cbn [fst app] in He. rewrite He in Hin. destruct (Hc c p Hin) as [H1 [H2 _]]. auto.
  Qed.

  Inductive steps : lstate -> lstate -> Prop :=
  | steps_refl s : steps s s
  | steps_step s s1 s2 : step g single sel s = Running s1 -> steps s1 s2 -> steps s s2.

  Lemma steps_trans s1 s2 s3 : steps s1 s2 -> steps s2 s3 -> steps s1 s3.
  Proof. induction 1; intros H3; [exact H3|]. eapply steps_step; [eassumption|]. auto. Qed.

  Lemma steps_one s s1 : step g single sel s = Running s1 -> steps s s1.
  Proof. intros H. eapply steps_step; [exact H|apply steps_refl]. Qed.

  Lemma loop_simulates :
    (forall path st n st', dfs path st n st' -> ~ In n path ->
       forall stk, steps (mkL (FNode n :: stk) path (snd st) (fst st)) (mkL stk path (snd st') (fst st'))) /\
    (forall path st ks st', dfs_kids path st ks st' ->
       (* the callback returned an iterable: an iterator frame on the stack *)
       (forall stk, steps (mkL (FIter ks :: stk) path (snd st) (fst st)) (mkL stk path (snd st') (fst st'))) /\
       (* it returned a single node: checked against `visiting` at once and pushed itself *)
       (forall c, ks = [c] -> forall stk,
          steps (if memn c path then mkL stk path (snd st) (fst st ++ [ECycle c path])
                 else mkL (FNode c :: stk) path (snd st) (fst st))
                (mkL stk path (snd st') (fst st')))).
  Proof.
    apply dfs_mutind.
    - intros path st n t E _ stk. apply steps_one. unfold step. cbn [l_stack]. rewrite E. reflexivity.
    - intros path st n E Hs Hin Hn stk. apply steps_one. unfold step. cbn [l_stack l_path l_visited]. rewrite E.
      apply memn_not_in in Hn. rewrite Hn.
      assert (Hc : single && memn n (snd st) = true) by (apply skip_cond; auto). rewrite Hc. reflexivity.
    - intros path st n st2 E Hs _ IH Hn stk.
      pose proof (proj2 (enter_cond _ _) Hs) as Hc. pose proof Hn as Hn'. apply memn_not_in in Hn'.
      assert (Hout : steps (mkL (FNode n :: stk) (path ++ [n]) (snd st2) (fst st2))
                           (mkL stk path (n :: snd st2) (fst st2 ++ [EOut n]))).
      { apply steps_one. unfold step. cbn [l_stack l_path l_visited l_trace fst snd]. rewrite E.
        assert (Hm : memn n (path ++ [n]) = true) by (apply memn_in; apply in_or_app; right; left; reflexivity).
        rewrite Hm, removelast_last. reflexivity. }
      destruct (sel (fst st ++ [EIn n]) n) as [ks|c] eqn:Es; cbn [sel_kids] in IH.
      + eapply steps_step.
        { unfold step. cbn [l_stack l_path l_visited l_trace]. rewrite E, Hn', Hc. cbv zeta. rewrite Es. reflexivity. }
        eapply steps_trans; [apply (proj1 IH (FNode n :: stk))|exact Hout].
      + pose proof (proj2 IH c eq_refl (FNode n :: stk)) as H2. cbn [fst snd] in H2.
        eapply steps_step; [|eapply steps_trans; [exact H2|exact Hout]].
        unfold step. cbn [l_stack l_path l_visited l_trace]. rewrite E, Hn', Hc. cbv zeta. rewrite Es.
        destruct (memn c (path ++ [n])); reflexivity.
    - intros path st. split.
      + intros stk. apply steps_one. reflexivity.
      + intros c E. discriminate.
    - intros path st c ks st' Hc Hk IH. split.
      + intros stk. eapply steps_step; [|apply (proj1 IH)].
        unfold step. cbn [l_stack l_path]. apply memn_in in Hc. rewrite Hc. reflexivity.
      + intros c0 E stk. injection E as <- ->. apply memn_in in Hc. rewrite Hc.
        inversion Hk; subst. cbn [fst snd]. apply steps_refl.
    - intros path st c ks st1 st' Hc Hd IH1 Hk IH2. split.
      + intros stk. eapply steps_step.
        { unfold step. cbn [l_stack l_path]. pose proof Hc as Hc'. apply memn_not_in in Hc'. rewrite Hc'. reflexivity. }
        eapply steps_trans; [apply IH1; exact Hc|apply (proj1 IH2)].
      + intros c0 E stk. injection E as <- ->. pose proof Hc as Hc'. apply memn_not_in in Hc'. rewrite Hc'.
        inversion Hk; subst. apply IH1. exact Hc.
  Qed.

  Lemma steps_run s s' : steps s s' -> l_stack s' = [] ->
    exists fuel, run_loop g single sel fuel s = Ok s'.
  Proof.
    induction 1 as [s|s s1 s2 Hs _ IH]; intros He.
    - exists 1. cbn [run_loop]. unfold step. rewrite He. reflexivity.
    - destruct (IH He) as [fuel Hf]. exists (S fuel). cbn [run_loop]. rewrite Hs. exact Hf.
  Qed.

  (* C20: the coded explicit-stack loop (input_stack of nodes and iterators, visiting,
     visited, path) terminates with the callback trace and visited set of the recursive model *)
  Theorem loop_eq_rec root st :
    visit g single sel root = Ok st -> exists fuel, visit_loop g single sel fuel root = Ok st.
  Proof.
    intros H. apply on_cycle_exact in H.
    pose proof (proj1 loop_simulates _ _ _ _ H (fun x => x) []) as Hs. cbn [fst snd] in Hs.
    destruct (steps_run _ _ Hs eq_refl) as [fuel Hf]. exists fuel. unfold visit_loop. rewrite Hf.
    cbn [rbind l_trace l_visited]. destruct st; reflexivity.
  Qed.

  Lemma run_loop_mono fuel : forall s s', run_loop g single sel fuel s = Ok s' ->
    forall fuel', fuel <= fuel' -> run_loop g single sel fuel' s = Ok s'.
  Proof.
    induction fuel as [|f IH]; intros s s' H fuel' Hle; [discriminate|].
    destruct fuel' as [|f']; [lia|]. cbn [run_loop] in *.
    destruct (step g single sel s); try exact H. apply IH; [exact H|lia].
  Qed.
End Proofs.
