(* C16: the traversals return the same value, call every callback once per node with children
   first, and embedding the callbacks in the tree builder equals transforming afterwards. *)
From Coq Require Import String Ascii List Bool Arith Lia.
From LV Require Import Base.Prelude Shape.Chain Shape.Spec Shape.Chain_proofs Shape.Shape_proofs Shape.Transform.
Import ListNotations.

Section StreeInd.
  Variable P : stree -> Prop.
  Hypothesis Htok : forall ty v, P (Tok ty v).
  Hypothesis Hnone : P NoneV.
  Hypothesis Hnode : forall n ch, Forall P ch -> P (Tr n ch).
  Fixpoint stree_ind' (t : stree) : P t :=
    match t with
    | Tok ty v => Htok ty v
    | NoneV => Hnone
    | Tr n ch => Hnode n ch ((fix go l : Forall P l :=
                                match l with [] => Forall_nil P | x :: r => Forall_cons x (stree_ind' x) (go r) end) ch)
    end.
End StreeInd.

Definition mapi_cat (f : path -> stree -> log) (p : path) : nat -> list stree -> log :=
  fix go i l := match l with [] => [] | c :: r => f (p ++ [i]) c ++ go (S i) r end.

Fixpoint post_paths (vt : bool) (p : path) (t : stree) {struct t} : log :=
  match t with
  | Tr _ ch => mapi_cat (post_paths vt) p 0 ch ++ [p]
  | Tok _ _ => tok_log vt p
  | NoneV => []
  end.

Section Proofs.
  Variable T : transformer.
  Variable vt : bool.
  Notation tr := (tr T vt).
  Notation post_paths := (post_paths vt).
  Notation call_rule := (call_rule T).
  Notation call_token := (call_token T).

  Lemma mapi_log_spec f ch : Forall (fun c => forall p, f p c = (tr c, post_paths p c)) ch ->
    forall p i, mapi_log f p i ch = (map tr ch, mapi_cat post_paths p i ch).
  Proof.
    induction 1 as [|c ch Hc _ IH]; intros p i; simpl; auto.
    rewrite Hc, IH. reflexivity.
  Qed.

  Theorem rec_tc_spec t : forall p, rec_tc T vt p t = (tr t, post_paths p t).
  Proof.
    induction t as [ty v| |n ch IH] using stree_ind'; intros p; simpl; auto.
    rewrite (mapi_log_spec _ ch IH). reflexivity.
  Qed.

  (* reading tree.data and tree.children back from the node just rebuilt changes nothing *)
  Theorem ipr_tc_spec t : forall p, ipr_tc T vt p t = (tr t, post_paths p t).
  Proof. exact (rec_tc_spec t). Qed.

  Definition mapi_nodes (f : path -> stree -> list (path * stree)) (p : path)
    : nat -> list stree -> list (path * stree) :=
    fix go i l := match l with [] => [] | c :: r => f (p ++ [i]) c ++ go (S i) r end.

  Fixpoint post_nodes (p : path) (t : stree) : list (path * stree) :=
    match t with
    | Tr _ ch => mapi_nodes post_nodes p 0 ch ++ [(p, t)]
    | _ => [(p, t)]
    end.

  Definition pn (x : path * stree) := post_nodes (fst x) (snd x).
  Definition total (q : list (path * stree)) : nat := fold_right (fun x a => ssize (snd x) + a) 0 q.

  Lemma total_app a b : total (a ++ b) = total a + total b.
  Proof. induction a as [|x a IH]; [reflexivity|]. unfold total in *. simpl. rewrite IH. lia. Qed.

  Lemma total_rev a : total (rev a) = total a.
  Proof. induction a as [|x a IH]; [reflexivity|]. simpl. rewrite total_app, IH. unfold total. simpl. lia. Qed.

  Lemma total_with_paths p i ch : total (with_paths p i ch) = fold_right (fun c a => ssize c + a) 0 ch.
  Proof. revert i; induction ch as [|c ch IH]; intros i; [reflexivity|]. unfold total in *. simpl. rewrite IH. reflexivity. Qed.

  Lemma concat_pn_with_paths p i ch : concat (map pn (with_paths p i ch)) = mapi_nodes post_nodes p i ch.
  Proof. revert i; induction ch as [|c ch IH]; intros i; simpl; auto. rewrite IH. reflexivity. Qed.

  Lemma nr_loop1_spec : forall fuel q acc, total q <= fuel ->
    nr_loop1 fuel q acc = Some (concat (map pn (rev q)) ++ acc).
  Proof.
    induction fuel as [|f IH]; intros [|[p t] q'] acc Hf; simpl; auto.
    - unfold total in Hf. simpl in Hf. destruct t; simpl in Hf; lia.
    - rewrite map_app, concat_app. simpl. rewrite app_nil_r, <- app_assoc.
      (* the node is pushed on acc; its children (none for a token or None) go in front of the queue *)
      destruct t as [ty v|n ch|]; rewrite IH; try reflexivity; try (unfold total in *; simpl in *; lia).
      + rewrite rev_app_distr, rev_involutive, map_app, concat_app, concat_pn_with_paths.
        unfold pn at 3. simpl. rewrite <- !app_assoc. reflexivity.
      + rewrite total_app, total_rev, total_with_paths. unfold total in *. simpl in *. lia.
  Qed.

  Lemma nr_loop2_spec t : forall p r stack lg,
    nr_loop2 T vt (post_nodes p t ++ r) stack lg = nr_loop2 T vt r (tr t :: stack) (lg ++ post_paths p t).
  Proof.
    induction t as [ty v| |n ch IH] using stree_ind'; intros p r stack lg; simpl.
    - reflexivity.
    - rewrite app_nil_r. reflexivity.
    - assert (Hch : forall i r stack lg,
        nr_loop2 T vt (mapi_nodes post_nodes p i ch ++ r) stack lg
        = nr_loop2 T vt r (rev (map tr ch) ++ stack) (lg ++ mapi_cat post_paths p i ch)).
      { induction IH as [|c ch Hc _ IHch]; intros i r0 st0 lg0; simpl.
        - rewrite app_nil_r. reflexivity.
        - rewrite <- app_assoc, Hc, IHch. repeat rewrite <- app_assoc. reflexivity. }
      rewrite <- app_assoc, Hch. simpl.
      rewrite <- app_assoc.
      destruct ch as [|c ch'] eqn:Ech; [reflexivity|]. rewrite <- Ech in *.
      assert (Hl : length (rev (map tr ch)) = length ch) by (rewrite rev_length, map_length; auto).
      replace (Nat.eqb (length ch) 0) with false by (subst ch; reflexivity).
      rewrite <- Hl at 1 2.
      rewrite firstn_app, Nat.sub_diag, firstn_all, skipn_app, Nat.sub_diag, skipn_all.
      simpl. rewrite app_nil_r, rev_involutive. reflexivity.
  Qed.

  Theorem transform_nr_spec t : transform_nr T vt t = Some (tr t, post_paths [] t).
  Proof.
    unfold transform_nr. rewrite nr_loop1_spec by (unfold total; simpl; lia).
    simpl. rewrite app_nil_r. unfold pn. simpl.
    rewrite (nr_loop2_spec t [] [] [] []). reflexivity.
  Qed.

End Proofs.

Section Embedded.
  Variable T : transformer.
  Variable vt : bool.
  Notation tr := (tr T vt).
  Notation call_rule := (call_rule T).
  (* callbacks are attached to named (non-underscore) rules, aliases, template names, terminals *)
  Hypothesis Huser : forall n, starts_us n = true -> on_rule T n = None.

  Definition splice_ok (s : sym) (v : stree) : Prop :=
    inlined s = true -> exists n k, v = Tr n k /\ starts_us n = true.

  Lemma spec_walk_tr ka : forall m exp vs, Forall2 splice_ok exp vs ->
    spec_walk value VNone vkids ka m exp (map tr vs)
    = option_map (map tr) (spec_walk stree NoneV skids ka m exp vs).
  Proof.
    induction m as [|[|] m IH]; intros exp vs HF; simpl; auto.
    - rewrite (IH exp vs HF). destruct (spec_walk stree NoneV skids ka m exp vs); reflexivity.
    - destruct HF as [|s v exp vs Hs HF]; simpl; auto.
      rewrite (IH exp vs HF).
      unfold contrib. destruct (negb (kept ka s)); simpl.
      + destruct (spec_walk stree NoneV skids ka m exp vs); reflexivity.
      + destruct (inlined s) eqn:Ei.
        * destruct (Hs Ei) as (n & k & -> & Hn). simpl.
          unfold Transform.call_rule. rewrite (Huser n Hn). simpl.
          destruct (spec_walk stree NoneV skids ka m exp vs); simpl; auto.
          rewrite map_app. reflexivity.
        * simpl. destruct (spec_walk stree NoneV skids ka m exp vs); reflexivity.
  Qed.

  Lemma spec_rule_tr r mp vs : Forall2 splice_ok (r_exp r) vs ->
    spec_rule value VNone vkids (on_rule T) VTree r mp (map tr vs)
    = option_map tr (spec_rule stree NoneV skids no_user Tr r mp vs).
  Proof.
    intros HF. unfold spec_rule, spec_children. rewrite (spec_walk_tr _ _ _ _ HF).
    destruct (spec_walk stree NoneV skids (r_keep_all r) (marks r mp) (r_exp r) vs) as [l|]; simpl; auto.
    destruct (r_expand1 r && negb (truthy (r_alias r))).
    - destruct l as [|c [|]]; simpl; auto.
    - simpl. reflexivity.
  Qed.

  Theorem embedded_eq_posthoc mp d : wf_dtree mp d = true ->
    embedded T vt mp d = option_map tr (shape mp d).
  Proof.
    induction d as [ty v|r ch IH] using dtree_ind'; intros Hwf; [reflexivity|].
    destruct (wf_dtree_node _ _ _ Hwf) as (_ & _ & Har & Hall).
    change (embedded T vt mp (DNode r ch)) with
      (match all_some (map (embedded T vt mp) ch) with
       | Some vs => spec_rule value VNone vkids (on_rule T) VTree r mp vs | None => None end).
    change (shape mp (DNode r ch)) with
      (match all_some (map (shape mp) ch) with
       | Some vs => spec_rule stree NoneV skids no_user Tr r mp vs | None => None end).
    rewrite (map_ext_Forall _ _ (Forall_mp _ _ _ IH Hall)), <- (map_map (shape mp) (option_map tr)), all_some_option_map.
    (* the children's shapes exist, and those of `_rule` children are trees under an underscore name *)
    destruct (all_some_Forall2 (shape mp) (inline_val stree Tr) ch) as (vs & -> & HF).
    { eapply Forall_impl; [|exact Hall]. intros c.
      apply (eval_total stree NoneV skids no_user Tr Tok mp); reflexivity. }
    apply spec_rule_tr. eapply Forall2_comp; [|apply forall2b_Forall2, Har|exact HF].
    intros s c v Hc Hv Hi. exact (Hv (child_ok_inline _ _ Hc Hi)).
  Qed.
End Embedded.
