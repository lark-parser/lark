(* Proofs about Inst/LazyCell.v: for every schedule and any number of threads every call returns a built value with
   the builder's content (never None), and makes the announced number of calls; the identity of the returned object
   is NOT schedule independent (two builds can happen, the first one is lost). *)
From Coq Require Import List Arith Bool Lia.
From LV Require Import Inst.ListFacts Inst.LazyCell.
Import ListNotations.

Section Safe.
Variable bval : nat.

Definition good (r : option lval) : Prop := exists id, r = Some (mkV bval id).
Definition cell_ok (sh : lshared) : Prop := ls_cell sh = None \/ good (ls_cell sh).
Definition remaining (th : lthread) : nat := match lt_pc th with LDone => 0 | _ => S (lt_todo th) end.

Definition th_ok (sh : lshared) (c : nat) (th : lthread) : Prop :=
  Forall good (lt_res th) /\ (lt_pc th = LRet -> ls_cell sh <> None) /\ List.length (lt_res th) + remaining th = c.

Definition inv (calls : list nat) (g : lgstate) : Prop :=
  cell_ok (fst g) /\ Forall2 (th_ok (fst g)) calls (snd g).

Lemma inv_init calls : inv calls (linit calls).
Proof.
  split; [left; reflexivity|]. cbn. induction calls as [|c r IH]; cbn; constructor; auto.
  destruct c; cbn; repeat split; auto; try discriminate; constructor.
Qed.

Definition grows (sh sh' : lshared) : Prop := ls_cell sh <> None -> ls_cell sh' <> None.

Lemma th_ok_grows sh sh' c th : grows sh sh' -> th_ok sh c th -> th_ok sh' c th.
Proof. intros G (A & B & C). repeat split; auto. Qed.

Lemma grows_refl sh : grows sh sh.
Proof. intros x; exact x. Qed.

Lemma lstep_ok sh c th : cell_ok sh -> th_ok sh c th ->
  let '(sh', th') := lstep bval sh th in cell_ok sh' /\ th_ok sh' c th' /\ grows sh sh'.
Proof.
  intros Hc (A & B & C). unfold lstep. unfold remaining in C.
  (* a step that leaves the cell alone *)
  assert (stay : forall th', th_ok sh c th' -> cell_ok sh /\ th_ok sh c th' /\ grows sh sh)
    by (intros; auto using grows_refl).
  destruct (lt_pc th) eqn:P.
  - (* LTest *)
    destruct (ls_cell sh) eqn:E; apply stay; unfold th_ok, remaining; cbn; repeat split; auto; congruence.
  - (* LStore *)
    split; [right; eexists; reflexivity|]. split; [|intros _; cbn; discriminate].
    unfold th_ok, remaining; cbn. repeat split; auto. discriminate.
  - (* LRet: the cell was seen set, or was set by this thread, so what is read is a built value *)
    assert (G : good (ls_cell sh)) by (destruct Hc as [Hc|Hc]; [elim (B eq_refl Hc)|exact Hc]).
    destruct (lt_todo th) eqn:T; apply stay; unfold th_ok, remaining; cbn;
      (split; [apply Forall_app; split; [exact A|repeat constructor; exact G]|]);
      (split; [discriminate|rewrite app_length; cbn; lia]).
  - (* LDone *)
    apply stay. unfold th_ok, remaining. rewrite P. auto.
Qed.

(* the scheduler's list update is the set_at of ListFacts *)
Lemma lupd_set_at {A} : @lupd A = @set_at A.
Proof. reflexivity. Qed.

Lemma inv_step calls g i : inv calls g -> inv calls (lgstep bval g i).
Proof.
  intros (Hc & Hall). unfold lgstep. destruct (nth_error (snd g) i) as [th|] eqn:E; [|split; auto].
  destruct (Forall2_nth_r _ _ _ _ _ Hall E) as (c & Ec & Hth).
  pose proof (lstep_ok (fst g) c th Hc Hth) as H. destruct (lstep bval (fst g) th) as [sh' th'].
  destruct H as (Hc' & Hth' & G). split; [exact Hc'|]. cbn.
  rewrite lupd_set_at. apply Forall2_set_at_r with c; [|exact Ec|exact Hth'].
  eapply Forall2_impl; [|exact Hall]. intros a b. apply th_ok_grows. exact G.
Qed.

Lemma inv_run calls sched : forall g, inv calls g -> inv calls (lrun bval sched g).
Proof. induction sched as [|i r IH]; intros g H; cbn; auto. apply IH. now apply inv_step. Qed.

Theorem lazy_value_safe (calls : list nat) (sched : list nat) :
  let g := lrun bval sched (linit calls) in
  (ls_cell (fst g) = None \/ exists id, ls_cell (fst g) = Some (mkV bval id)) /\
  Forall2 (fun c th => Forall (fun r => exists id, r = Some (mkV bval id)) (lt_res th) /\
                       (lt_pc th = LDone -> List.length (lt_res th) = c)) calls (snd g).
Proof.
  destruct (inv_run calls sched _ (inv_init calls)) as (Hc & Hall). split; [exact Hc|].
  eapply Forall2_impl; [|exact Hall]. intros c th (A & _ & C). split; [exact A|].
  intros P. unfold remaining in C. rewrite P in C. lia.
Qed.
End Safe.

(* The identity of the returned object depends on the schedule: both threads pass the test, both build; thread 0
   returns the first object, which thread 1 then overwrites - thread 0 holds an object that is not (and never again
   will be) the content of the cell.  Harmless for a value cell (scanner, width), a lost update for Tree.meta when two
   threads of the USER share one result tree (not instance state: outside C10). *)
Theorem lazy_identity_race_refuted :
  exists sched, let g := lrun 7 sched (linit [1; 1]) in
    map lt_res (snd g) = [[Some (mkV 7 0)]; [Some (mkV 7 1)]] /\ ls_cell (fst g) = Some (mkV 7 1) /\
    Forall (fun th => lt_pc th = LDone) (snd g).
Proof. exists [0; 1; 0; 0; 1; 1]. vm_compute. repeat split; repeat constructor. Qed.
