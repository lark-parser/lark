(* Completeness of the model's look-ahead sets (for the completeness half of C02), in tree form: along any derivation tree, the token that follows the yield of a
   node is in Follow of the non-terminal transition at which the node starts, hence in the
   look-ahead set of the node's rule in the state reached after its children
   ("S' =>rm* alpha A a z  implies  a in Follow(goto*(q0, alpha), A)"). *)
From Coq Require Import List Arith Bool ZArith Lia.
From LV Require Import Cfg.Grammar LR.Driver LR.Driver_proofs LR.Automaton LR.Automaton_proofs
     LR.Automaton_wf LR.Automaton_la LR.Automaton_complete.
Import ListNotations.

Section Sol.
  Variable nts : list ntrans.
  Variable rf : ntrans -> list ntrans.
  Variable G0 F : list (list nat).
  Hypothesis LS : least_solution nts (map rf nts) G0 F.

  Definition Of (F' : list (list nat)) (x : ntrans) (t : nat) : Prop :=
    exists i, index_of pair_eqb x nts = Some i /\ M F' i t.

  Lemma sol_base x i t : index_of pair_eqb x nts = Some i -> In t (nth i G0 []) -> Of F x t.
  Proof.
    intros Hi Ht. exists i. split; auto. apply (proj1 LS). split; [apply (index_of_nth _ pair_eqb_eq _ _ _ Hi)|]. now left.
  Qed.

  Lemma sol_edge x y t : In x nts -> In y (rf x) -> Of F y t -> Of F x t.
  Proof.
    intros Hx Hy (j & Hj & Hm).
    destruct (index_of_In pair_eqb pair_eqb_eq x nts Hx) as (i & Hi).
    exists i. split; auto. apply (proj1 LS). destruct (index_of_nth _ pair_eqb_eq _ _ _ Hi) as (Hn & Hlt). split; auto.
    right. exists j. split; auto. split; auto. exists y. split; auto.
    unfold Rs. now rewrite (nth_map_error rf nts i x [] Hn).
  Qed.

  Lemma sol_ind (Phi : ntrans -> nat -> Prop) :
    (forall k x t, nth_error nts k = Some x -> In t (nth k G0 []) -> Phi x t) ->
    (forall x y t, In y (rf x) -> Phi y t -> Phi x t) ->
    forall k t, M F k t -> forall x, nth_error nts k = Some x -> Phi x t.
  Proof.
    intros Hbase Hedge. apply (proj2 LS (fun k t => forall x, nth_error nts k = Some x -> Phi x t)).
    - intros k t _ Ht x Hx. exact (Hbase k x t Hx Ht).
    - intros i j t (_ & y & Hy & Hj) Hphi x Hx. unfold Rs in Hy.
      rewrite (nth_map_error rf nts i x [] Hx) in Hy.
      apply (Hedge x y t Hy), Hphi, (index_of_nth _ pair_eqb_eq _ _ _ Hj).
  Qed.
End Sol.

Section Rel.
  Variable rules : list rule.
  Variable tEND fuel : nat.
  Variable A : lr0.
  Variable r0 : nat.
  Hypothesis HB : build_lr0 rules [r0] fuel = Some A.

  Notation rule_at := (rule_at rules).
  Notation next_sym := (next_sym rules).
  Notation nts := (nt_transitions rules A).
  Notation rel := (compute_relations rules [r0] tEND A).

  Notation ND := (NoDup_one r0).

  Lemma nt_next_In C a : In a (nt_next rules C) <-> exists it, In it C /\ next_sym it = Some (NT a).
  Proof.
    unfold nt_next. rewrite in_flat_map, <- next_syms_In. split.
    - intros ([t|b] & HX & H); [contradiction|]. now destruct H as [->|[]].
    - intros H. exists (NT a). split; auto. now left.
  Qed.

  Lemma t_next_In C t : In t (t_next rules C) <-> exists it, In it C /\ next_sym it = Some (T t).
  Proof.
    unfold t_next. rewrite in_flat_map, <- next_syms_In. split.
    - intros ([t'|b] & HX & H); [|contradiction]. now destruct H as [->|[]].
    - intros H. exists (T t). split; auto. now left.
  Qed.

  Lemma nts_In q a : In (q, a) nts <-> exists it, In it (closure_of A q) /\ next_sym it = Some (NT a).
  Proof.
    unfold nt_transitions. rewrite in_flat_map, <- nt_next_In. split.
    - intros (q' & Hq' & H). apply in_map_iff in H. destruct H as (a' & E & Ha'). now inversion E; subst.
    - intros Ha. exists q. split; [|now apply in_map]. apply nt_next_In in Ha. destruct Ha as (it & Hit & _).
      apply in_seq. pose proof (item_state_lt HB ND _ _ Hit). lia.
  Qed.

  Lemma item_trans q it X : In it (closure_of A q) -> next_sym it = Some X -> exists q', trans A q X = Some q'.
  Proof.
    intros Hit Hn. apply (trans_total rules [r0] fuel A HB ND); [exact (item_state_lt HB ND _ _ Hit)|].
    apply next_syms_In. eauto.
  Qed.

  Lemma predicted q it b i :
    In it (closure_of A q) -> next_sym it = Some (NT b) -> i < length rules -> lhs (rule_at i) = b ->
    In (i, 0) (closure_of A q).
  Proof.
    rewrite (closure_of_nth HB ND q). apply closure_predicts.
  Qed.

  Fixpoint goto_star (q : nat) (ss : list symbol) : option nat :=
    match ss with
    | [] => Some q
    | s :: ss' => match trans A q s with Some q' => goto_star q' ss' | None => None end
    end.

  Lemma walk_cons q s ss :
    walk A q (s :: ss) =
    ((q, s, ss) :: match trans A q s with Some q' => fst (walk A q' ss) | None => [] end,
     match trans A q s with Some q' => snd (walk A q' ss) | None => None end).
  Proof. simpl. destruct (trans A q s) as [q'|]; [now destruct (walk A q' ss)|reflexivity]. Qed.

  Lemma walk_snd q ss : snd (walk A q ss) = goto_star q ss.
  Proof.
    revert q; induction ss as [|s ss IH]; intros q; [reflexivity|]. rewrite walk_cons. simpl.
    destruct (trans A q s); auto.
  Qed.

  Lemma walk_fst_In : forall ss q q2 s post,
    In (q2, s, post) (fst (walk A q ss)) <-> exists pre, ss = pre ++ s :: post /\ goto_star q pre = Some q2.
  Proof.
    induction ss as [|x ss IH]; intros q q2 s post.
    - split; [contradiction|]. intros ([|? ?] & E & _); discriminate.
    - rewrite walk_cons. simpl. split.
      + intros [E|H].
        * inversion E; subst. now exists [].
        * destruct (trans A q x) as [q'|] eqn:Et; [|contradiction]. apply IH in H.
          destruct H as (pre & -> & Hg). exists (x :: pre). simpl. now rewrite Et.
      + intros ([|y pre] & E & Hg); simpl in *; inversion E; subst.
        * inversion Hg; subst. now left.
        * right. destruct (trans A q y) as [q'|]; [|discriminate]. apply IH. eauto.
  Qed.

  Lemma goto_star_app q a b : goto_star q (a ++ b) =
    match goto_star q a with Some q' => goto_star q' b | None => None end.
  Proof. revert q; induction a as [|x a IH]; intros q; simpl; auto. destruct (trans A q x); auto. Qed.

  Lemma is_root_trans_spec x :
    is_root_trans rules [r0] x = true <-> fst x = 0 /\ next_sym (r0, 0) = Some (NT (snd x)).
  Proof.
    unfold is_root_trans. rewrite andb_true_iff, Nat.ltb_lt. simpl. split.
    - intros (H0 & H). assert (E : fst x = 0) by lia. rewrite E in H. simpl in H. split; auto.
      destruct (next_sym (r0, 0)) as [[t|a]|]; try discriminate. apply Nat.eqb_eq in H. now subst.
    - intros (-> & ->). simpl. rewrite Nat.eqb_refl. auto.
  Qed.

  Lemma directly_reads_In x t :
    In t (directly_reads rules [r0] tEND A x) <->
    (is_root_trans rules [r0] x = true /\ t = tEND) \/
    exists p it, trans A (fst x) (NT (snd x)) = Some p /\ In it (closure_of A p) /\ next_sym it = Some (T t).
  Proof.
    unfold directly_reads. rewrite dedup_nat_In, in_app_iff.
    assert (E1 : In t (if is_root_trans rules [r0] x then [tEND] else []) <->
                 is_root_trans rules [r0] x = true /\ t = tEND).
    { destruct (is_root_trans rules [r0] x); simpl; intuition congruence. }
    rewrite E1. clear E1. destruct (trans A (fst x) (NT (snd x))) as [p|].
    - rewrite t_next_In. split; (intros [H|H]; [now left|right]).
      + destruct H as (it & H). exists p, it. auto.
      + destruct H as (p' & it & E & H). inversion E; subst. eauto.
    - split; (intros [H|H]; [now left|]); [contradiction|]. destruct H as (p & it & E & _). discriminate.
  Qed.

  Lemma reads_In x y :
    In y (reads rules A x) <->
    trans A (fst x) (NT (snd x)) = Some (fst y) /\ nullable rules (NT (snd y)) = true /\
    exists it, In it (closure_of A (fst y)) /\ next_sym it = Some (NT (snd y)).
  Proof.
    unfold reads. destruct (trans A (fst x) (NT (snd x))) as [p|].
    - rewrite in_map_iff. split.
      + intros (c & <- & Hc). apply filter_In in Hc. destruct Hc as (Hc & Hnu). simpl.
        apply nt_next_In in Hc. auto.
      + intros (E & Hnu & Hit). inversion E; subst p. exists (snd y). split; [now destruct y|].
        apply filter_In. split; auto. now apply nt_next_In.
    - split; [contradiction|]. intros (E & _). discriminate.
  Qed.

  Lemma includes_In x y :
    In y (includes rules A x) <->
    In y nts /\ exists i pre post, In i (start_items rules A y) /\
      rhs (rule_at i) = pre ++ NT (snd x) :: post /\ goto_star (fst y) pre = Some (fst x) /\
      forallb (nullable rules) post = true.
  Proof.
    unfold includes, includes_from. rewrite dedup_pair_In, in_flat_map. split.
    - intros ((x', y') & Hpair & Hy). simpl in Hy.
      destruct (pair_eqb x' x) eqn:Ex; [|contradiction]. apply pair_eqb_eq in Ex. destruct Hy as [->|[]]. subst x'.
      unfold includes_pairs in Hpair. apply in_flat_map in Hpair. destruct Hpair as (y0 & Hy0 & Hpair).
      apply in_flat_map in Hpair. destruct Hpair as (r & Hr & Hpair).
      apply in_flat_map in Hpair. destruct Hpair as (((q2, s), rest) & Hw & Hpair).
      destruct s as [tt|c]; [contradiction|].
      destruct (forallb (nullable rules) rest) eqn:Hnu; [|contradiction].
      destruct Hpair as [E|[]]. inversion E; subst. split; auto.
      apply walk_fst_In in Hw. destruct Hw as (pre & Er & Hg). exists r, pre, rest. auto.
    - intros (Hy & i & pre & post & Hi & Er & Hg & Hnu). exists (x, y). split.
      + unfold includes_pairs. apply in_flat_map. exists y. split; auto.
        apply in_flat_map. exists i. split; auto.
        apply in_flat_map. exists (fst x, NT (snd x), post). split.
        * apply walk_fst_In. eauto.
        * rewrite Hnu. left. now destruct x.
      + simpl. rewrite (proj2 (pair_eqb_eq x x) eq_refl). now left.
  Qed.

  Definition ReadOf (x : ntrans) (t : nat) : Prop := Of nts (read_sets rel) x t.
  Definition FollowOf (x : ntrans) (t : nat) : Prop := Of nts (follow_sets rel) x t.

  Lemma LSr : least_solution nts (map (reads rules A) nts) (map (directly_reads rules [r0] tEND A) nts) (read_sets rel).
  Proof. exact (proj1 (la_closure rules [r0] tEND A)). Qed.
  Lemma LSf : least_solution nts (map (includes_from (includes_pairs rules A)) nts) (read_sets rel) (follow_sets rel).
  Proof. exact (proj1 (proj2 (la_closure rules [r0] tEND A))). Qed.

  Lemma read_dr x t : In x nts -> In t (directly_reads rules [r0] tEND A x) -> ReadOf x t.
  Proof.
    intros Hx Ht. destruct (index_of_In pair_eqb pair_eqb_eq x nts Hx) as (i & Hi).
    apply (sol_base nts _ _ _ LSr x i t Hi).
    destruct (index_of_nth _ pair_eqb_eq _ _ _ Hi) as (Hn & _). now rewrite (nth_map_error _ nts i x [] Hn).
  Qed.

  Lemma read_reads x y t : In x nts -> In y (reads rules A x) -> ReadOf y t -> ReadOf x t.
  Proof. apply (sol_edge nts _ _ _ LSr). Qed.

  Lemma follow_read x t : ReadOf x t -> FollowOf x t.
  Proof. intros (i & Hi & Hm). apply (sol_base nts _ _ _ LSf x i t Hi). exact Hm. Qed.

  Lemma follow_includes x y t : In x nts -> In y (includes rules A x) -> FollowOf y t -> FollowOf x t.
  Proof. apply (sol_edge nts _ _ _ LSf). Qed.

  Lemma la_from_follow x q i t :
    In x nts -> In (q, i) (lookback rules A x) -> FollowOf x t -> In (q, t, i) (la_triples rel).
  Proof.
    intros Hx Hlb (k & Hk & Hm). apply (proj2 (proj2 (la_closure rules [r0] tEND A))).
    destruct (index_of_nth _ pair_eqb_eq _ _ _ Hk) as (Hn & Hlt). exists k. split; auto. split; auto.
    simpl. now rewrite (nth_map_error _ nts k x [] Hn).
  Qed.

  Notation tm := (tmatch nat (fun k : nat => k)).
  Notation wf_forest := (wf_forest nat (fun k => k) rules).
  Notation root := (root nat (fun k => k)).
  Notation yield := (yield nat).
  (* the first token of what the rest of an item of state p derives can be read after any
     non-terminal transition into p.  (Lr1Merge_converse.derives_first followed by Lr1Merge_proofs.read_first_str
     says the same through FIRST; those files come after this one, so the induction is done here directly.) *)
  Lemma derives_first_read ss w : derives rules nat tm ss w ->
    forall b rest, w = b :: rest ->
    forall p i j, In (i, j) (closure_of A p) -> skipn j (rhs (rule_at i)) = ss ->
    forall x, In x nts -> trans A (fst x) (NT (snd x)) = Some p -> ReadOf x b.
  Proof.
    induction 1 as [| t k ss w Hm Hd IH | a r ss w1 w2 Hin Hl Hd1 IH1 Hd2 IH2];
      intros b rest E p i j Hit Hsk x Hx Htx; [discriminate| |];
      destruct (skipn_cons_inv _ _ _ _ Hsk) as (Hn & Hrest).
    - (* a terminal: directly read *)
      inversion E; subst k. unfold tmatch in Hm. apply Nat.eqb_eq in Hm. subst t.
      apply read_dr; auto. apply directly_reads_In. right. eauto.
    - assert (Hn' : next_sym (i, j) = Some (NT a)) by exact Hn.
      destruct w1 as [|b' w1']; simpl in E.
      + (* the non-terminal derives the empty string: continue after a nullable transition *)
        destruct (item_trans _ _ _ Hit Hn') as (p1 & Hp1).
        assert (Hy : In (p, a) nts) by (apply nts_In; eauto).
        apply (read_reads x (p, a)); auto.
        { apply reads_In. simpl. split; auto. split; eauto.
          rewrite <- Hl. apply (nullable_complete_nt rules nat tm), derives_rule; auto. }
        apply (IH2 b rest E p1 i (S j)); auto. eapply (item_advance HB ND); eauto.
      + (* the token is the first one of what the non-terminal derives: descend *)
        inversion E; subst b'. destruct (rule_index rules r Hin) as (i' & Hi' & Ei').
        apply (IH1 b w1' eq_refl p i' 0); auto.
        * eapply predicted; eauto. now rewrite Ei'.
        * simpl. now rewrite Ei'.
  Qed.

  Lemma item_along i pre : forall rest q0 q d,
    In (i, d) (closure_of A q0) -> skipn d (rhs (rule_at i)) = pre ++ rest ->
    goto_star q0 pre = Some q -> In (i, d + length pre) (closure_of A q).
  Proof.
    induction pre as [|s pre IH]; intros rest q0 q d Hit Hp Hg; simpl in *.
    - inversion Hg; subst. now rewrite Nat.add_0_r.
    - destruct (skipn_cons_inv _ _ _ _ Hp) as (Hnth & Hrest).
      destruct (trans A q0 s) as [q1|] eqn:Et; [|discriminate].
      rewrite <- Nat.add_succ_comm. apply (IH rest q1 q (S d)); auto.
      eapply (item_advance HB ND); eauto.
  Qed.

  Lemma item_after i pre X post q0 q :
    In (i, 0) (closure_of A q0) -> rhs (rule_at i) = pre ++ X :: post -> goto_star q0 pre = Some q ->
    In (i, length pre) (closure_of A q) /\ next_sym (i, length pre) = Some X.
  Proof.
    intros Hit Er Hg. split.
    - exact (item_along i pre (X :: post) q0 q 0 Hit Er Hg).
    - unfold Automaton.next_sym. simpl. rewrite Er. apply nth_error_middle.
  Qed.

  Lemma lookback_goto x i q2 :
    In (i, 0) (closure_of A (fst x)) -> lhs (rule_at i) = snd x ->
    goto_star (fst x) (rhs (rule_at i)) = Some q2 -> In (q2, i) (lookback rules A x).
  Proof.
    intros Hit Hl Hg. apply lookback_In. rewrite walk_snd, (start_items_In rules A). repeat split; auto.
    apply (item_along i (rhs (rule_at i)) [] (fst x) q2 0); auto. simpl. now rewrite app_nil_r.
  Qed.

  Lemma root_item0 : In (r0, 0) (closure_of A 0).
  Proof.
    rewrite (closure_of_kernel HB ND 0 [(r0, 0)]).
    - apply closure_kernel. now left.
    - now apply (root_kernel_at HB ND 0 r0).
  Qed.

  Lemma follow_root rootnt start : rule_at r0 = mkRule rootnt [NT start] -> FollowOf (0, start) tEND.
  Proof.
    intros Hr0. pose proof (root_next_sym rules _ _ _ Hr0) as Hn.
    apply follow_read, read_dr.
    - apply nts_In. exists (r0, 0). split; auto. apply root_item0.
    - apply directly_reads_In. left. split; auto. now apply is_root_trans_spec.
  Qed.

  (* la_complete, one level of a tree: the token that follows a child of a rule started at the
     non-terminal transition y is in Follow of the child's own transition *)
  Theorem la_complete_child y i pre c post q a cs :
    In y nts -> In (i, 0) (closure_of A (fst y)) -> lhs (rule_at i) = snd y ->
    rhs (rule_at i) = pre ++ NT c :: post -> goto_star (fst y) pre = Some q ->
    wf_forest cs -> map root cs = post ->
    FollowOf y a ->
    FollowOf (q, c) (hd a (flat_map yield cs)).
  Proof.
    intros Hy Hit Hl Er Hg Hw Hroots HF.
    destruct (item_after i pre (NT c) post (fst y) q Hit Er Hg) as (Hitq & Hn).
    assert (Hx : In (q, c) nts) by (apply nts_In; eauto).
    destruct (flat_map yield cs) as [|b rest] eqn:Ey; simpl.
    - apply (follow_includes (q, c) y); auto.
      apply includes_In. split; auto. exists i, pre, post. rewrite (start_items_In rules A). repeat split; auto.
      rewrite <- Hroots. apply (nullable_complete rules nat tm _ _ (forest_derives nat (fun k => k) rules cs Hw)). exact Ey.
    - apply follow_read.
      destruct (item_trans _ _ _ Hitq Hn) as (p & Hp).
      apply (derives_first_read _ _ (forest_derives nat (fun k => k) rules cs Hw) b rest Ey p i (S (length pre))); auto.
      + eapply (item_advance HB ND); eauto.
      + now rewrite Hroots, Er, skipn_middle.
  Qed.

  (* ... and the token that follows the whole rule is a look-ahead of its reduction *)
  Theorem la_complete_reduce y i qn a :
    In y nts -> In (i, 0) (closure_of A (fst y)) -> lhs (rule_at i) = snd y ->
    goto_star (fst y) (rhs (rule_at i)) = Some qn -> FollowOf y a ->
    In (qn, a, i) (la_triples rel).
  Proof.
    intros Hy Hit Hl Hg HF. apply (la_from_follow y); auto. now apply lookback_goto.
  Qed.
End Rel.

Arguments nts_In {rules fuel A r0} HB.
Arguments item_trans {rules fuel A r0} HB.
Arguments item_after {rules fuel A r0} HB.
Arguments item_along {rules fuel A r0} HB.
Arguments lookback_goto {rules fuel A r0} HB.
Arguments root_item0 {rules fuel A r0} HB.
Arguments follow_root {rules tEND fuel A r0} HB.
