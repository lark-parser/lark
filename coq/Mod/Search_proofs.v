(* C17 - proofs about the file search (Mod/Search.v) and the statement front (Mod/Front.v):
   which file a dotted path denotes, the search model against the by-dotted-path model, %declare,
   %ignore in imported modules. *)
From Coq Require Import List String Ascii Bool ZArith Arith Lia.
From LV Require Import Mod.Modules Mod.Modules_proofs Mod.Unpack Mod.Front Mod.Search.
Import ListNotations.
Local Open Scope string_scope.

Definition skips (e : env) (b : base) (gp : string) (c : candidate) : Prop := try_candidate e b gp c = Skip.

Lemma first_found_app e b gp l1 l2 :
  Forall (skips e b gp) l1 -> first_found e b gp (l1 ++ l2) = first_found e b gp l2.
Proof.
  induction l1 as [|x l1 IH]; simpl; intros H; auto.
  inversion H; subst. unfold skips in H2. rewrite H2. auto.
Qed.

Lemma first_found_skip e b gp cs : first_found e b gp cs = Skip <-> Forall (skips e b gp) cs.
Proof.
  induction cs as [|x cs IH]; simpl.
  - split; auto.
  - rewrite Forall_cons_iff, <- IH. unfold skips at 1.
    destruct (try_candidate e b gp x); intuition discriminate.
Qed.

Lemma first_found_decides e b gp cs a :
  a <> Skip ->
  (first_found e b gp cs = a <->
   exists l1 x l2, cs = (l1 ++ x :: l2)%list /\ Forall (skips e b gp) l1 /\ try_candidate e b gp x = a).
Proof.
  intros Ha. split.
  - induction cs as [|x cs IH]; simpl; [congruence|].
    destruct (try_candidate e b gp x) eqn:E.
    2:{ intros H. destruct (IH H) as (l1 & y & l2 & -> & Hs & Ht). exists (x :: l1), y, l2. repeat split; auto. }
    all: intros <-; exists [], x, cs; auto.
  - intros (l1 & x & l2 & -> & Hs & Ht). rewrite first_found_app by exact Hs. simpl. rewrite Ht.
    destruct a; congruence.
Qed.

(* which file a dotted path denotes: the first element of
   import_paths + [base_path] + [stdlib_loader] that has it *)
Theorem resolve_order e b p n c :
  resolve e b p = Ok (n, c) <->
  exists l1 x l2, to_try e b = (l1 ++ x :: l2)%list /\
    Forall (skips e b (grammar_path p)) l1 /\ try_candidate e b (grammar_path p) x = Found n c.
Proof.
  unfold resolve. cbv zeta. rewrite <- first_found_decides by discriminate.
  destruct (first_found e b (grammar_path p) (to_try e b)) eqn:E.
  - split; intros H; inversion H; subst; auto.
  - destruct (read_file e (grammar_path p)); split; discriminate.
  - split; discriminate.
Qed.

(* the module is not found (FileNotFoundError from open(grammar_path)) iff every attempt raised IOError
   and the file is not in the current directory either *)
Theorem resolve_not_found e b p :
  resolve e b p = Err ENoModule <->
  Forall (skips e b (grammar_path p)) (to_try e b) /\ read_file e (grammar_path p) = None.
Proof.
  unfold resolve. cbv zeta. rewrite <- first_found_skip.
  destruct (first_found e b (grammar_path p) (to_try e b)) eqn:E.
  - split; [discriminate|]. intros [H _]; discriminate.
  - destruct (read_file e (grammar_path p)); split; try discriminate; auto.
    intros [_ H]; discriminate.
  - split; [discriminate|]. intros [H _]; discriminate.
Qed.

(* a library import (%import a.b.c: base_path = None) never looks into the directory of the importing
   grammar: only import_paths, in order, then lark's bundled grammars *)
Theorem lib_import_candidates e : to_try e BNone = (map CSrc (e_paths e) ++ [CSrc (e_std e)])%list.
Proof. reflexivity. Qed.

(* a relative import (%import .a.b.c) looks into import_paths first as well, then into the directory of
   the importing grammar, then into the bundled grammars *)
Theorem rel_import_candidates e d :
  to_try e (BDir d) = (map CSrc (e_paths e) ++ [CBase (BDir d)] ++ [CSrc (e_std e)])%list.
Proof. reflexivity. Qed.

(* an import_paths directory that has the file shadows everything after it: later import paths, the
   directory of the importing grammar, the bundled grammars *)
Theorem import_path_shadows e b p l1 d l2 c :
  e_paths e = (l1 ++ SrcDir d :: l2)%list ->
  Forall (fun s => try_candidate e b (grammar_path p) (CSrc s) = Skip) l1 ->
  read_file e (path_join d (grammar_path p)) = Some c ->
  resolve e b p = Ok (GName (path_join d (grammar_path p)), c).
Proof.
  intros Hp Hs Hr. apply resolve_order.
  exists (map CSrc l1), (CSrc (SrcDir d)), (map CSrc l2 ++ (match b with BNone => [] | _ => [CBase b] end) ++ [CSrc (e_std e)])%list.
  split.
  - unfold to_try. rewrite Hp, map_app. simpl. now rewrite <- app_assoc.
  - split.
    + rewrite Forall_forall in *. intros x Hx. apply in_map_iff in Hx. destruct Hx as (s & <- & Hs'). now apply Hs.
    + simpl. unfold try_dir. now rewrite Hr.
Qed.

Theorem stdlib_is_last e b p n c :
  Forall (skips e b (grammar_path p)) (map CSrc (e_paths e) ++ (match b with BNone => [] | _ => [CBase b] end))%list ->
  try_candidate e b (grammar_path p) (CSrc (e_std e)) = Found n c ->
  resolve e b p = Ok (n, c).
Proof.
  intros Hs Ht. apply resolve_order.
  exists (map CSrc (e_paths e) ++ (match b with BNone => [] | _ => [CBase b] end))%list, (CSrc (e_std e)), [].
  split; [|split; auto]. unfold to_try. now rewrite app_assoc.
Qed.

Lemma map_result_cons {A B} (f : A -> result B) x r l :
  map_result f (x :: r) = Ok l -> exists y l', f x = Ok y /\ map_result f r = Ok l' /\ l = y :: l'.
Proof.
  simpl. destruct (f x) as [y|]; simpl; [|discriminate]. destruct (map_result f r) as [l'|]; simpl; [|discriminate].
  intros H; inversion H; subst. eauto.
Qed.

Definition proj_imp {B} (i : import_entry B) : list string * list (string * string) := (fst i, snd (snd i)).

Lemma add_import_b_proj {B} (beq : B -> B -> bool) p bs al : forall imps imps',
  add_import_b beq p bs al imps = Ok imps' ->
  map proj_imp imps' = add_import p al (map proj_imp imps).
Proof.
  induction imps as [|[q [b' al']] r IH]; simpl; intros imps' H.
  - inversion H; subst. reflexivity.
  - destruct (list_eqb p q).
    + destruct (beq bs b'); inversion H; subst. reflexivity.
    + destruct (add_import_b beq p bs al r) as [r'|] eqn:E; simpl in H; [|discriminate].
      inversion H; subst. simpl. unfold proj_imp at 1. simpl. f_equal. now apply IH.
Qed.

Lemma collect_imports_b_proj {B} (beq : B -> B -> bool) bo : forall rs ss acc imps,
  unpack_stmts rs = Ok ss ->
  fold_left (fun acc r =>
               imps <- acc ;;
               match r with
               | RImport rel path arg =>
                   match unpack_import path arg with
                   | None => Err ENothingImported
                   | Some (p, al) => add_import_b beq p (bo rel) al imps
                   end
               | _ => Ok imps
               end) rs (Ok acc) = Ok imps ->
  map proj_imp imps =
  fold_left (fun acc s => match s with SImport p al => add_import p al acc | _ => acc end) ss (map proj_imp acc).
Proof.
  induction rs as [|r rs IH]; intros ss acc imps Hu H.
  - inversion Hu; subst. simpl in *. now inversion H.
  - apply map_result_cons in Hu. destruct Hu as (s & ss' & Hs & Hss & ->).
    simpl in H. simpl.
    destruct r as [d|d|d|t|sy|rel path arg]; simpl in Hs;
      try (destruct (unpack_def d) as [d'|]; simpl in Hs; [|discriminate]);
      try (inversion Hs; subst s; simpl; eapply IH; eauto; fail).
    destruct (unpack_import path arg) as [[p al]|]; [|discriminate]. inversion Hs; subst s.
    destruct (add_import_b beq p (bo rel) al acc) as [acc'|e] eqn:E.
    + simpl. rewrite <- (add_import_b_proj _ _ _ _ _ _ E). eapply IH; eauto.
    + now rewrite fold_bind_err in H.
Qed.

Lemma collect_imports_b_spec {B} (beq : B -> B -> bool) bo rs ss imps :
  unpack_stmts rs = Ok ss -> collect_imports_b beq bo rs = Ok imps ->
  map proj_imp imps = collect_imports ss.
Proof. intros Hu H. exact (collect_imports_b_proj beq bo rs ss [] imps Hu H). Qed.

Lemma apply_raw_unpacked g ls r s b : unpack_stmt r = Ok s -> apply_raw g ls r b = apply_stmt g ls s b.
Proof.
  destruct r as [d|d|d|t|sy|rel path arg]; simpl;
    try (destruct (unpack_def d) as [d'|]; simpl; [|discriminate]);
    try (intros H; inversion H; subst; reflexivity).
  destruct (unpack_import path arg) as [[p al]|]; [|discriminate]. intros H; inversion H; subst. reflexivity.
Qed.

Lemma apply_raws_unpacked g ls : forall rs ss acc,
  unpack_stmts rs = Ok ss ->
  fold_left (fun acc r => b' <- acc ;; apply_raw g ls r b') rs acc =
  fold_left (fun acc s => b' <- acc ;; apply_stmt g ls s b') ss acc.
Proof.
  induction rs as [|r rs IH]; intros ss acc Hu.
  - inversion Hu; subst. reflexivity.
  - apply map_result_cons in Hu. destruct Hu as (s & ss' & Hs & Hss & ->). simpl.
    destruct acc as [b|e]; simpl.
    + rewrite (apply_raw_unpacked g ls r s b Hs). now apply IH.
    + now rewrite !fold_bind_err.
Qed.

(* loading through the search = loading from the table keyed by dotted path, whenever the table describes
   the file system along the imports (coherent): all theorems about Modules.load / do_import hold for the
   grammar the search finds *)
Theorem load_fs_is_load e fs g : forall fuel ls name rs ss b,
  coherent fuel e fs name rs -> unpack_stmts rs = Ok ss ->
  load_fs fuel e g ls name rs b = load fuel fs g ls ss b.
Proof.
  induction fuel as [|f IH]; intros ls name rs ss b Hc Hu; [reflexivity|].
  simpl in Hc. destruct Hc as (imps & ss0 & Hci & Hu0 & Hall).
  assert (ss0 = ss) by congruence. subst ss0.
  rewrite load_S. cbn [load_fs]. rewrite Hci. cbn [bind].
  rewrite <- (collect_imports_b_spec base_eqb (base_of e name) rs ss imps Hu Hci).
  apply bind_ext.
  2:{ intros b1. unfold apply_raws, apply_stmts. now rewrite (apply_raws_unpacked g ls rs ss _ Hu). }
  clear Hci. generalize (Ok b) as acc. induction imps as [|[p [bs al]] imps IHi]; intros acc; [reflexivity|].
  inversion Hall as [|x l Hx Hl]; subst. simpl.
  destruct acc as [b0|e0].
  - simpl in Hx. destruct Hx as (n & c & ss' & Hr & Huc & Hlk & Hco).
    cbn [bind]. rewrite Hr. cbn [bind fst snd].
    assert (Heq : do_import (fun next ls' _ => load_fs f e g ls' n c (fresh_builder next)) [(p, [])] ls b0 (p, al) =
                  do_import (fun next ls' ms => load f fs g ls' ms (fresh_builder next)) fs ls b0 (proj_imp (p, (bs, al)))).
    { unfold do_import, proj_imp. cbn [fst snd lookup_module]. rewrite list_eqb_refl, Hlk.
      rewrite (IH _ n c ss' _ Hco Huc). reflexivity. }
    rewrite Heq. apply IHi. exact Hl.
  - cbn [bind]. now rewrite !fold_bind_err.
Qed.

Theorem load_fs_and_validate_is_load e fs g fuel name rs ss :
  coherent fuel e fs name rs -> unpack_stmts rs = Ok ss ->
  load_fs_and_validate fuel e g name rs = load_and_validate fuel fs g ss.
Proof.
  intros Hc Hu. unfold load_fs_and_validate, load_and_validate. now rewrite (load_fs_is_load e fs g fuel [] name rs ss _ Hc Hu).
Qed.

(* %declare NAME defines a terminal without a body (tree None, options 1 from _check_options), allocates no
   tree object and touches nothing else; a rule name after %declare is an error *)
Theorem declare_is_bodyless_terminal g ls n b :
  defined (mangle ls n) (b_defs b) = false -> String.prefix "__" (mangle ls n) = false ->
  apply_stmt g ls (SDeclare [(true, n)]) b =
    Ok (mkB (b_defs b ++ [mkDef (mangle ls n) true None [] (OTerm 1)]) (b_ignore b) (b_heap b) (b_next b)).
Proof.
  intros Hd Hr. simpl. unfold define. cbn [d_name d_term d_tree d_params d_opts check_options].
  rewrite Hd, Hr. simpl. unfold with_defs. f_equal. f_equal.
  apply (set_def_undefined (mkDef (mangle ls n) true None [] (OTerm 1))). exact Hd.
Qed.

Theorem declare_rule_is_error g ls n rest b : apply_stmt g ls (SDeclare ((false, n) :: rest)) b = Err EDeclareRule.
Proof. simpl. induction rest as [|x r IH]; simpl; auto. Qed.

(* a declared terminal cannot be extended, and a terminal built from it is an error (assert in
   resolve_term_references) *)
Theorem declared_cannot_be_extended d l old :
  find_def (d_name d) l = Some old -> d_tree old = None ->
  d_term d = d_term old -> d_params d = d_params old ->
  extend d l = Err EExtAbstract.
Proof.
  intros Hf Ht Hk Hp. unfold extend. rewrite Hf, Hk, Hp, Ht.
  rewrite Bool.eqb_reflx, list_eqb_refl. reflexivity.
Qed.

(* %ignore of a terminal NAME (imported or local) adds its final name to the ignore list and no definition *)
Theorem ignore_named_terminal n b :
  ignore (Nd "expansions" [Nd "expansion" [Nd "value" [Sy true n]]]) b =
    mkB (b_defs b) (b_ignore b ++ [n]) (b_heap b) (b_next b).
Proof. reflexivity. Qed.

Theorem ignore_in_imported_module_is_skipped g l ls t b : apply_stmt g (l :: ls) (SIgnore t) b = Ok b.
Proof. reflexivity. Qed.

Lemma apply_stmt_ignore g ls s b b' : ls <> [] -> apply_stmt g ls s b = Ok b' -> b_ignore b' = b_ignore b.
Proof.
  intros Hls H. apply (apply_stmt_preserves (fun s => b_ignore s = b_ignore b) _ _ _ _ _ Hls) with (3 := H); auto.
  - intros o d b0 b1 H1 <-. apply define_stmt_spec in H1. destruct H1 as (_ & _ & _ & H1). exact H1.
  - intros d b0 b1 H1 <-. apply extend_stmt_spec in H1. apply H1.
Qed.

Lemma do_import_ignore loader fs ls b imp b' : do_import loader fs ls b imp = Ok b' -> b_ignore b' = b_ignore b.
Proof. intros H. apply do_import_spec in H. destruct H as (_ & _ & _ & _ & _ & _ & _ & _ & H & _). exact H. Qed.

Lemma imports_ignore loader fs ls imps b b1 :
  fold_left (fun acc imp => b' <- acc ;; do_import loader fs ls b' imp) imps (Ok b) = Ok b1 ->
  b_ignore b1 = b_ignore b.
Proof.
  intros H. apply (fold_bind_preserves _ (fun s => b_ignore s = b_ignore b) _) with (2 := H); auto.
  intros b0 a b3 _ Hi <-. exact (do_import_ignore _ _ _ _ _ _ Hi).
Qed.

Theorem imported_module_ignores_nothing fs g : forall fuel ls ms b b',
  ls <> [] -> load fuel fs g ls ms b = Ok b' -> b_ignore b' = b_ignore b.
Proof.
  intros fuel ls ms b b' Hls. destruct fuel as [|f]; [discriminate|]. intros H.
  destruct (load_ok _ _ _ _ _ _ _ H) as (b1 & b2 & h & E1 & E2 & _ & ->). cbn [b_ignore].
  rewrite <- (imports_ignore _ _ _ _ _ _ E1).
  apply (fold_bind_preserves _ (fun s => b_ignore s = b_ignore b1) _) with (2 := E2); auto.
  intros b0 a b3 _ Ha <-. exact (apply_stmt_ignore _ _ _ _ _ Hls Ha).
Qed.

Theorem top_level_ignore_is_local fs g fuel ms b b' :
  load fuel fs g [] ms b = Ok b' ->
  exists b1, b_ignore b1 = b_ignore b /\ exists b2, apply_stmts g [] ms b1 = Ok b2 /\ b_ignore b' = b_ignore b2.
Proof.
  destruct fuel as [|f]; [discriminate|]. intros H.
  destruct (load_ok _ _ _ _ _ _ _ H) as (b1 & b2 & h & E1 & E2 & _ & ->).
  exists b1. split; [exact (imports_ignore _ _ _ _ _ _ E1)|]. exists b2. auto.
Qed.

Lemma modifier_flag c (mods : option string) :
  (match mods with Some m => has_chr c m | None => false end) = true <->
  exists m, mods = Some m /\ has_chr c m = true.
Proof.
  destruct mods as [m|]; split.
  - eauto.
  - intros (m' & Hm & Hc). now inversion Hm; subst.
  - discriminate.
  - intros (m' & Hm & _). discriminate.
Qed.

Theorem make_rule_tuple_spec mods name params prio exp d :
  make_rule_tuple mods name params prio exp = Ok d ->
  d_name d = name /\ d_term d = false /\ d_tree d = Some exp /\ d_params d = params /\
  exists keep expand1,
    d_opts d = ORule keep expand1 prio (match params with [] => None | _ => Some name end) /\
    (keep = true <-> exists m, mods = Some m /\ has_chr "!" m = true) /\
    (expand1 = true <-> exists m, mods = Some m /\ has_chr "?" m = true) /\
    (expand1 = true -> String.prefix "_" name = false).
Proof.
  unfold make_rule_tuple. cbv zeta.
  destruct ((match mods with Some m => has_chr "?" m | None => false end) && String.prefix "_" name) eqn:E; [discriminate|].
  intros H; inversion H; subst; clear H. cbn [d_name d_term d_tree d_params d_opts]. repeat split; auto.
  eexists. eexists. split; [reflexivity|]. split; [apply modifier_flag|]. split; [apply modifier_flag|].
  intros He. rewrite He in E. exact E.
Qed.

Theorem inlined_rule_cannot_be_expand1 m name params prio exp :
  has_chr "?" m = true -> String.prefix "_" name = true ->
  make_rule_tuple (Some m) name params prio exp = Err EInlineExpand1.
Proof. intros H1 H2. unfold make_rule_tuple. cbv zeta. now rewrite H1, H2. Qed.
