(* C11 - Saved, cached and stand-alone parsers behave like the original.  Property theorems only: each is closed by
   [exact] of a lemma of Ser/Serialize_proofs.v about the model Ser/Serialize.v, whose field lists, namespaces,
   load-allowed options, option defaults, re-supply list and shift / reduce tags are regenerated from the lark
   source (Gen/SerializeFields.v). *)
From Coq Require Import ZArith List Bool String Ascii.
From LV Require Import Ser.NameRes Ser.NameRes_proofs Gen.StandaloneUnits Ser.NameResInstance Ser.NameResInstance_proofs.
From LV Require Import Ser.Value Gen.SerializeFields Ser.Serialize Ser.Relevant Ser.Serialize_proofs
  Ser.SerializeDec Ser.SerializeDec_proofs Ser.StandaloneModel Gen.Standalone Ser.Standalone_proofs.
Import ListNotations.
Local Open Scope string_scope.
Local Open Scope list_scope.

(* deserialize (serialize tbl) = tbl for every parse table whose reduce rules have unique memo keys: the token
   Enumerator is inverted exactly and the Shift / Reduce tags are preserved. *)
Theorem C11_table_roundtrip t :
  (forall a b, In a (map MRule (table_rules t)) -> In b (map MRule (table_rules t)) -> mentry_keyeqb a b = true -> a = b) ->
  exists v m, ser_table t [] = Some (v, m) /\ deser_table (tbl_of m) v = Some t.
Proof. exact (table_roundtrip t). Qed.
Print Assumptions C11_table_roundtrip.

(* the Enumerator is a bijection on the tokens that occur: no token gets two numbers *)
Theorem C11_token_numbering_injective t m d tk m' i j x :
  ser_states (t_states t) [] m = Some ((d, tk), m') ->
  nth_error tk i = Some x -> nth_error tk j = Some x -> i = j.
Proof. exact (token_numbering_injective t m d tk m' i j x). Qed.
Print Assumptions C11_token_numbering_injective.

(* SerializeMemoizer: the serialised memo deserialises to the table that maps every number to the object it was
   handed out for *)
Theorem C11_memo_roundtrip m mj :
  Forall mentry_ok m -> ser_memo m = Some mj ->
  exists d, mj = VDict d /\ deser_memo d = Some (tbl_of m) /\
            forall n, tbl_get (Z.of_nat n) (tbl_of m) = nth_error m n.
Proof. exact (memo_roundtrip m mj). Qed.
Print Assumptions C11_memo_roundtrip.

(* every attribute in the declared Relevant lists is in the regenerated __serialize_fields__ of its class, or
   recomputed by a _deserialize hook, or assigned by the code that runs on load (finite check over the regenerated
   lists) *)
Theorem C11_fields_restored cls f fs :
  In (cls, fs) Relevant -> In f fs -> restored_by cls f = true.
Proof. exact (fields_restored cls f fs). Qed.
Print Assumptions C11_fields_restored.

(* _LOAD_ALLOWED_OPTIONS is exactly the complement of the construction-time options among LarkOptions._defaults *)
Theorem C11_options_partition k :
  In k (map fst option_defaults) ->
  (In k load_allowed_options /\ ~ In k construction_options) \/ (~ In k load_allowed_options /\ In k construction_options).
Proof. exact (options_partition k). Qed.
Print Assumptions C11_options_partition.

(* the general statement: saving a directly built instance (with any set of excluded options) and loading it with
   any keyword arguments either refuses the arguments or yields exactly the instance a direct construction with
   the merged options produces *)
Theorem C11_load_save g O i excl kw :
  build g O = Some i -> wf_inst i ->
  exists dm, save i excl = Some dm /\
    load dm kw = if kw_rejected kw then None
                 else obind (lark_options_init (aupdate (drop_options excl O) kw)) (build g).
Proof. exact (load_save g O i excl kw). Qed.
Print Assumptions C11_load_save.

(* Lark.load(Lark.save(i)): any behaviour function of the configuration gives the same answer *)
Theorem C11_saveload {B : Type} (beh : lark_inst -> B) g O i :
  build g O = Some i -> wf_inst i -> normalized O ->
  exists dm i', save i [] = Some dm /\ load dm [] = Some i' /\ beh i' = beh i.
Proof.
  intros Hb Hwf HO. destruct (saveload_roundtrip g O i Hb Hwf HO) as (dm & Hs & Hl).
  exists dm, i. repeat split; assumption.
Qed.
Print Assumptions C11_saveload.

(* Lark(..., cache=path), second construction: the file was written without the load-allowed options, which are
   re-supplied from the caller's keyword arguments *)
Theorem C11_cache {B : Type} (beh : lark_inst -> B) g O i kw :
  build g O = Some i -> wf_inst i -> normalized O -> NoDup (map fst kw) -> allowed_only kw ->
  (forall k d, In (k, d) option_defaults -> In k load_allowed_options ->
               norm_option (match aget k kw with Some v => [(k, v)] | None => [] end) (k, d) = norm_option O (k, d)) ->
  exists dm i', save i load_allowed_options = Some dm /\ load dm kw = Some i' /\ beh i' = beh i.
Proof.
  intros Hb Hwf HO Hnd Hkw Hag. destruct (cache_roundtrip g O i kw Hb Hwf HO Hnd Hkw Hag) as (dm & Hs & Hl).
  exists dm, i. repeat split; assumption.
Qed.
Print Assumptions C11_cache.

(* load-allowed keyword arguments given at load time act as if given to a direct construction *)
Theorem C11_load_override g O i kw :
  build g O = Some i -> wf_inst i -> allowed_only kw ->
  exists dm, save i [] = Some dm /\ load dm kw = obind (lark_options_init (aupdate O kw)) (build g).
Proof. exact (load_override g O i kw). Qed.
Print Assumptions C11_load_override.

(* construction-time options are refused at load time *)
Theorem C11_load_rejects g O i k v kw :
  build g O = Some i -> wf_inst i -> In k construction_options ->
  exists dm, save i [] = Some dm /\ load dm ((k, v) :: kw) = None.
Proof. exact (load_rejects g O i k v kw). Qed.
Print Assumptions C11_load_rejects.

(* stand-alone module, the part that is modelled: for every literal codec (print / Python parser, or pickle + zlib +
   base64) the embedded DATA / MEMO rebuild the instance and the rebinding Shift = 0, Reduce = 1 keeps the two
   actions distinct.  The extraction of the ###{standalone sections is not modelled (differential check only). *)
Theorem C11_standalone_partial (encode : value -> string) (decode : string -> option value) :
  (forall v, decode (encode v) = Some v) ->
  forall g O i kw, build g O = Some i -> wf_inst i -> allowed_only kw ->
  exists data mj, memo_serialize i = Some (data, mj) /\
    standalone_load decode (encode data) (encode mj) kw = obind (lark_options_init (aupdate O kw)) (build g) /\
    standalone_shift <> standalone_reduce.
Proof. exact (standalone_roundtrip encode decode). Qed.
Print Assumptions C11_standalone_partial.
(* the full statement, with [gen] = tools.standalone.gen_standalone (module text of an instance) and [run] =
   "execute the module text and call Lark_StandAlone with the keyword arguments" *)
Definition C11_standalone_full_statement (gen : lark_inst -> string) (run : string -> options -> option lark_inst) : Prop :=
  forall g O i kw, build g O = Some i -> wf_inst i -> allowed_only kw ->
  run (gen i) kw = obind (lark_options_init (aupdate O kw)) (build g).

(* the boolean check the harness evaluates on every exported instance implies the hypothesis of the theorems *)
Theorem C11_wf_check_sound i : wf_inst_b i = true -> wf_inst i.
Proof. exact (wf_inst_b_sound i). Qed.
Print Assumptions C11_wf_check_sound.

(* ---- stand-alone clause, program part.  The ###{standalone sections are re-extracted on every run with the tool's
   own extract_sections / strip_docstrings (Gen/Standalone.v). *)
(* same definitions => same runs, for any evaluator whose result depends only on the definitions reachable from the
   entry point through global-name references (the one trusted hypothesis about Python) *)
Theorem C11_standalone_same_program (D V : Type) (refs : D -> list string) (run : (string -> option D) -> string -> V) :
  (forall p q entry, (forall n, reachable D refs p entry n -> p n = q n) -> run p entry = run q entry) ->
  forall (lib sa : string -> option D) cl entry,
  closure_ok_b (fun m => option_map refs (sa m)) cl entry = true ->
  (forall n, In n cl -> sa n = lib n) ->
  run sa entry = run lib entry.
Proof. exact (same_program D V refs run). Qed.
Print Assumptions C11_standalone_same_program.

(* the same for the regenerated program: a generated module whose definitions have the library's normalised-AST
   hash and references on the closure of Lark_StandAlone runs as the library's definitions do *)
Theorem C11_standalone_generated_module (V : Type) (run : (string -> option (string * list string)) -> string -> V) :
  (forall p q entry, (forall n, reachable _ snd p entry n -> p n = q n) -> run p entry = run q entry) ->
  forall gen,
  (forall n, In n (closure 12 sa_program [sa_entry]) -> as_prog gen n = as_prog sa_program n) ->
  run (as_prog gen) sa_entry = run (as_prog sa_program) sa_entry.
Proof.
  intros Hloc gen Hag.
  apply (generated_module_same_runs V run Hloc sa_program gen (closure 12 sa_program [sa_entry]) sa_entry); [|exact Hag].
  vm_compute. reflexivity.
Qed.
Print Assumptions C11_standalone_generated_module.

(* closed program: every global name an extracted definition mentions is bound by the module, is a builtin, or is one
   of the declared construction / serialisation-only names; a helper left outside the markers breaks this Example *)
Example C11_standalone_closed : closed_program sa_builtins declared_unprovided sa_program = true.
Proof. vm_compute. reflexivity. Qed.
Print Assumptions C11_standalone_closed.
Theorem C11_standalone_closed_spec d r :
  In d sa_program -> In r (s_refs d) -> In r (provided sa_program) \/ In r sa_builtins \/ In r declared_unprovided.
Proof. exact (closed_program_spec sa_builtins declared_unprovided sa_program C11_standalone_closed d r). Qed.
Print Assumptions C11_standalone_closed_spec.

(* import-time order: base classes, decorators, defaults and module-level expressions only use names bound earlier *)
Example C11_standalone_ordered : ordered_program sa_builtins sa_program = true.
Proof. vm_compute. reflexivity. Qed.
Print Assumptions C11_standalone_ordered.
Theorem C11_standalone_ordered_spec pre d post x :
  sa_program = pre ++ d :: post -> In x (s_eager d) -> In x sa_builtins \/ In x (provided pre).
Proof. intros E. exact (ordered_program_spec sa_builtins sa_program C11_standalone_ordered pre d post E x). Qed.
Print Assumptions C11_standalone_ordered_spec.

(* ---- stand-alone clause, name resolution (round 12).  The generated module as a list of statements cut into code units
   (Gen/StandaloneUnits.v: per unit the global names it loads, in which position, attribute names it uses ...), executed
   by the small-step machine of Ser/NameRes.v: statements bind names in order, a unit's global names are looked up when it
   runs, control flow inside a unit is "anything, any number of times"; the last statement is the client, which may call
   Lark_StandAlone, use every public name of lark's __all__ and every public attribute except the unsupported ones. *)
(* the decidable check implies that no run of the machine raises NameError, for any program and any certificates *)
Theorem C11_standalone_name_resolution_sound P Bi flags data NR ancT descT pc :
  run_check_with P Bi flags data NR ancT descT pc [] [] [] P = true ->
  forall s, steps P Bi flags data NR ancT descT (initial P) s -> forall u n, s <> NameErr u n.
Proof. exact (no_name_error P Bi flags data NR ancT descT pc). Qed.
Print Assumptions C11_standalone_name_resolution_sound.
(* the regenerated program passes the check (vm_compute in Ser/NameResInstance_proofs.v): importing the generated module
   and then doing anything the client statement allows never looks up an unbound global name.  No name is tolerated
   any more; what is declared instead: create_lalr_parser never runs (sa_not_run), five library methods are not part
   of the stand-alone API (sa_unsupported_attrs), DATA has no 'grammar' key (sa_data) *)
Theorem C11_standalone_no_name_error s : sa_steps (initial sa_full) s -> forall u n, s <> NameErr u n.
Proof. exact (sa_no_name_error s). Qed.
Print Assumptions C11_standalone_no_name_error.
(* whatever the client does, only the units of sa_reached run: the harness checks every function the real generated
   module calls in its runs against this list, and that none of the unreached ones (Lark.__init__, the serialiser ...) runs *)
Theorem C11_standalone_client_runs_reached b F K todo stack :
  sa_steps (initial sa_full) (Run b F K todo stack (Some sa_client)) -> forall k, In k stack -> In k sa_reached.
Proof. exact (sa_client_runs_reached b F K todo stack). Qed.
Print Assumptions C11_standalone_client_runs_reached.
(* the hypothesis "DATA has no 'grammar' key" is necessary: with the DATA that gen_standalone embedded for an instance
   built with cache_grammar=True (before repair F53) the machine has a run to NameError - replayed on the code *)
Theorem C11_standalone_cache_grammar_refuted :
  has_data_grammar_load = true ->
  steps sa_full sau_builtins sau_flags sa_data_cg sa_not_run sa_anc sa_desc (initial sa_full) (NameErr "Lark._load" "Grammar").
Proof. exact sa_cache_grammar_name_error. Qed.
Print Assumptions C11_standalone_cache_grammar_refuted.
Example C11_standalone_units_example :
  (has_data_grammar_load && mem "Lark._load" sa_reached && mem "ParserState.feed_token" sa_reached &&
   mem "Lark.__init__" sa_unreached && mem "Serialize.serialize" sa_unreached && keys_unique sa_full) = true.
Proof. apply andb_true_intro. split; [vm_compute; reflexivity | exact (proj2 (proj2 (proj2 sa_tables_ok)))]. Qed.
Print Assumptions C11_standalone_units_example.

(* regression for the defect this development found (flags came back as a list; repaired by Pattern._deserialize):
   without re-freezing, the flag test of lexer._create_unless changes its answer; with it, it never does *)
Theorem C11_flags_list_changes_unless_test :
  exists a b, flags_le (FSet a) (FSet b) = Some false /\
              flags_le (flags_as_list (FSet a)) (flags_as_list (FSet b)) = Some true.
Proof. exact flags_list_changes_unless_test. Qed.
Print Assumptions C11_flags_list_changes_unless_test.
Theorem C11_flags_test_preserved a b fa fb :
  flags_ok a -> flags_ok b -> deser_flags (ser_flags a) = Some fa -> deser_flags (ser_flags b) = Some fb ->
  flags_le fa fb = flags_le a b.
Proof. exact (flags_le_preserved a b fa fb). Qed.
Print Assumptions C11_flags_test_preserved.

(* Non-vacuity: a concrete instance (two terminals, one of them a case-insensitive string next to a flagged
   regexp - the shape of the defect above -, two rules, a table with shift and reduce actions) meets every
   hypothesis, and the cache-path hypotheses hold for keyword arguments that change two load-allowed options. *)
Definition ex_A := mkTD "A" (PatStr "abc" (FSet ["i"]) (Some """abc""i")) 0.
Definition ex_B := mkTD "B" (PatRE "[a-z]+" (FSet ["s"]) (Some "/[a-z]+/s") (WList 1 4294967295)) 0.
Definition ex_r0 := mkRule (NT "start") [T "A" false; NT "start"] 0 None (mkRO false false None None []).
Definition ex_r1 := mkRule (NT "start") [T "B" false] 1 (Some "b") (mkRO false true (Some 2%Z) None [false]).
Definition ex_table := mkTable [(0%Z, [("A", Shift 1); ("B", Shift 2); ("start", Shift 3)]);
                                (1%Z, [("A", Shift 1); ("B", Shift 2); ("start", Shift 4)]);
                                (2%Z, [("$END", Reduce ex_r1)]); (3%Z, []); (4%Z, [("$END", Reduce ex_r0)])]
                               [("start", 0%Z)] [("start", 3%Z)].
Definition ex_g := mkG [ex_A; ex_B] [] "contextual" [ex_r0; ex_r1] ["start"] "lalr" ex_table.
Definition ex_kw : options := [("propagate_positions", VBool true); ("g_regex_flags", VInt 2)].
Definition ex_O : options :=
  match lark_options_init (ex_kw ++ [("parser", VStr "lalr"); ("lexer", VStr "contextual"); ("start", VStr "start")]) with
  | Some o => o | None => [] end.
Definition ex_i : lark_inst := match build ex_g ex_O with Some i => i | None => mkLark (mkFE (mkLC [] [] 0 false "" VNone false VNone) (mkPC [] [] "") (mkTable [] [] [])) [] [] end.

Example C11_example :
  build ex_g ex_O = Some ex_i /\ wf_inst ex_i /\ normalized ex_O /\ NoDup (map fst ex_kw) /\ allowed_only ex_kw /\
  (forall k d, In (k, d) option_defaults -> In k load_allowed_options ->
     norm_option (match aget k ex_kw with Some v => [(k, v)] | None => [] end) (k, d) = norm_option ex_O (k, d)) /\
  (exists dm, save ex_i load_allowed_options = Some dm /\ load dm ex_kw = Some ex_i /\
              load dm [] <> Some ex_i /\ load dm [("keep_all_tokens", VBool true)] = None).
Proof.
  split; [reflexivity|]. split; [|split; [reflexivity|]].
  - apply wf_inst_b_sound. vm_compute. reflexivity.
  - split; [repeat constructor; cbn; intuition discriminate|].
    split; [intros k Hk; cbn in Hk; cbn; intuition|].
    split.
    + (* one case per entry of option_defaults: both sides compute to the same pair, or the key is not load-allowed *)
      intros k d Hin Hk. cbn in Hin.
      repeat (destruct Hin as [Hin|Hin];
              [injection Hin as <- <-; first [reflexivity | exfalso; cbn in Hk; intuition discriminate]|]).
      contradiction.
    + eexists. split; [vm_compute; reflexivity|]. split; [vm_compute; reflexivity|].
      split; [vm_compute; discriminate|vm_compute; reflexivity].
Qed.
Print Assumptions C11_example.
