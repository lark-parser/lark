(* Distribution of groups + flattening + removal of duplicate alternatives preserves the language: a word is
   denoted by the rule body (sequences = concatenation, groups = union, symbols = what the grammar derives from
   them) iff some flat alternative derives it; the flat alternatives are pairwise distinct. *)
From Coq Require Import List Arith Bool Lia.
From LV Require Import Cfg.Grammar Cfg.Analysis_proofs Cfg.AnalysisDistribute.
Import ListNotations.

Lemma alt_eqb_spec a b : alt_eqb a b = true <-> a = b.
Proof. revert a b. apply symbols_eqb_spec. intros [|x a] [|y b]; reflexivity. Qed.

Lemma alt_mem_In a acc : existsb (alt_eqb a) acc = true <-> In a acc.
Proof. apply existsb_eqb_In, alt_eqb_spec. Qed.

Lemma add_alt_In acc a x : In x (add_alt acc a) <-> In x acc \/ x = a.
Proof.
  unfold add_alt. destruct (existsb (alt_eqb a) acc) eqn:E.
  - apply alt_mem_In in E. split; auto. intros [?| ->]; auto.
  - rewrite in_app_iff. simpl. intuition.
Qed.

Lemma add_alt_nodup acc a : NoDup acc -> NoDup (add_alt acc a).
Proof.
  unfold add_alt. destruct (existsb (alt_eqb a) acc) eqn:E; auto. intros ND.
  apply NoDup_snoc; auto. rewrite <- alt_mem_In. congruence.
Qed.

Lemma dedup_spec l : (forall x, In x (dedup l) <-> In x l) /\ NoDup (dedup l).
Proof.
  unfold dedup.
  assert (H : forall l acc, (forall x, In x (fold_left add_alt l acc) <-> In x acc \/ In x l) /\
                            (NoDup acc -> NoDup (fold_left add_alt l acc))).
  { induction l0 as [|a l0 IH]; intros acc; simpl.
    - split; [intros x; tauto|auto].
    - destruct (IH (add_alt acc a)) as [I1 I2]. split.
      + intros x. rewrite I1, add_alt_In. split; [intros [[?|?]|?]|intros [?|[?|?]]]; auto.
      + intros ND. apply I2, add_alt_nodup; auto. }
  destruct (H l []) as [H1 H2]. split; [|apply H2; constructor].
  intros x. rewrite H1. simpl. tauto.
Qed.

Lemma In_cross A B c : In c (cross A B) <-> exists a b, In a A /\ In b B /\ c = a ++ b.
Proof.
  unfold cross. rewrite in_flat_map. split.
  - intros (a & Ha & Hc). apply in_map_iff in Hc. destruct Hc as (b & <- & Hb). eauto.
  - intros (a & b & Ha & Hb & ->). exists a. split; auto. apply in_map; auto.
Qed.

Fixpoint gexp_ind' (P : gexp -> Prop) (Hs : forall s, P (GSym s))
         (Hq : forall l, Forall P l -> P (GSeq l)) (Ha : forall l, Forall P l -> P (GAlt l)) (e : gexp) : P e :=
  let all := fix all (l : list gexp) : Forall P l :=
               match l with
               | [] => Forall_nil P
               | x :: r => Forall_cons x (gexp_ind' P Hs Hq Ha x) (all r)
               end in
  match e with
  | GSym s => Hs s
  | GSeq l => Hq l (all l)
  | GAlt l => Ha l (all l)
  end.

Section Den.
  Variable G : grammar.
  Variable tok : Type.
  Variable tmatch : nat -> tok -> bool.
  Notation derives := (derives G tok tmatch).

  Fixpoint seqden (ds : list (list tok -> Prop)) (w : list tok) : Prop :=
    match ds with
    | [] => w = []
    | d :: r => exists u v, w = u ++ v /\ d u /\ seqden r v
    end.

  Fixpoint den (e : gexp) : list tok -> Prop :=
    match e with
    | GSym s => fun w => derives [s] w
    | GSeq l => seqden (map den l)
    | GAlt l => fun w => Exists (fun d => d w) (map den l)
    end.

  Lemma derives_nil_inv w : derives [] w -> w = [].
  Proof. inversion 1; auto. Qed.

  Theorem flat_den e : forall w, den e w <-> exists a, In a (flat e) /\ derives a w.
  Proof.
    induction e as [s|l IH|l IH] using gexp_ind'; intros w; cbn [den flat].
    - split.
      + intros H. exists [s]. split; [left; auto|auto].
      + intros (a & [<- |[]] & H). auto.
    - destruct (dedup_spec (fold_right (fun x acc => cross (flat x) acc) [[]] l)) as [D _].
      assert (H : forall w, seqden (map den l) w <->
                 exists a, In a (fold_right (fun x acc => cross (flat x) acc) [[]] l) /\ derives a w).
      { clear D. induction IH as [|x r Hx Hr IHr]; intros w0; simpl.
        - split.
          + intros ->. exists []. split; [left; auto|constructor].
          + intros (a & [<- |[]] & H). apply derives_nil_inv; auto.
        - split.
          + intros (u & v & -> & Hu & Hv). apply Hx in Hu. apply IHr in Hv.
            destruct Hu as (a & Ha & Da). destruct Hv as (b & Hb & Db).
            exists (a ++ b). split; [apply In_cross; eauto|apply derives_app; auto].
          + intros (c & Hc & Dc). apply In_cross in Hc. destruct Hc as (a & b & Ha & Hb & ->).
            apply derives_split in Dc. destruct Dc as (u & v & -> & Du & Dv).
            exists u, v. split; auto. split; [apply Hx; eauto|apply IHr; eauto]. }
      rewrite H. split; intros (a & Ha & Da); exists a; split; auto; apply D; auto.
    - destruct (dedup_spec (flat_map flat l)) as [D _].
      assert (H : Exists (fun d => d w) (map den l) <-> exists a, In a (flat_map flat l) /\ derives a w).
      { clear D. induction IH as [|x r Hx Hr IHr]; simpl.
        - split; [intros H; inversion H|intros (a & [] & _)].
        - rewrite Exists_cons, IHr, Hx. split.
          + intros [(a & Ha & Da)|(a & Ha & Da)]; exists a; split; auto; apply in_or_app; auto.
          + intros (a & Ha & Da). apply in_app_or in Ha. destruct Ha; [left|right]; eauto. }
      rewrite H. split; intros (a & Ha & Da); exists a; split; auto; apply D; auto.
  Qed.
End Den.

Theorem flat_nodup e : NoDup (flat e).
Proof.
  destruct e; cbn [flat].
  - repeat constructor. intros [].
  - apply dedup_spec.
  - apply dedup_spec.
Qed.
