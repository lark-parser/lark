(* chain_spec: the callback lark composes for a rule (Chain.v) equals the documented shaping
   of one rule application (Spec.v), for every rule record and every children list of the
   rule's arity. *)
From Coq Require Import String Ascii List Bool Arith Lia.
From LV Require Import Base.Prelude Shape.Chain Shape.Spec.
Import ListNotations.

Lemma skipn_hd {A} (d : A) i l x r : skipn i l = x :: r -> nth i l d = x /\ skipn (S i) l = r.
Proof.
  revert l; induction i as [|i IH]; intros l H.
  - simpl in H. subst. auto.
  - destruct l as [|y l]; [discriminate|]. simpl in H. apply IH in H. simpl. exact H.
Qed.

Lemma nth_repeat0 j k : nth j (repeat 0 k) 0 = 0.
Proof. revert j; induction k; intros [|j]; simpl; auto. Qed.

Lemma Forall_mp {A} (P Q : A -> Prop) l : Forall (fun x => P x -> Q x) l -> Forall P l -> Forall Q l.
Proof. induction 1; inversion 1; auto. Qed.

Lemma flat_map_map_ext {A B C} (f : B -> list C) (g : A -> B) (h : A -> list C) l :
  Forall (fun x => f (g x) = h x) l -> flat_map f (map g l) = flat_map h l.
Proof. induction 1 as [|x l Hx _ IH]; simpl; congruence. Qed.

Lemma forall2b_Forall2 {A B} (f : A -> B -> bool) a b :
  forall2b f a b = true -> Forall2 (fun x y => f x y = true) a b.
Proof.
  revert b; induction a as [|x a IH]; intros [|y b]; simpl; intros H; try discriminate; constructor;
    apply andb_true_iff in H; [|apply IH]; apply H.
Qed.

Lemma Forall2_len {A B} (R : A -> B -> Prop) a b : Forall2 R a b -> length a = length b.
Proof. induction 1; simpl; auto. Qed.

Lemma forall2b_length {A B} (f : A -> B -> bool) a b : forall2b f a b = true -> length a = length b.
Proof. intros H. exact (Forall2_len _ _ _ (forall2b_Forall2 _ _ _ H)). Qed.

Lemma all_some_length {A} (l : list (option A)) vs : all_some l = Some vs -> length vs = length l.
Proof.
  revert vs; induction l as [|[a|] l IH]; simpl; intros vs H; try discriminate.
  - injection H as <-. auto.
  - destruct (all_some l); try discriminate. injection H as <-. simpl. f_equal. auto.
Qed.

Lemma all_some_app {A} (a b : list (option A)) : all_some (a ++ b) = lift_app (all_some a) (all_some b).
Proof.
  induction a as [|[x|] a IH]; simpl.
  - destruct (all_some b); reflexivity.
  - rewrite IH. destruct (all_some a), (all_some b); reflexivity.
  - reflexivity.
Qed.

Lemma all_some_option_map {A B} (g : A -> B) l :
  all_some (map (option_map g) l) = option_map (map g) (all_some l).
Proof. induction l as [|[a|] l IH]; simpl; auto. rewrite IH. destruct (all_some l); reflexivity. Qed.

Lemma all_some_Forall2 {A B} (f : A -> option B) (Q : A -> B -> Prop) l :
  Forall (fun c => exists v, f c = Some v /\ Q c v) l ->
  exists vs, all_some (map f l) = Some vs /\ Forall2 Q l vs.
Proof.
  induction 1 as [|c l (v & Hc & Hv) _ (vs & IH & HF)]; simpl; [eauto|]. rewrite Hc, IH. eauto.
Qed.

Lemma Forall2_comp {A B C} (R : A -> B -> Prop) (S : B -> C -> Prop) (T : A -> C -> Prop) :
  (forall x y z, R x y -> S y z -> T x z) ->
  forall a b c, Forall2 R a b -> Forall2 S b c -> Forall2 T a c.
Proof. intros H a b c HR; revert c; induction HR; inversion 1; subst; eauto. Qed.

Lemma split0_lead c k m : split0 c (repeat true k ++ m) = split0 (c + k) m.
Proof.
  revert c; induction k as [|k IH]; intros c; simpl.
  - f_equal; lia.
  - rewrite IH. f_equal; lia.
Qed.

Lemma split0_trues c k : split0 c (repeat true k) = [c + k].
Proof. rewrite <- (app_nil_r (repeat true k)). apply split0_lead. Qed.

Lemma split0_repeat_false n : split0 0 (repeat false n) = repeat 0 (n + 1).
Proof. induction n; simpl; auto. f_equal; auto. Qed.

Lemma split0_length c m : length (split0 c m) = count_false m + 1.
Proof. revert c; induction m as [|[|] m IH]; intros c; simpl; auto. Qed.

Lemma count_false_decomp m n :
  count_false m = S n -> exists k m', m = repeat true k ++ false :: m' /\ count_false m' = n.
Proof.
  induction m as [|[|] m IH]; simpl; intros H; try discriminate.
  - destruct (IH H) as (k & m' & -> & Hc). exists (S k), m'. auto.
  - exists 0, m. simpl. split; auto; lia.
Qed.

Lemma count_false_zero m : count_false m = 0 -> m = repeat true (length m).
Proof. induction m as [|[|] m IH]; simpl; intros H; try discriminate; auto. f_equal; auto. Qed.

Lemma count_false_repeat_false n : count_false (repeat false n) = n.
Proof. induction n; simpl; auto. Qed.

(* the loop's test `keep_all_tokens or not (sym.is_term and sym.filter_out)` *)
Lemma kept_eq ka s : ka || negb (s_term s && s_filter s) = kept ka s.
Proof. unfold kept. destruct (s_term s), ka; reflexivity. Qed.

Section Proofs.
  Variable X : Type.
  Variable none : X.
  Variable kids : X -> option (list X).

  Notation run_cf := (run_cf X none kids).
  Notation run_cflalr := (run_cflalr X none kids).
  Notation run_cfnoph := (run_cfnoph X kids).
  Notation run_filter := (run_filter X none kids).
  Notation spec_walk := (spec_walk X none kids).
  Notation contrib := (contrib X kids).

  (* the "optimised" LALR filters compute the same list as the copying filter *)
  Lemma run_cflalr_eq ti ch f : run_cflalr ti ch f = run_cf ti ch f.
  Proof.
    revert f; induction ti as [|[[i e] a] ti IH]; intros f; simpl; auto.
    destruct (nth_error ch i); auto. destruct e; auto.
    destruct (kids x); auto. rewrite IH. f_equal.
    destruct (f ++ repeat none a); auto.
  Qed.

  Lemma run_cfnoph_eq ti ch f :
    Forall (fun t => snd t = 0) ti ->
    run_cfnoph (map (fun t => (fst (fst t), snd (fst t))) ti) ch f = run_cf ti ch f.
  Proof.
    intros H; revert f; induction H as [|[[i e] a] ti Ha _ IH]; intros f; simpl; auto.
    simpl in Ha. subst a. simpl. rewrite app_nil_r.
    destruct (nth_error ch i); auto. destruct e; auto.
    destruct (kids x); auto. rewrite IH. f_equal. destruct f; auto.
  Qed.

  Lemma run_cfnoph_cf ti ch f : run_cfnoph ti ch f = run_cf (map (fun t => (t, 0)) ti) ch f.
  Proof.
    rewrite <- run_cfnoph_eq by (apply Forall_map, Forall_forall; reflexivity).
    rewrite map_map, (map_ext _ (fun t => t)), map_id; [reflexivity|]. intros [i e]. reflexivity.
  Qed.

  (* the three child filters are one loop: to_include and the number of trailing Nones *)
  Definition filter_items (f : cfilter) : list (nat * bool * nat) * nat :=
    match f with
    | CF ti app | CFLALR ti app => (ti, app)
    | CFNoPH ti => (map (fun t => (t, 0)) ti, 0)
    end.

  Lemma run_filter_cf f ch :
    run_filter f ch =
    option_map (fun l => l ++ repeat none (snd (filter_items f))) (run_cf (fst (filter_items f)) ch []).
  Proof.
    destruct f as [ti app|ti app|ti]; cbn [Chain.run_filter filter_items fst snd]; [reflexivity|rewrite run_cflalr_eq; reflexivity|].
    rewrite run_cfnoph_cf. destruct (run_cf _ ch []); cbn [option_map repeat]; [rewrite app_nil_r|]; reflexivity.
  Qed.

  Lemma run_cf_cons i e a ti ch f c : nth_error ch i = Some c ->
    run_cf ((i, e, a) :: ti) ch f
    = match (if e then kids c else Some [c]) with
      | Some k => run_cf ti ch ((f ++ repeat none a) ++ k)
      | None => None
      end.
  Proof. intros H. simpl. rewrite H. destruct e; reflexivity. Qed.

  Lemma spec_walk_lead ka k m exp ch :
    spec_walk ka (repeat true k ++ m) exp ch
    = lift_app (Some (repeat none k)) (spec_walk ka m exp ch).
  Proof.
    induction k as [|k IH]; simpl.
    - destruct (spec_walk ka m exp ch); auto.
    - rewrite IH. destruct (spec_walk ka m exp ch); auto.
  Qed.

  Lemma spec_walk_trues ka k exp ch : spec_walk ka (repeat true k) exp ch = Some (repeat none k).
  Proof. rewrite <- (app_nil_r (repeat true k)), spec_walk_lead. simpl. rewrite app_nil_r. reflexivity. Qed.

  (* the loop invariant of maybe_create_child_filter + ChildFilter.__call__: [done] are the
     children already passed, [acc] what the filter has built from them, [nones] the None
     values of the dropped symbols since the last kept one *)
  Lemma incl_loop_spec ka ei : forall exp i m todo done nones acc,
    length todo = length exp -> count_false m = length exp ->
    skipn i ei = split0 0 m -> length done = i ->
    option_map (fun l => l ++ repeat none (snd (incl_loop ka ei i exp nones) + nth (i + length exp) ei 0))
               (run_cf (fst (incl_loop ka ei i exp nones)) (done ++ todo) acc)
    = option_map (fun l => acc ++ repeat none nones ++ l) (spec_walk ka m exp todo).
  Proof.
    induction exp as [|s exp IH]; intros i m todo done nones acc Hl Hc Hs Hd.
    - (* only `_EMPTY` marks are left: they are the last entry of ei *)
      destruct todo; [|discriminate]. simpl in Hc. rewrite (count_false_zero m Hc) in *.
      rewrite split0_trues in Hs. apply (skipn_hd 0) in Hs. destruct Hs as [Hn _].
      simpl. rewrite Nat.add_0_r, Hn, spec_walk_trues. simpl. rewrite repeat_app. reflexivity.
    - destruct todo as [|c todo]; [discriminate|]. simpl in Hl, Hc.
      destruct (count_false_decomp m _ Hc) as (k & m' & -> & Hc').
      rewrite split0_lead in Hs. simpl in Hs. apply (skipn_hd 0) in Hs. destruct Hs as [Hn Hs].
      rewrite spec_walk_lead. cbn [Spec.spec_walk incl_loop]. rewrite Hn, kept_eq.
      replace (i + length (s :: exp)) with (S i + length exp) by (simpl; lia).
      replace (done ++ c :: todo) with ((done ++ [c]) ++ todo) by (rewrite <- app_assoc; reflexivity).
      assert (Hnth : nth_error ((done ++ [c]) ++ todo) i = Some c).
      { rewrite <- app_assoc, nth_error_app2 by lia. replace (i - length done) with 0 by lia. reflexivity. }
      assert (Hd' : length (done ++ [c]) = S i) by (rewrite app_length; simpl; lia).
      specialize (fun nones' acc' => IH (S i) m' todo (done ++ [c]) nones' acc' ltac:(lia) Hc' Hs Hd').
      unfold Spec.contrib. destruct (kept ka s); cbn [negb].
      + (* kept: the entry (i, should_expand s, nones + k) *)
        specialize (IH 0). destruct (incl_loop ka ei (S i) exp 0) as [ti n]. cbn [fst snd] in *.
        rewrite (run_cf_cons _ _ _ _ _ _ _ Hnth). change (should_expand s) with (inlined s).
        destruct (if inlined s then kids c else Some [c]) as [kc|];
          [rewrite IH|]; destruct (spec_walk ka m' exp todo); simpl; auto.
        f_equal. rewrite repeat_app, <- !app_assoc. reflexivity.
      + (* dropped: its None values are carried to the next entry *)
        rewrite IH. destruct (spec_walk ka m' exp todo); simpl; auto.
        f_equal. rewrite repeat_app, <- !app_assoc. reflexivity.
  Qed.

  Lemma incl_loop_run ka m exp ch : length ch = length exp -> count_false m = length exp ->
    option_map (fun l => l ++ repeat none (snd (incl_loop ka (split0 0 m) 0 exp 0) + nth (length exp) (split0 0 m) 0))
               (run_cf (fst (incl_loop ka (split0 0 m) 0 exp 0)) ch [])
    = spec_walk ka m exp ch.
  Proof.
    intros Hl Hc. pose proof (incl_loop_spec ka _ exp 0 m ch [] 0 [] Hl Hc eq_refl eq_refl) as L.
    cbn [app Nat.add] in L. rewrite L. destruct (spec_walk ka m exp ch); reflexivity.
  Qed.

  Lemma incl_loop_zero ka ei : (forall j, nth j ei 0 = 0) -> forall exp i,
    Forall (fun t => snd t = 0) (fst (incl_loop ka ei i exp 0)) /\ snd (incl_loop ka ei i exp 0) = 0.
  Proof.
    intros Hz; induction exp as [|s exp IH]; intros i; simpl; auto.
    rewrite Hz. destruct (ka || negb (s_term s && s_filter s)).
    - destruct (IH (S i)) as [H1 H2]. destruct (incl_loop ka ei (S i) exp 0); simpl in *. auto.
    - apply IH.
  Qed.

  (* when no filter object is created every child is passed through *)
  Lemma incl_loop_full ka ei : forall exp i nones,
    length (fst (incl_loop ka ei i exp nones)) <= length exp /\
    (length (fst (incl_loop ka ei i exp nones)) = length exp ->
     existsb (fun t => snd (fst t)) (fst (incl_loop ka ei i exp nones)) = false ->
     forall todo, length todo = length exp ->
       spec_walk ka (repeat false (length exp)) exp todo = Some todo).
  Proof.
    induction exp as [|s exp IH]; intros i nones; cbn [incl_loop].
    - simpl. split; auto. intros _ _ [|]; simpl; auto; discriminate.
    - rewrite kept_eq. destruct (kept ka s) eqn:Ek.
      + destruct (IH (S i) 0) as [H1 H2].
        destruct (incl_loop ka ei (S i) exp 0) as [l n]; cbn [fst snd length] in *.
        split; [lia|]. intros Hlen Hex [|c todo] Ht; [discriminate|].
        cbn [existsb fst snd] in Hex. apply orb_false_iff in Hex. destruct Hex as [Hse Hex].
        simpl in Ht. cbn [repeat Spec.spec_walk].
        rewrite (H2 ltac:(lia) Hex todo ltac:(lia)).
        unfold Spec.contrib. change (inlined s) with (should_expand s). rewrite Ek, Hse. reflexivity.
      + destruct (IH (S i) (nones + nth i ei 0)) as [H1 H2]. cbn [length]. split; [lia|]. intros; lia.
  Qed.

  (* maybe_create_child_filter and the __call__ of the filter it returns compute the documented
     children; [ei] is the rule's empty_indices, () when there are no placeholders *)
  Lemma child_filter_spec exp ka amb ei ch :
    (nonempty ei = true -> count_false ei = length exp) -> length ch = length exp ->
    exists cf, maybe_create_child_filter exp ka amb ei = Ok cf /\
      match cf with Some f => run_filter f ch | None => Some ch end
      = spec_walk ka (if nonempty ei then ei else repeat false (length exp)) exp ch.
  Proof.
    intros Hwf Hlen. unfold maybe_create_child_filter. destruct (nonempty ei).
    - specialize (Hwf eq_refl). rewrite Hwf, Nat.eqb_refl, split0_length, Hwf, Nat.eqb_refl. cbn [rbind orb].
      pose proof (incl_loop_run ka ei exp ch Hlen Hwf) as L.
      destruct (incl_loop ka (split0 0 ei) 0 exp 0) as [ti n]. cbn [fst snd] in L.
      eexists. split; [reflexivity|]. destruct amb; unfold Chain.run_filter; rewrite ?run_cflalr_eq; exact L.
    - (* no placeholders: every None count is 0 *)
      rewrite <- split0_repeat_false. cbn [rbind orb]. set (m := repeat false (length exp)).
      pose proof (incl_loop_run ka m exp ch Hlen (count_false_repeat_false _)) as L.
      assert (Hz : forall j, nth j (split0 0 m) 0 = 0).
      { intros j. unfold m. rewrite split0_repeat_false. apply nth_repeat0. }
      destruct (incl_loop_zero ka _ Hz exp 0) as [Z1 Z2].
      destruct (incl_loop_full ka (split0 0 m) exp 0 0) as [F1 F2].
      destruct (incl_loop ka (split0 0 m) 0 exp 0) as [ti n]. cbn [fst snd] in *. subst n. rewrite Hz in *.
      destruct (Nat.ltb (length ti) (length exp) || existsb (fun t => snd (fst t)) ti) eqn:Ec.
      + destruct amb; (eexists; split; [reflexivity|]); unfold Chain.run_filter; [exact L|].
        rewrite run_cfnoph_eq, <- L by exact Z1. destruct (run_cf ti ch []); simpl; rewrite ?app_nil_r; reflexivity.
      + exists None. split; [reflexivity|]. apply orb_false_iff in Ec. destruct Ec as [Ec1 Ec2].
        apply Nat.ltb_ge in Ec1. symmetry. apply F2; auto. lia.
  Qed.

  (* _init_builders' chain [ExpandSingleChild?; ChildFilter?] applied by create_callback: filter first *)
  Lemma compose_chain (e1 : bool) (cf : option cfilter) (node : builder X) ch :
    compose X none kids ((if e1 then [WExpand1] else []) ++ match cf with Some f => [WFilter f] | None => [] end) node ch
    = match (match cf with Some f => run_filter f ch | None => Some ch end) with
      | Some l => if e1 then match l with [c] => Some c | _ => node l end else node l
      | None => None
      end.
  Proof. destruct e1, cf; reflexivity. Qed.

  Lemma spec_name_eq r : spec_name r = cb_name r.
  Proof.
    unfold spec_name, cb_name, truthy.
    destruct (r_alias r) as [[|]|]; auto; destruct (r_tsrc r) as [[|]|]; auto.
  Qed.

  (* C03: for every rule record, configuration and children list of the rule's arity, the
     composed callback is the documented shaping. *)
  Theorem chain_spec user mk r mp amb ch :
    rule_wf r mp = true -> length ch = length (r_exp r) ->
    run_callback X none kids user mk r mp amb ch = Ok (spec_rule X none kids user mk r mp ch).
  Proof.
    intros Hwf Hlen. unfold run_callback, callback, wrapper_chain, spec_rule, spec_children.
    set (ei := if mp then r_empty r else []).
    destruct (child_filter_spec (r_exp r) (r_keep_all r) amb ei ch) as (cf & -> & R); [|exact Hlen|].
    { unfold rule_wf in Hwf. unfold ei. destruct mp; [|discriminate]. intros Hne. rewrite Hne in Hwf.
      apply Nat.eqb_eq. exact Hwf. }
    replace (marks r mp) with (if nonempty ei then ei else repeat false (length (r_exp r)))
      by (unfold marks, ei; destruct mp; reflexivity).
    cbn [rbind]. rewrite compose_chain, R, spec_name_eq.
    destruct (user (cb_name r)); reflexivity.
  Qed.

  (* the construction-time assertion fails when rule_wf is false (and only then: chain_spec) *)
  Theorem chain_assert user mk r mp amb ch :
    rule_wf r mp = false -> run_callback X none kids user mk r mp amb ch = AssertFail.
  Proof.
    unfold rule_wf, run_callback, callback, wrapper_chain, maybe_create_child_filter.
    intros H. apply orb_false_iff in H. destruct H as [H1 H2]. apply negb_false_iff in H1.
    apply andb_true_iff in H1. destruct H1 as [-> H1]. rewrite H1, H2. reflexivity.
  Qed.
End Proofs.

(* the ChildFilter / ExpandSingleChild chain is natural in the node type *)
Section ChainNat.
Variables X Y : Type.
Variable g : X -> Y.
Variable noneX : X.
Variable noneY : Y.
Variable kidsX : X -> option (list X).
Variable kidsY : Y -> option (list Y).
Variable mkX : string -> list X -> X.
Variable mkY : string -> list Y -> Y.
Hypothesis g_none : g noneX = noneY.
Hypothesis g_kids : forall x, kidsY (g x) = option_map (map g) (kidsX x).
Hypothesis g_mk : forall n l, mkY n (map g l) = g (mkX n l).

Lemma map_repeat_none n : map g (repeat noneX n) = repeat noneY n.
Proof. induction n; cbn; [reflexivity|]. rewrite g_none, IHn. reflexivity. Qed.

Lemma run_cf_nat ti : forall ch fl,
  run_cf Y noneY kidsY ti (map g ch) (map g fl) = option_map (map g) (run_cf X noneX kidsX ti ch fl).
Proof.
  induction ti as [|[[i ex] an] ti IH]; intros ch fl; [reflexivity|].
  cbn [run_cf]. rewrite nth_error_map.
  destruct (nth_error ch i) as [c|]; [|reflexivity]. cbn [option_map].
  destruct ex.
  - rewrite g_kids. destruct (kidsX c) as [k|]; [|reflexivity]. cbn [option_map].
    rewrite <- map_repeat_none, <- !map_app. apply IH.
  - rewrite <- map_repeat_none, <- !map_app. change [g c] with (map g [c]). rewrite <- map_app. apply IH.
Qed.

Lemma run_filter_nat fl ch :
  run_filter Y noneY kidsY fl (map g ch) = option_map (map g) (run_filter X noneX kidsX fl ch).
Proof.
  rewrite !run_filter_cf. change (@nil Y) with (map g []). rewrite run_cf_nat.
  destruct (run_cf X noneX kidsX _ ch []); cbn [option_map]; [|reflexivity].
  rewrite map_app, map_repeat_none. reflexivity.
Qed.

Definition nat_builder (bx : builder X) (by_ : builder Y) : Prop :=
  forall ch, by_ (map g ch) = option_map g (bx ch).

Lemma apply_wrapper_nat w bx by_ :
  nat_builder bx by_ -> nat_builder (apply_wrapper X noneX kidsX w bx) (apply_wrapper Y noneY kidsY w by_).
Proof.
  intros H ch. destruct w as [|fl]; cbn [apply_wrapper].
  - destruct ch as [|c [|c2 ch]]; cbn [map]; try apply (H []); try reflexivity. apply (H (c :: c2 :: ch)).
  - rewrite run_filter_nat. destruct (run_filter X noneX kidsX fl ch); cbn [option_map]; [apply H|reflexivity].
Qed.

Lemma compose_nat ws : forall bx by_,
  nat_builder bx by_ -> nat_builder (compose X noneX kidsX ws bx) (compose Y noneY kidsY ws by_).
Proof.
  unfold compose. induction ws as [|w ws IH]; intros bx by_ H; [exact H|].
  cbn [fold_left]. apply IH. apply apply_wrapper_nat. exact H.
Qed.

Theorem run_callback_nat r mp amb ch :
  run_callback Y noneY kidsY (fun _ => None) mkY r mp amb (map g ch) =
  match run_callback X noneX kidsX (fun _ => None) mkX r mp amb ch with
  | Prelude.Ok o => Prelude.Ok (option_map g o)
  | Prelude.AssertFail => Prelude.AssertFail
  | Prelude.OutOfFuel => Prelude.OutOfFuel
  end.
Proof.
  unfold run_callback, callback. destruct (wrapper_chain r mp amb) as [ws| |]; cbn [rbind]; try reflexivity.
  f_equal. apply compose_nat. intros l. cbn [option_map]. rewrite g_mk. reflexivity.
Qed.
End ChainNat.

(* the chain only rearranges its inputs: its result is None, a value reachable from the children through
   .children, or a fresh tree over such values *)
Section ChainPres.
Variable X : Type.
Variable none : X.
Variable kids : X -> option (list X).
Variable mk : string -> list X -> X.
Variable Q : X -> Prop.
Hypothesis Q_none : Q none.
Hypothesis Q_kids : forall x l, Q x -> kids x = Some l -> Forall Q l.

Lemma Forall_repeat_none n : Forall Q (repeat none n).
Proof. induction n; constructor; auto. Qed.

Lemma run_cf_pres ti : forall ch fl out, Forall Q ch -> Forall Q fl ->
  run_cf X none kids ti ch fl = Some out -> Forall Q out.
Proof.
  induction ti as [|[[i ex] an] ti IH]; intros ch fl out Hch Hfl; cbn [run_cf].
  - intros [= <-]. exact Hfl.
  - destruct (nth_error ch i) as [c|] eqn:Ec; [|discriminate].
    assert (Hc : Q c) by (rewrite Forall_forall in Hch; apply Hch; eapply nth_error_In; eauto).
    destruct ex.
    + destruct (kids c) as [k|] eqn:Ek; [|discriminate]. apply IH; auto.
      apply Forall_app; split; [apply Forall_app; split; auto using Forall_repeat_none|]. eapply Q_kids; eauto.
    + apply IH; auto. apply Forall_app; split; [apply Forall_app; split; auto using Forall_repeat_none|]. auto.
Qed.

Lemma run_filter_pres fl ch out : Forall Q ch -> run_filter X none kids fl ch = Some out -> Forall Q out.
Proof.
  intros Hch. rewrite run_filter_cf.
  destruct (run_cf X none kids _ ch []) as [l|] eqn:E; [|discriminate]. intros [= <-].
  apply Forall_app; split; [|apply Forall_repeat_none]. exact (run_cf_pres _ ch [] l Hch (Forall_nil _) E).
Qed.

Definition fresh_or_old (res : X) : Prop := Q res \/ exists n l, Forall Q l /\ res = mk n l.
Definition cases_builder (b : builder X) : Prop :=
  forall ch res, Forall Q ch -> b ch = Some res -> fresh_or_old res.

Lemma apply_wrapper_cases w b : cases_builder b -> cases_builder (apply_wrapper X none kids w b).
Proof.
  intros H ch res Hch. destruct w as [|fl]; cbn [apply_wrapper].
  - destruct ch as [|c [|c2 ch]]; try (apply H; exact Hch).
    intros [= <-]. left. inversion Hch; auto.
  - destruct (run_filter X none kids fl ch) as [l|] eqn:E; [|discriminate].
    apply H. eapply run_filter_pres; eauto.
Qed.

Lemma compose_cases ws : forall b, cases_builder b -> cases_builder (compose X none kids ws b).
Proof.
  unfold compose. induction ws as [|w ws IH]; intros b H; [exact H|].
  cbn [fold_left]. apply IH, apply_wrapper_cases, H.
Qed.

Theorem run_callback_cases r mp amb ch res :
  Forall Q ch -> run_callback X none kids (fun _ => None) mk r mp amb ch = Prelude.Ok (Some res) ->
  fresh_or_old res.
Proof.
  intros Hch. unfold run_callback, callback.
  destruct (wrapper_chain r mp amb) as [ws| |]; cbn [rbind]; try discriminate.
  intros [= E]. revert E. apply compose_cases; auto.
  intros l res' Hl [= <-]. right. eauto.
Qed.

Hypothesis Q_mk : forall n l, Forall Q l -> Q (mk n l).

Theorem run_callback_pres r mp amb ch res :
  Forall Q ch -> run_callback X none kids (fun _ => None) mk r mp amb ch = Prelude.Ok (Some res) -> Q res.
Proof.
  intros Hch E. destruct (run_callback_cases r mp amb ch res Hch E) as [H | (n & l & Hl & ->)]; auto.
Qed.
End ChainPres.
