(* The coded single-visit walk of ForestSumVisitor ([svw], Forest/GraphSum.v) leaves, on an acyclic closed graph
   forest, exactly the recursive annotation pr_sv used by C05_optimal_graph_walk. *)
From Coq Require Import ZArith List Arith Bool Lia.
From LV Require Import Cfg.Grammar Forest.ExplicitBuild Forest.GraphResolve Forest.GraphResolve_proofs
  Gen.ForestSortKey Forest.Sppf Forest.Prio Forest.Prio_proofs Forest.GraphPrio_proofs Forest.GraphSum
  Forest.GraphSum_proofs.
Import ListNotations.
Local Open Scope Z_scope.

Section Walk.
  Variable tok : Type.
  Variable teqb : tok -> tok -> bool.
  Hypothesis teqb_spec : forall a b, teqb a b = true <-> a = b.
  Variable fams : list (nlabel tok * family tok).
  Variable rprio rorder : rule -> Z.
  Variable tprio : nat -> tok -> Z.
  Variable rk : nlabel tok -> nat.
  Variable M : nat.
  Hypothesis Hranked : rankedb tok fams rk M = true.
  Hypothesis Hclosed : closedb tok teqb fams = true.
  Hypothesis Hnotok : notokb tok fams = true.

  Notation label := (nlabel tok).
  Notation leqb := (nlabel_eqb tok teqb).
  Notation F := (in_forest tok fams).
  Notation fams_of := (fams_of tok teqb fams).
  Notation G := (pr_sv tok teqb fams rprio tprio M).
  Notation GF := (prf_sv tok teqb fams rprio tprio M).
  Notation svw := (svw tok teqb fams rprio rorder tprio).
  Notation look_sym := (look_sym tok teqb).
  Notation look_pk := (look_pk tok teqb).

  Lemma leqb_refl (a : label) : leqb a a = true.
  Proof. apply (nlabel_eqb_spec tok teqb teqb_spec). reflexivity. Qed.
  Lemma leqb_false (a b : label) : a <> b -> leqb a b = false.
  Proof. intros H. destruct (leqb a b) eqn:E; [|reflexivity]. apply (nlabel_eqb_spec tok teqb teqb_spec) in E. congruence. Qed.
  Lemma leqb_dec (a b : label) : {a = b} + {a <> b}.
  Proof. destruct (leqb a b) eqn:E; [left; apply (nlabel_eqb_spec tok teqb teqb_spec); exact E|right; intros ->; rewrite leqb_refl in E; discriminate]. Qed.

  Lemma famb_refl (f : family tok) : famb tok teqb f f = true.
  Proof.
    destruct f as [[r l] rt]. unfold famb. rewrite (proj2 (rule_eqb'_spec r r) eq_refl).
    destruct l, rt; cbn; rewrite ?leqb_refl; reflexivity.
  Qed.
  Lemma famb_eq (f1 f2 : family tok) : famb tok teqb f1 f2 = true -> f1 = f2.
  Proof.
    destruct f1 as [[r1 l1] t1], f2 as [[r2 l2] t2]. unfold famb. intros H.
    apply andb_true_iff in H. destruct H as [H H3]. apply andb_true_iff in H. destruct H as [H1 H2].
    apply rule_eqb'_spec in H1. subst.
    destruct l1, l2; try discriminate; destruct t1, t2; try discriminate;
      repeat match goal with E : nlabel_eqb _ _ _ _ = true |- _ => apply (nlabel_eqb_spec tok teqb teqb_spec) in E; subst end;
      reflexivity.
  Qed.

  Lemma G_tok t x i j : G (NTok tok t x i j) = tprio t x.
  Proof. reflexivity. Qed.

  Lemma G_nontok lbl : is_tokb tok lbl = false ->
    G lbl = zmax_list (map (GF lbl) (fams_of lbl)).
  Proof. rewrite is_tok_eq. apply gsv_S. Qed.

  Lemma fold_zi_max l x : fold_left (zi_max) (map Some l) (Some x) = Some (fold_left Z.max l x).
  Proof. revert x. induction l as [|y l IH]; intros x; [reflexivity|]. cbn [map fold_left zi_max]. apply IH. Qed.

  Definition visit_o (f : nat) (path : list label) (st : svstate tok) (o : option label) : svstate tok :=
    match o with None => st | Some c => svw f path st c end.

  (* visit_packed_node_in / _out for the packed child [fm] of [lbl] *)
  Definition fam_step (f : nat) (path : list label) (lbl : label) (st : svstate tok) (fm : family tok) : svstate tok :=
    let '(r, l, rt) := fm in
    let st := visit_o f path (visit_o f path st l) rt in
    mkSV tok (sv_sym tok st)
         ((lbl, fm, zi_add (zi_add (Some (rule_part tok rprio lbl r)) (child_prio tok teqb tprio st rt)) (child_prio tok teqb tprio st l)) :: sv_pk tok st).

  (* visit_symbol_node_out *)
  Definition sym_out (lbl : label) (st : svstate tok) : svstate tok :=
    mkSV tok ((lbl, match map (fun fm => match look_pk (sv_pk tok st) lbl fm with Some v => v | None => None end) (fams_of lbl)
                with [] => None | x :: r => fold_left zi_max r x end) :: sv_sym tok st) (sv_pk tok st).

  Lemma svw_S f path st lbl :
    svw (S f) path st lbl =
    if is_tokb tok lbl then st
    else if lmem tok teqb lbl path then st
    else match look_sym (sv_sym tok st) lbl with
         | Some _ => st
         | None => sym_out lbl (fold_left (fam_step f (lbl :: path) lbl) (in_order tok rorder (fams_of lbl)) st)
         end.
  Proof. reflexivity. Qed.

  Definition good (st : svstate tok) : Prop :=
    (forall k v, look_sym (sv_sym tok st) k = Some v -> v = Some (G k)) /\
    (forall k fm v, look_pk (sv_pk tok st) k fm = Some v -> v = Some (GF k fm)).

  (* nothing recorded is lost (a later entry may shadow an earlier one: both carry the same value when [good]) *)
  Definition grows (st st' : svstate tok) : Prop :=
    (forall k, look_sym (sv_sym tok st) k <> None -> look_sym (sv_sym tok st') k <> None) /\
    (forall k fm, look_pk (sv_pk tok st) k fm <> None -> look_pk (sv_pk tok st') k fm <> None).

  Definition visited (st : svstate tok) (o : option label) : Prop :=
    forall c, o = Some c -> is_tokb tok c = false -> look_sym (sv_sym tok st) c <> None.

  Lemma grows_refl st : grows st st.
  Proof. split; auto. Qed.
  Lemma grows_trans s1 s2 s3 : grows s1 s2 -> grows s2 s3 -> grows s1 s3.
  Proof. intros [A1 B1] [A2 B2]. split; auto. Qed.
  Lemma visited_grows st st' o : grows st st' -> visited st o -> visited st' o.
  Proof. intros [Hg _] Hv c Ho Hc. apply Hg, (Hv c Ho Hc). Qed.

  Lemma child_prio_ok st o : good st -> visited st o -> child_prio tok teqb tprio st o = Some (pro tok G o).
  Proof.
    intros [Hg _] Hv. destruct o as [c|]; [|reflexivity].
    destruct (is_tokb tok c) eqn:Et; [destruct c; try discriminate; reflexivity|].
    specialize (Hv c eq_refl Et). destruct (look_sym (sv_sym tok st) c) as [v|] eqn:E; [|congruence].
    rewrite (Hg _ _ E) in E. destruct c; try discriminate; cbn [GraphSum.child_prio pro]; rewrite E; reflexivity.
  Qed.

  Lemma record_pk st lbl fm : good st ->
    let st' := mkSV tok (sv_sym tok st) ((lbl, fm, Some (GF lbl fm)) :: sv_pk tok st) in
    good st' /\ grows st st' /\ look_pk (sv_pk tok st') lbl fm <> None.
  Proof.
    intros [Hs Hp]. cbv zeta. unfold good, grows. cbn [GraphSum.sv_sym GraphSum.sv_pk GraphSum.look_pk]. split; [split; [exact Hs|]|split; [split; [auto|]|]].
    - intros k fm' v. destruct (leqb lbl k && famb tok teqb fm fm') eqn:E; [|apply Hp].
      apply andb_true_iff in E. destruct E as [E1 E2].
      apply (nlabel_eqb_spec tok teqb teqb_spec) in E1. apply famb_eq in E2. subst. congruence.
    - intros k fm' H. destruct (leqb lbl k && famb tok teqb fm fm'); [discriminate|exact H].
    - rewrite leqb_refl, famb_refl. discriminate.
  Qed.

  Definition enterable (f : nat) (path : list label) (c : label) : Prop :=
    (rk c < f)%nat /\ (forall q, In q path -> (rk c < rk q)%nat) /\ (is_tokb tok c = false -> fams_of c <> []).

  Definition svw_ok (f : nat) : Prop :=
    forall path st c, enterable f path c -> good st ->
      good (svw f path st c) /\ grows st (svw f path st c) /\ visited (svw f path st c) (Some c).

  Lemma visit_o_ok f path lbl st o : svw_ok f -> enterable (S f) path lbl ->
    orank tok rk o (rk lbl) -> oclosed tok teqb fams o -> good st ->
    let st' := visit_o f (lbl :: path) st o in good st' /\ grows st st' /\ visited st' o.
  Proof.
    intros IH [Hf [Hp _]]. destruct o as [c|]; cbn [orank oclosed visit_o]; intros Hr Hc Hg.
    - apply IH; [|exact Hg]. split; [|split; [|exact Hc]].
      + apply (Nat.lt_le_trans _ _ _ Hr), Nat.lt_succ_r, Hf.
      + intros q [<-|Hq]; [exact Hr|]. exact (Nat.lt_trans _ _ _ Hr (Hp q Hq)).
    - split; [exact Hg|]. split; [apply grows_refl|]. intros c [=].
  Qed.

  (* a packed child: both children are finished when its priority is computed, so it gets the recursive value *)
  Lemma fam_step_ok f path lbl st fm : svw_ok f -> enterable (S f) path lbl -> F lbl fm -> good st ->
    let st' := fam_step f (lbl :: path) lbl st fm in
    good st' /\ grows st st' /\ look_pk (sv_pk tok st') lbl fm <> None.
  Proof.
    destruct fm as [[r l] rt]. intros IH Hlbl HF Hg.
    destruct (ranked_prop tok fams rk M Hranked _ _ _ _ HF) as [Hrl [Hrr _]].
    destruct (closed_prop tok teqb teqb_spec fams Hclosed _ _ _ _ HF) as [Hcl Hcr].
    destruct (visit_o_ok f path lbl st l IH Hlbl Hrl Hcl Hg) as [Hga [Hgra Hva]].
    destruct (visit_o_ok f path lbl _ rt IH Hlbl Hrr Hcr Hga) as [Hgb [Hgrb Hvb]].
    cbv zeta. unfold fam_step. set (sb := visit_o f (lbl :: path) (visit_o f (lbl :: path) st l) rt) in *.
    rewrite (child_prio_ok sb rt Hgb Hvb), (child_prio_ok sb l Hgb (visited_grows _ _ _ Hgrb Hva)).
    cbn [zi_add]. pose proof (prf_sv_eq tok teqb teqb_spec fams rprio tprio rk M Hranked lbl r l rt HF) as E.
    rewrite <- rule_part_eq in E. rewrite <- E.
    destruct (record_pk sb lbl (r, l, rt) Hgb) as [H1 [H2 H3]].
    split; [exact H1|]. split; [|exact H3]. exact (grows_trans _ _ _ (grows_trans _ _ _ Hgra Hgrb) H2).
  Qed.

  Lemma fam_loop_ok f path lbl : svw_ok f -> enterable (S f) path lbl ->
    forall todo st, (forall fm, In fm todo -> F lbl fm) -> good st ->
    let st' := fold_left (fam_step f (lbl :: path) lbl) todo st in
    good st' /\ grows st st' /\ forall fm, In fm todo -> look_pk (sv_pk tok st') lbl fm <> None.
  Proof.
    intros IH Hlbl. induction todo as [|fm todo IHt]; intros st HF Hg; cbn [fold_left].
    - split; [exact Hg|]. split; [apply grows_refl|]. intros fm [].
    - destruct (fam_step_ok f path lbl st fm IH Hlbl (HF fm (or_introl eq_refl)) Hg) as [Hg1 [Hgr1 Hfm]].
      destruct (IHt _ (fun fm' H => HF fm' (or_intror H)) Hg1) as [Hg2 [Hgr2 Htodo]].
      split; [exact Hg2|]. split; [exact (grows_trans _ _ _ Hgr1 Hgr2)|].
      intros fm' [<-|H]; [apply (proj2 Hgr2), Hfm|apply Htodo, H].
  Qed.

  Lemma sym_out_ok lbl st : is_tokb tok lbl = false -> fams_of lbl <> [] -> good st ->
    (forall fm, In fm (fams_of lbl) -> look_pk (sv_pk tok st) lbl fm <> None) ->
    good (sym_out lbl st) /\ grows st (sym_out lbl st) /\ visited (sym_out lbl st) (Some lbl).
  Proof.
    intros Et Hne [Hs Hp] Hall. unfold sym_out.
    rewrite (map_ext_in _ (fun fm => Some (GF lbl fm))), <- map_map.
    2:{ intros fm Hfm. specialize (Hall fm Hfm). destruct (look_pk (sv_pk tok st) lbl fm) as [v|] eqn:E; [|congruence].
        exact (Hp _ _ _ E). }
    pose proof (G_nontok lbl Et) as HG. destruct (map (GF lbl) (fams_of lbl)) as [|z zs] eqn:Em.
    { destruct (fams_of lbl); [congruence|discriminate]. }
    cbn [map]. rewrite fold_zi_max. change (fold_left Z.max zs z) with (zmax_list (z :: zs)). rewrite <- HG.
    unfold good, grows, visited. cbn [GraphSum.sv_sym GraphSum.sv_pk GraphSum.look_sym].
    split; [split; [|exact Hp]|split; [split; [|auto]|]].
    - intros k v. destruct (leqb lbl k) eqn:E; [|apply Hs].
      apply (nlabel_eqb_spec tok teqb teqb_spec) in E. subst k. congruence.
    - intros k H. destruct (leqb lbl k); [discriminate|exact H].
    - intros c [= <-] _. rewrite leqb_refl. discriminate.
  Qed.

  Lemma in_order_in fs fm : In fm (in_order tok rorder fs) <-> In fm fs.
  Proof. unfold in_order. rewrite ksort_snd_in, map_id. reflexivity. Qed.

  (* the main invariant, by induction on the fuel: ranks decrease towards the children, so the fuel suffices, no
     node is met again on the path, and a node is finished before any of its parents computes its priority *)
  Lemma svw_correct : forall fuel, svw_ok fuel.
  Proof.
    induction fuel as [|f IH]; intros path st lbl Hlbl Hg; [destruct Hlbl as [H _]; inversion H|].
    pose proof Hlbl as [_ [Hp Hne]]. rewrite svw_S.
    destruct (is_tokb tok lbl) eqn:Et.
    { split; [exact Hg|]. split; [apply grows_refl|]. intros c [= <-]. congruence. }
    replace (lmem tok teqb lbl path) with false.
    2:{ symmetry. apply (lmem_not_in tok teqb teqb_spec). intros Hin. exact (Nat.lt_irrefl _ (Hp _ Hin)). }
    destruct (look_sym (sv_sym tok st) lbl) eqn:El.
    { split; [exact Hg|]. split; [apply grows_refl|]. intros c [= <-] _. congruence. }
    destruct (fam_loop_ok f path lbl IH Hlbl (in_order tok rorder (fams_of lbl)) st) as [Hg1 [Hgr1 Hall]]; [|exact Hg|].
    { intros fm Hfm. apply (fams_of_in tok teqb teqb_spec), in_order_in, Hfm. }
    destruct (sym_out_ok lbl _ Et (Hne eq_refl) Hg1) as [Hg2 [Hgr2 Hv]].
    { intros fm Hfm. apply Hall, in_order_in, Hfm. }
    split; [exact Hg2|]. split; [exact (grows_trans _ _ _ Hgr1 Hgr2)|exact Hv].
  Qed.

  Theorem sum_walk_good root : (M <= List.length fams)%nat -> fams_of root <> [] ->
    let st := sum_walk tok teqb fams rprio rorder tprio root in
    good st /\ look_sym (sv_sym tok st) root <> None.
  Proof.
    intros HM Hroot.
    assert (Hin : exists fm, F root fm).
    { destruct (fams_of root) as [|fm fr] eqn:E; [congruence|]. exists fm.
      apply (fams_of_in tok teqb teqb_spec). rewrite E. left. reflexivity. }
    destruct Hin as [[[r l] rt] Hin].
    assert (Et : is_tokb tok root = false).
    { destruct root; try reflexivity. destruct (notok_prop tok fams Hnotok _ _ _ _ _ Hin). }
    destruct (svw_correct (S (List.length fams)) [] (mkSV tok [] []) root) as [Hg [_ Hv]];
      [| |exact (conj Hg (Hv root eq_refl Et))].
    - split; [|split; [intros q []|intros _; exact Hroot]].
      apply Nat.lt_succ_r, (Nat.le_trans _ M); [|exact HM].
      exact (proj2 (proj2 (ranked_prop tok fams rk M Hranked _ _ _ _ Hin))).
    - split; intros; discriminate.
  Qed.

  (* C05: the coded walk leaves the recursive annotation on every symbol node it visited *)
  Theorem sum_walk_eq_recursive root lbl :
    (M <= List.length fams)%nat -> fams_of root <> [] ->
    let st := sum_walk tok teqb fams rprio rorder tprio root in
    look_sym (sv_sym tok st) lbl <> None ->
    walk_pr tok teqb tprio st lbl = G lbl.
  Proof.
    intros HM Hroot. cbv zeta. intros Hv. destruct (sum_walk_good root HM Hroot) as [[Hgood _] _].
    destruct (look_sym _ lbl) as [v|] eqn:El; [|congruence].
    unfold walk_pr. rewrite El, (Hgood _ _ El). destruct lbl; reflexivity.
  Qed.
End Walk.
