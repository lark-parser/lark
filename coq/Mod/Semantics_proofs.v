(* C17 - semantic reading of import = inlining on the BNF-like fragment: the grammar contributed by an
   import is the renaming of the module's own grammar, hence same language and same derivation trees
   (Mod/Rename_proofs.v); and inside any importing grammar that does not redefine the imported names the
   imported names keep exactly that language. *)
From Coq Require Import List String Ascii Bool Arith Lia.
From LV Require Import Cfg.Grammar Mod.Rename Mod.Rename_proofs Mod.Modules Mod.Modules_proofs
  Mod.Inline_proofs Mod.Compile.
Import ListNotations.
Local Open Scope string_scope.

Lemma mapM_map {A B C} (f : B -> option C) (g : A -> B) l : mapM f (map g l) = mapM (fun x => f (g x)) l.
Proof. induction l as [|x r IH]; simpl; auto. now rewrite IH. Qed.

Lemma mapM_ext_in {A B} (f g : A -> option B) l : (forall x, In x l -> f x = g x) -> mapM f l = mapM g l.
Proof.
  induction l as [|x r IH]; simpl; auto. intros H. rewrite (H x) by auto. rewrite IH; auto.
Qed.

Lemma mapM_option_map {A B C} (f : A -> option B) (h : B -> C) l :
  mapM (fun x => option_map h (f x)) l = option_map (map h) (mapM f l).
Proof.
  induction l as [|x r IH]; simpl; auto. rewrite IH.
  destruct (f x); simpl; auto. destruct (mapM f r); reflexivity.
Qed.

Lemma mapM_rn {A A' B B'} (f : A -> option B) (f' : A' -> option B') (g : A -> A') (h : B -> B') l :
  (forall x, f' (g x) = option_map h (f x)) -> mapM f' (map g l) = option_map (map h) (mapM f l).
Proof. intros H. rewrite mapM_map, <- mapM_option_map. apply mapM_ext_in. intros x _. apply H. Qed.

Lemma mapM_In {A B} (f : A -> option B) l l' y :
  mapM f l = Some l' -> In y l' -> exists x, In x l /\ f x = Some y.
Proof.
  revert l'. induction l as [|x r IH]; simpl; intros l' H Hy.
  - inversion H; subst. destruct Hy.
  - destruct (f x) as [y0|] eqn:E; [|discriminate]. destruct (mapM f r) as [ys|]; [|discriminate].
    inversion H; subst. destruct Hy as [<-|Hy]; eauto.
    destruct (IH ys eq_refl Hy) as (x0 & ? & ?). eauto.
Qed.

Section Semantics.
  Variable num : string -> nat.
  Variable unnum : nat -> string.
  Hypothesis unnum_num : forall s, unnum (num s) = s.
  Variable rho : string -> string.
  Hypothesis Hinj : forall x y, rho x = rho y -> x = y.
  (* the lexer gives the renamed terminal the token class of the original one (its definition is the
     same pattern under another name) *)
  Variables tnum tnum' : string -> nat.
  Hypothesis Htnum : forall x, tnum' (rho x) = tnum x.

  Definition rho' (n : nat) : nat := num (rho (unnum n)).
  Definition names (n : nat) : Prop := exists s, n = num s.

  Lemma num_inj x y : num x = num y -> x = y.
  Proof. intros H. apply (f_equal unnum) in H. now rewrite !unnum_num in H. Qed.

  Lemma rho'_num x : rho' (num x) = num (rho x).
  Proof. unfold rho'. now rewrite unnum_num. Qed.

  Lemma rho'_inj : inj_on names rho'.
  Proof.
    intros a b (x & ->) (y & ->). rewrite !rho'_num. intros H. apply num_inj in H. apply Hinj in H. now subst.
  Qed.

  Lemma sym_of_rn t :
    sym_of num tnum' (rename_tree rho t) = option_map (rename_sym rho') (sym_of num tnum t).
  Proof.
    destruct t as [d ch|b n|v|o]; simpl; auto.
    destruct ch as [|[dd cc|b n|v|o] [|c2 r2]]; simpl; auto.
    destruct (String.eqb d "value"); simpl; auto.
    destruct b; simpl. now rewrite Htnum. now rewrite rho'_num.
  Qed.

  Lemma alt_of_rn t :
    alt_of num tnum' (rename_tree rho t) = option_map (map (rename_sym rho')) (alt_of num tnum t).
  Proof.
    destruct t as [d ch|b n|v|o]; simpl; auto.
    destruct (String.eqb d "expansion"); simpl; auto. apply mapM_rn, sym_of_rn.
  Qed.

  Lemma rules_of_rn d :
    rules_of num tnum' (rn_def rho d) = option_map (map (rename_rule rho')) (rules_of num tnum d).
  Proof.
    unfold rules_of. simpl. destruct (d_term d); simpl; auto.
    destruct (d_params d) as [|p ps]; simpl; auto.
    destruct (d_tree d) as [[dd alts|b n|v|o]|]; simpl; auto.
    destruct (String.eqb dd "expansions"); simpl; auto.
    rewrite (mapM_rn _ _ _ _ alts alt_of_rn). destruct (mapM (alt_of num tnum) alts) as [as_|]; simpl; auto.
    f_equal. rewrite !map_map. apply map_ext. intros a. unfold rename_rule. simpl. now rewrite rho'_num.
  Qed.

  Theorem compile_rn l :
    compile num tnum' (map (rn_def rho) l) = option_map (rename_grammar rho') (compile num tnum l).
  Proof.
    unfold compile. rewrite (mapM_rn _ _ _ _ l rules_of_rn). destruct (mapM (rules_of num tnum) l) as [rs|]; simpl; auto.
    f_equal. unfold rename_grammar. now rewrite List.concat_map.
  Qed.

  Lemma sym_of_names t a : sym_of num tnum t = Some (NT a) -> names a.
  Proof.
    destruct t as [d [|[| b n | |] [|]]| | |]; simpl; try discriminate.
    destruct (String.eqb d "value"); [|discriminate]. destruct b; intros H; inversion H. now exists n.
  Qed.

  Lemma alt_of_names t ss : alt_of num tnum t = Some ss -> forall a, In a (nts ss) -> names a.
  Proof.
    destruct t as [d ch|b n|v|o]; simpl; try discriminate.
    destruct (String.eqb d "expansion"); [|discriminate]. intros H a Ha. apply in_nts in Ha.
    destruct (mapM_In _ _ _ _ H Ha) as (c & _ & Hc). exact (sym_of_names _ _ Hc).
  Qed.

  Lemma compile_names l G : compile num tnum l = Some G -> forall a, In a (grammar_nts G) -> names a.
  Proof.
    unfold compile. destruct (mapM (rules_of num tnum) l) as [rs|] eqn:E; simpl; [|discriminate].
    intros H a Ha; inversion H; subst; clear H.
    unfold grammar_nts in Ha. apply in_flat_map in Ha. destruct Ha as (r & Hr & Ha).
    apply List.in_concat in Hr. destruct Hr as (rl & Hrl & Hr).
    destruct (mapM_In _ _ _ _ E Hrl) as (d & _ & Hd).
    unfold rules_of in Hd. destruct (d_term d). { inversion Hd; subst. destruct Hr. }
    destruct (d_params d); [|discriminate]. destruct (d_tree d) as [[dd alts|?|?|?]|]; try discriminate.
    destruct (String.eqb dd "expansions"); [|discriminate].
    destruct (mapM (alt_of num tnum) alts) as [as_|] eqn:Ea; [|discriminate]. inversion Hd; subst; clear Hd.
    apply in_map_iff in Hr. destruct Hr as (ss & <- & Hss). simpl in Ha.
    destruct Ha as [<-|Ha]. now exists (d_name d).
    destruct (mapM_In _ _ _ _ Ea Hss) as (t & _ & Ht). eapply alt_of_names; eauto.
  Qed.

  Section Language.
    Variable tok : Type.
    Variable tmatch : nat -> tok -> bool.

    Theorem contributed_language kept0 G0 :
      compile num tnum kept0 = Some G0 ->
      exists Gc, compile num tnum' (map (rn_def rho) kept0) = Some Gc /\ Gc = rename_grammar rho' G0 /\
        forall X w, sentence Gc tok tmatch (num (rho X)) w <-> sentence G0 tok tmatch (num X) w.
    Proof.
      intros H. exists (rename_grammar rho' G0). rewrite compile_rn, H. split; [reflexivity|]. split; [reflexivity|].
      intros X w. rewrite <- rho'_num.
      apply (sentence_rename G0 tok tmatch rho' names rho'_inj (compile_names _ _ H)). now exists X.
    Qed.

    Theorem contributed_trees kept0 G0 X :
      compile num tnum kept0 = Some G0 ->
      (forall t, tree_of G0 tok tmatch (NT (num X)) t ->
                 tree_of (rename_grammar rho' G0) tok tmatch (NT (num (rho X))) (rename_dtree rho' t) /\
                 yield (rename_dtree rho' t) = yield t) /\
      (forall t', tree_of (rename_grammar rho' G0) tok tmatch (NT (num (rho X))) t' ->
                  exists t, tree_of G0 tok tmatch (NT (num X)) t /\ t' = rename_dtree rho' t /\ yield t' = yield t).
    Proof.
      intros H. rewrite <- rho'_num.
      apply (trees_rename G0 tok tmatch rho' names rho'_inj (compile_names _ _ H)). now exists X.
    Qed.

    Lemma derives_incl G G' ss w :
      incl G G' -> derives G tok tmatch ss w -> derives G' tok tmatch ss w.
    Proof. intros Hi. induction 1; econstructor; eauto. Qed.

    Lemma derives_closed_sub G Gc :
      incl Gc G ->
      (forall r, In r G -> In (lhs r) (map lhs Gc) -> In r Gc) ->
      (forall r a, In r Gc -> In a (nts (rhs r)) -> In a (map lhs Gc)) ->
      forall ss w, derives G tok tmatch ss w -> (forall a, In a (nts ss) -> In a (map lhs Gc)) ->
                   derives Gc tok tmatch ss w.
    Proof.
      intros Hincl Honly Hclosed. induction 1 as [|t k ss w Hm Hd IH|a r ss w1 w2 Hin Hl Hd1 IH1 Hd2 IH2]; intros HC.
      - constructor.
      - constructor; auto.
      - assert (Hr : In r Gc). { apply Honly; auto. rewrite Hl. apply HC. simpl. now left. }
        apply d_nt with (r := r); auto.
        + apply IH1. intros b Hb. eapply Hclosed; eauto.
        + apply IH2. intros b Hb. apply HC. simpl. now right.
    Qed.

    (* the semantic corollary: inside an importing grammar G that contains the contributed rules and has
       no other rule for the contributed names (no later %extend/%override of them), an imported name
       rho X has exactly the language X has in the module's own (closed) grammar G0 *)
    Theorem imported_language kept0 G0 G :
      compile num tnum kept0 = Some G0 ->
      (forall r a, In r G0 -> In a (nts (rhs r)) -> In a (map lhs G0)) ->
      let Gc := rename_grammar rho' G0 in
      incl Gc G ->
      (forall r, In r G -> In (lhs r) (map lhs Gc) -> In r Gc) ->
      forall X w, In (num X) (map lhs G0) ->
        (sentence G tok tmatch (num (rho X)) w <-> sentence G0 tok tmatch (num X) w).
    Proof.
      intros Hc Hclosed Gc Hincl Honly X w HX.
      assert (Hcl' : forall r a, In r Gc -> In a (nts (rhs r)) -> In a (map lhs Gc)).
      { intros r a Hr Ha. apply in_map_iff in Hr. destruct Hr as (r0 & <- & Hr0).
        simpl in Ha. rewrite nts_rename in Ha. apply in_map_iff in Ha. destruct Ha as (a0 & <- & Ha0).
        unfold Gc. rewrite lhs_rename. apply in_map. eauto. }
      assert (HXc : In (num (rho X)) (map lhs Gc)).
      { unfold Gc. rewrite lhs_rename, <- rho'_num. now apply in_map. }
      destruct (contributed_language kept0 G0 Hc) as (Gc' & _ & -> & Hlang). fold Gc in Hlang.
      rewrite <- Hlang. unfold sentence. split.
      - intros H. eapply derives_closed_sub; eauto. simpl. intros a [<-|[]]. exact HXc.
      - apply derives_incl. exact Hincl.
    Qed.
  End Language.
End Semantics.

Lemma unnum_fuel_num s : forall fuel, num_of s <= fuel -> unnum_fuel fuel (num_of s) = s.
Proof.
  induction s as [|c r IH]; intros fuel H.
  - destruct fuel; reflexivity.
  - cbn [num_of] in *. destruct fuel as [|f]; [lia|]. cbn [unnum_fuel].
    pose proof (Ascii.nat_ascii_bounded c) as Hb.
    rewrite Nat.mod_add by lia. rewrite Nat.mod_small by lia.
    rewrite Nat.div_add by lia. rewrite Nat.div_small by lia. simpl plus.
    rewrite Ascii.ascii_nat_embedding. f_equal. apply IH. lia.
Qed.

Theorem numbering_exists : forall s, unnum_of (num_of s) = s.
Proof. intros s. apply unnum_fuel_num. lia. Qed.
