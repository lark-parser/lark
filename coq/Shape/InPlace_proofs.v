(* Transformer_InPlace: processing the subtrees in iter_subtrees order (reversed breadth-first)
   and then calling the root's callback returns the same value as the recursive Transformer. *)
From Coq Require Import String Ascii List Bool Arith Lia.
From LV Require Import Base.Prelude Shape.Chain Shape.Spec Shape.Transform Shape.Transform_proofs.
Import ListNotations.

Lemma path_eqb_eq a b : path_eqb a b = true <-> a = b.
Proof.
  revert b; induction a as [|x a IH]; intros [|y b]; simpl; split; intros H; try discriminate; auto.
  - apply andb_true_iff in H. destruct H as [H1 H2]. apply Nat.eqb_eq in H1. apply IH in H2. congruence.
  - injection H as -> ->. rewrite Nat.eqb_refl. apply IH. reflexivity.
Qed.

Lemma path_eqb_refl a : path_eqb a a = true.
Proof. apply path_eqb_eq. reflexivity. Qed.

Fixpoint subtree (t : stree) (p : path) : option stree :=
  match p with
  | [] => Some t
  | i :: p' => match t with
               | Tr _ ch => match nth_error ch i with Some c => subtree c p' | None => None end
               | _ => None
               end
  end.

Lemma subtree_snoc t p i :
  subtree t (p ++ [i]) = match subtree t p with
                         | Some (Tr _ ch) => nth_error ch i
                         | _ => None
                         end.
Proof.
  revert t; induction p as [|j p IH]; intros t; simpl.
  - destruct t as [| n ch |]; auto. destruct (nth_error ch i); auto.
  - destruct t as [| n ch |]; auto. destruct (nth_error ch j); auto.
Qed.

Lemma in_with_paths p q c : forall ch i,
  In (q, c) (with_paths p i ch) <-> exists j, q = p ++ [i + j] /\ nth_error ch j = Some c.
Proof.
  induction ch as [|x ch IH]; intros i; simpl.
  - split; [tauto|]. intros (j & _ & H). destruct j; discriminate.
  - split.
    + intros [H|H].
      * injection H as <- <-. exists 0. rewrite Nat.add_0_r. auto.
      * apply IH in H. destruct H as (j & -> & H). exists (S j). split; auto. f_equal. f_equal. lia.
    + intros ([|j] & -> & H).
      * left. simpl in H. injection H as ->. rewrite Nat.add_0_r. reflexivity.
      * right. apply IH. exists j. split; auto. f_equal. f_equal. lia.
Qed.

Section IP.
  Variable T : transformer.
  Variable vt : bool.
  Variable root : stree.
  Notation tr := (tr T vt).

  Definition cons_ok (x : path * stree) : Prop := subtree root (fst x) = Some (snd x).

  Lemma kids_cons_ok p t : cons_ok (p, t) -> Forall cons_ok (tree_kids p t).
  Proof.
    intros H. apply Forall_forall. intros [q c] Hin. unfold tree_kids in Hin.
    destruct t as [| n ch |]; simpl in Hin; try tauto.
    apply filter_In in Hin. destruct Hin as [Hin _]. apply in_with_paths in Hin.
    destruct Hin as (j & -> & Hj). unfold cons_ok in *. simpl in *.
    rewrite subtree_snoc, H. exact Hj.
  Qed.

  Lemma bfs_ind (P : list (path * stree) -> list (path * stree) -> Prop) :
    P [] [] ->
    (forall f p t rest l', bfs f (rest ++ rev (tree_kids p t)) = Some l' ->
       P (rest ++ rev (tree_kids p t)) l' -> P ((p, t) :: rest) ((p, t) :: l')) ->
    forall f q l, bfs f q = Some l -> P q l.
  Proof.
    intros H0 HS. induction f as [|f IH]; intros [|[p t] rest] l H; simpl in H; try discriminate;
      try (injection H as <-; exact H0).
    destruct (bfs f (rest ++ rev (tree_kids p t))) as [l'|] eqn:E; [|discriminate].
    injection H as <-. eauto.
  Qed.

  Lemma in_rev_kids x p t (rest : list (path * stree)) : In x (tree_kids p t) -> In x (rest ++ rev (tree_kids p t)).
  Proof. intros H. apply in_or_app. right. apply in_rev. rewrite rev_involutive. exact H. Qed.

  Lemma bfs_incl : forall f q l, bfs f q = Some l -> incl q l.
  Proof.
    apply (bfs_ind (@incl _)); [intros x Hx; exact Hx|]. intros f p t rest l' _ IH x Hx.
    destruct Hx as [<-|Hx]; [left; auto|right]. apply IH. apply in_or_app. auto.
  Qed.

  Lemma bfs_split : forall f q l, bfs f q = Some l -> forall e, In e l ->
    exists l1 l2, l = l1 ++ e :: l2 /\ incl (tree_kids (fst e) (snd e)) l2.
  Proof.
    apply (bfs_ind (fun _ l => forall e, In e l -> exists l1 l2, l = l1 ++ e :: l2 /\ _)); [intros e []|].
    intros f p t rest l' E IH e He. destruct He as [<-|He].
    - exists [], l'. split; auto. intros x Hx. apply (bfs_incl _ _ _ E). apply in_rev_kids. exact Hx.
    - destruct (IH e He) as (l1 & l2 & -> & Hk). exists ((p, t) :: l1), l2. auto.
  Qed.

  Lemma queue_cons_ok p t rest : Forall cons_ok ((p, t) :: rest) -> Forall cons_ok (rest ++ rev (tree_kids p t)).
  Proof.
    intros Hq. inversion Hq; subst. apply Forall_app. split; auto.
    apply Forall_forall. intros x Hx. apply in_rev in Hx.
    eapply Forall_forall in Hx; [exact Hx|]. apply kids_cons_ok. assumption.
  Qed.

  Lemma bfs_cons_ok : forall f q l, bfs f q = Some l -> Forall cons_ok q -> Forall cons_ok l.
  Proof.
    apply (bfs_ind (fun q l => Forall cons_ok q -> Forall cons_ok l)); [constructor|]. intros f p t rest l' _ IH Hq.
    constructor; [inversion Hq; auto|]. apply IH. apply queue_cons_ok. exact Hq.
  Qed.

  Lemma total_filter (g : path * stree -> bool) l : total (filter g l) <= total l.
  Proof. induction l as [|x l IH]; simpl; auto. destruct (g x); unfold total in *; simpl; lia. Qed.

  Lemma bfs_fuel : forall f q, total q <= f -> exists l, bfs f q = Some l.
  Proof.
    induction f as [|f IH]; intros [|[p t] rest] Hf; simpl; eauto.
    - unfold total in Hf. simpl in Hf. destruct t; simpl in Hf; lia.
    - destruct (IH (rest ++ rev (tree_kids p t))) as [l ->]; simpl; eauto.
      rewrite total_app, total_rev. unfold total in Hf. simpl in Hf. fold (total rest) in Hf.
      destruct t as [ty v| n ch |]; simpl in *; try lia.
      pose proof (total_filter (fun x => is_tree (snd x)) (with_paths p 0 ch)).
      rewrite total_with_paths in H. lia.
  Qed.

  Definition good (h : heap) : Prop :=
    forall q vs, hlookup h q = Some vs -> forall n ch, subtree root q = Some (Tr n ch) -> vs = map tr ch.

  Lemma ip_children_value h p : good h -> forall ch i,
    (forall j c, nth_error ch j = Some c -> subtree root (p ++ [i + j]) = Some c) ->
    (forall j n ch', nth_error ch j = Some (Tr n ch') -> exists vs, hlookup h (p ++ [i + j]) = Some vs) ->
    fst (ip_children T vt h p i ch) = map tr ch.
  Proof.
    intros Hg. induction ch as [|c ch IH]; intros i Hs Hh; simpl; auto.
    assert (E : fst (ip_children T vt h p (S i) ch) = map tr ch).
    { apply IH.
      - intros j c' Hj. replace (S i + j) with (i + S j) by lia. apply (Hs (S j) c' Hj).
      - intros j n ch' Hj. replace (S i + j) with (i + S j) by lia. apply (Hh (S j) n ch' Hj). }
    destruct (ip_children T vt h p (S i) ch) as [vs l2]. simpl in E. subst vs.
    destruct c as [ty v|n ch'|]; simpl; auto.
    f_equal. unfold cur_children.
    destruct (Hh 0 n ch' eq_refl) as [vs Hvs]. rewrite Nat.add_0_r in Hvs. rewrite Hvs.
    rewrite (Hg _ _ Hvs n ch'); auto.
    specialize (Hs 0 _ eq_refl). rewrite Nat.add_0_r in Hs. exact Hs.
  Qed.

  Lemma ip_fold_snoc a x :
    ip_fold T vt (a ++ [x]) = let '(h', l') := ip_step T vt (fst (ip_fold T vt a)) x in (h', snd (ip_fold T vt a) ++ l').
  Proof. unfold ip_fold. rewrite fold_left_app. reflexivity. Qed.

  Lemma bfs_heap : forall f q l, bfs f q = Some l -> Forall cons_ok q ->
    good (fst (ip_fold T vt (rev l))) /\
    forall p n ch, In (p, Tr n ch) l -> hlookup (fst (ip_fold T vt (rev l))) p = Some (map tr ch).
  Proof.
    apply (bfs_ind (fun q l => Forall cons_ok q -> good (fst (ip_fold T vt (rev l))) /\ _)); [intros _|intros f p t rest l' E IH Hq].
    - split; [intros q vs Hl; discriminate|intros ? ? ? []].
    - pose proof (queue_cons_ok _ _ _ Hq) as Hq'. inversion Hq as [|? ? Hpt Hrest]; subst.
      destruct (IH Hq') as [Hg Hl].
      pose proof (bfs_cons_ok _ _ _ E Hq') as Hc'.
      pose proof (bfs_incl _ _ _ E) as Hincl.
      simpl rev. rewrite ip_fold_snoc.
      set (h := fst (ip_fold T vt (rev l'))) in *.
      destruct t as [ty v|n ch|]; unfold ip_step; simpl.
      (* a token or None is skipped: the heap stays *)
      1, 3: split; auto; intros p' n' ch' [Hx|Hx]; [discriminate|]; apply (Hl _ n' _ Hx).
      assert (Hv : fst (ip_children T vt h p 0 ch) = map tr ch).
      { apply ip_children_value; auto.
        - intros j c Hj. simpl. rewrite subtree_snoc. unfold cons_ok in Hpt. simpl in Hpt. rewrite Hpt. exact Hj.
        - intros j n' ch' Hj. eexists. apply (Hl _ n' ch'). apply Hincl. apply in_rev_kids.
          unfold tree_kids. apply filter_In. split; auto.
          apply in_with_paths. exists j. auto. }
      destruct (ip_children T vt h p 0 ch) as [vs lg]. simpl in Hv. subst vs. simpl.
      split.
      * intros q vs Hlk n' ch' Hsub. simpl in Hlk. destruct (path_eqb p q) eqn:Epq.
        -- apply path_eqb_eq in Epq. subst q. injection Hlk as <-.
           unfold cons_ok in Hpt. simpl in Hpt. rewrite Hpt in Hsub. injection Hsub as -> ->. reflexivity.
        -- eapply Hg; eauto.
      * intros p' n' ch' [Hx|Hx].
        -- injection Hx as -> -> ->. simpl. rewrite path_eqb_refl. reflexivity.
        -- simpl. destruct (path_eqb p p') eqn:Epq.
           ++ apply path_eqb_eq in Epq. subst p'.
              eapply Forall_forall in Hc'; [|exact Hx]. unfold cons_ok in Hc', Hpt. simpl in *.
              rewrite Hpt in Hc'. injection Hc' as -> ->. reflexivity.
           ++ apply (Hl _ n' _ Hx).
  Qed.

  Hypothesis Hroot : exists n ch, root = Tr n ch.

  Theorem transform_ip_value : exists lg, transform_ip T vt root = Some (tr root, lg).
  Proof.
    destruct Hroot as (n & ch & Hr).
    unfold transform_ip, iter_subtrees.
    destruct (bfs_fuel (ssize root) [([], root)]) as [l Hl]; [unfold total; simpl; lia|].
    rewrite Hl. simpl.
    assert (Hq : Forall cons_ok [([], root)]) by (constructor; [reflexivity|constructor]).
    destruct (bfs_heap _ _ _ Hl Hq) as [Hg Hlk].
    destruct (ip_fold T vt (rev l)) as [h lg] eqn:Ef. simpl in *.
    rewrite Hr. eexists. f_equal. f_equal.
    unfold cur_children. rewrite (Hlk [] n ch).
    - rewrite <- Hr. simpl. rewrite Hr. reflexivity.
    - apply (bfs_incl _ _ _ Hl). left. rewrite Hr. reflexivity.
  Qed.
End IP.
