(* C11, stand-alone clause - the regenerated program passes the check; consequences. *)
From Coq Require Import List String Bool.
From LV Require Import Ser.StandaloneModel Ser.Standalone_proofs Ser.NameRes Ser.NameRes_proofs Gen.StandaloneUnits
  Ser.NameResInstance.
Import ListNotations.
Local Open Scope string_scope.
Local Open Scope list_scope.

Lemma sa_tables_ok : sa_anc = anc_table sa_full /\ sa_desc = desc_table sa_full /\ hierarchy_depth_ok sa_full = true
                     /\ keys_unique sa_full = true.
Proof.
  assert (H : sa_anc = anc_table sa_full) by (vm_compute; reflexivity).
  (* [desc_table] walks the base lists again for every class: it is evaluated over the table just checked instead *)
  split; [exact H|]. unfold desc_table. rewrite <- H. vm_compute. repeat split.
Qed.

Lemma sa_checked :
  run_check_with sa_full sau_builtins sau_flags sa_data sa_not_run sa_anc sa_desc (fun _ _ _ r => sa_pc1 r) [] [] [] sa_full = true.
Proof. apply run_check_inc_sound. vm_compute. reflexivity. Qed.

Theorem sa_no_name_error s : sa_steps (initial sa_full) s -> forall u n, s <> NameErr u n.
Proof. exact (no_name_error sa_full sau_builtins sau_flags sa_data sa_not_run sa_anc sa_desc (fun _ _ _ r => sa_pc1 r) sa_checked s). Qed.

Lemma client_label_unique t : In t sa_full -> t_label t = "<client>" -> t = sa_client.
Proof.
  intros Hin. unfold sa_full in Hin. apply in_app_or in Hin. destruct Hin as [Hin|[<-|[]]]; [|reflexivity].
  intros E. exfalso.
  assert (H : forallb (fun t => negb (t_label t =? "<client>")) sau_program = true) by (vm_compute; reflexivity).
  rewrite forallb_forall in H. specialize (H t Hin). rewrite E in H. cbn in H. discriminate.
Qed.

(* while the client statement runs - i.e. whatever a user does with the imported module - only units of [sa_reached] run;
   the units outside it (Lark.__init__, the serialiser, the cache digest ...), which the declared never-run units and
   the unsupported API keep from running, are listed by the harness from [sa_unreached] *)
Lemma sa_reached_eq : c_R (sa_pc1 (u_key (t_eager sa_client))) = sa_reached.
Proof. vm_compute. reflexivity. Qed.
Theorem sa_client_runs_reached b F K todo stack :
  sa_steps (initial sa_full) (Run b F K todo stack (Some sa_client)) -> forall k, In k stack -> In k sa_reached.
Proof.
  intros Hs k Hk. rewrite <- sa_reached_eq.
  exact (stmt_runs_in_cert sa_full sau_builtins sau_flags sa_data sa_not_run sa_anc sa_desc sa_pc1 sa_client sa_checked
           client_label_unique b F K todo stack Hs k Hk).
Qed.

(* DATA with a 'grammar' key (what gen_standalone embedded for an instance built with cache_grammar=True before it was
   repaired, F53): the run  import; Lark_StandAlone(); Lark._load_from_dict; Lark._load  loads Grammar -> NameError *)
Lemma sa_cache_grammar_outcome :
  has_data_grammar_load = true -> cache_grammar_outcome = Some (NameErr "Lark._load" "Grammar").
Proof. vm_compute. intros H; first [reflexivity | discriminate H]. Qed.
Theorem sa_cache_grammar_name_error :
  has_data_grammar_load = true ->
  steps sa_full sau_builtins sau_flags sa_data_cg sa_not_run sa_anc sa_desc (initial sa_full) (NameErr "Lark._load" "Grammar").
Proof.
  intros H. apply (exec_steps _ _ _ _ _ _ _ cache_grammar_run). exact (sa_cache_grammar_outcome H).
Qed.
