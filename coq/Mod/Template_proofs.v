(* C17 - two consequences of Modules_proofs.v: the options of a template instance (from template_is_substitution; the
   template development itself - subst, instance names - is the last part of that file), and when %override of a
   terminal means textual replacement (from override_term_fresh_object). *)
From Coq Require Import List String Ascii Bool ZArith Arith Lia.
From LV Require Import Mod.Modules Mod.Modules_proofs.
Import ListNotations.
Local Open Scope string_scope.

(* the rule created for an instance has the template's options unchanged - keep_all_tokens, expand1,
   priority and the tree label (template_source) - and no parameters *)
Theorem template_instance_keeps_options created rds name args created' rds' rn :
  template_usage_step created rds name args = Ok (created', rds', rn) -> mem rn created = false ->
  exists r inst, find_rdef name rds = [r] /\ rds' = (rds ++ [inst])%list /\
    r_name inst = rn /\ r_params inst = [] /\ r_opts inst = r_opts r /\
    r_tree inst = subst (zip_dict (r_params r) args []) (r_tree r).
Proof.
  intros H Hm. apply template_is_substitution in H. destruct H as (-> & [(Hc & _)|(_ & _ & r & Hf & _ & ->)]).
  - congruence.
  - exists r. eexists. split; [exact Hf|]. split; [reflexivity|]. repeat split.
Qed.

(* %override allocates a new tree object and leaves every other object as it was.  So a tree object (e.g. the
   old object o of the overridden terminal) is referenced from the heap after the override iff it was
   referenced before it from an object other than the new one: the terminals built from the old definition -
   resolved when their module was loaded - keep the old text.  Hence override_replaces means textual
   replacement for terminals exactly when no other tree object holds the overridden terminal's object
   (finding F35). *)
Theorem override_term_seen_iff_unshared g d b b' t :
  d_term d = true -> d_tree d = Some t -> ptrs t = [] -> define_stmt g true d b = Ok b' ->
  forall o, (exists o' t', hget o' (b_heap b') = Some t' /\ In o (ptrs t')) <->
            (exists o' t', o' <> b_next b /\ hget o' (b_heap b) = Some t' /\ In o (ptrs t')).
Proof.
  intros Ht Hd Hp H o. destruct (override_term_fresh_object g d b b' t Ht Hd H) as [Hh _]. rewrite Hh.
  split.
  - intros (o' & t' & Hg & Hi). simpl in Hg. destruct (Nat.eqb o' (b_next b)) eqn:E.
    + inversion Hg; subst. rewrite Hp in Hi. destruct Hi.
    + apply Nat.eqb_neq in E. eauto.
  - intros (o' & t' & Hn & Hg & Hi). exists o', t'. split; auto. simpl.
    apply Nat.eqb_neq in Hn. now rewrite Hn.
Qed.
