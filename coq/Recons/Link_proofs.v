(* C19: link to the shared CFG / Earley specification.  The grammar match_tree hands to its Earley parser is an
   ordinary Cfg.Grammar grammar over the children list (terminals matched by _match); every supported match is a
   derivation of it, so for every tree the parser can return the chart of Earley/Spec.v accepts the children. *)
From Coq Require Import String Ascii List Arith Bool Lia.
From LV Require Import Base.Prelude Cfg.Grammar Earley.Spec Recons.Recons Recons.Recons_proofs
     Recons.Complete_proofs.
Import ListNotations.

Definition to_cfg (G : list rrule) : grammar := map (fun r => mkRule (r_origin r) (r_exp r)) G.

Lemma In_to_cfg G r : In r G -> In (mkRule (r_origin r) (r_exp r)) (to_cfg G).
Proof. intros. unfold to_cfg. apply (in_map (fun r => mkRule (r_origin r) (r_exp r))). auto. Qed.

Section Link.
  Variable G : list rrule.
  Notation derives := (derives (to_cfg G) stree cmatch).

  Definition Dnode (u : utree) : Prop :=
    match u with ULeaf _ => True | UNode r _ => derives [NT (r_origin r)] (leaves u) end.

  Lemma args_derive ss args : uargs_gen Dnode ss args -> derives ss (flat_map leaves args).
  Proof.
    induction 1 as [|t c ss args Hm _ IH|a r args0 ss args <- Hv _ IH]; cbn [flat_map leaves app].
    - constructor.
    - constructor; auto.
    - apply (derives_app _ _ _ [NT (r_origin r)] ss); auto.
  Qed.

  Lemma node_derives : forall u, uvalid G u -> Dnode u.
  Proof.
    apply uvalid_ind2. intros r args Hin Hu. cbn [Dnode leaves]. rewrite <- (app_nil_r (flat_map leaves args)).
    eapply d_nt with (r := mkRule (r_origin r) (r_exp r)); eauto.
    - apply In_to_cfg; auto.
    - exact (args_derive _ _ Hu).
    - constructor.
  Qed.
End Link.

Section Transfer.
  Variables (G G' : list rrule) (K : nat -> Prop).
  Hypothesis HK : forall r, In r G -> K (r_origin r) -> In r G' /\ forall a, In (NT a) (r_exp r) -> K a.

  Definition Tnode (u : utree) : Prop :=
    match u with ULeaf _ => True | UNode r _ => K (r_origin r) -> uvalid G' u end.

  Lemma uargs_transfer ss args : (forall a, In (NT a) ss -> K a) ->
    uargs_gen Tnode ss args -> uargs_gen (uvalid G') ss args.
  Proof.
    intros Hss Hu. induction Hu as [|t c ss args Hm _ IH|a r args0 ss args <- Hv _ IH]; constructor; auto;
      try (apply IH; intros; apply Hss; right; auto).
    apply Hv, Hss. left; auto.
  Qed.

  Lemma uvalid_transfer : forall u, uvalid G u -> Tnode u.
  Proof.
    apply uvalid_ind2. intros r args Hin Hu Hk. destruct (HK r Hin Hk) as (Hin' & Hsyms). constructor; auto.
    exact (uargs_transfer _ _ Hsyms Hu).
  Qed.
End Transfer.

Section Accepts.
  Variable us : nat -> bool.
  Variable P : list prule.

  Lemma supported_valid u data cs : supported us P u data cs ->
    exists r args, u = UNode r args /\ r_origin r = data /\ uvalid (G_for us P data) u /\ leaves u = cs.
  Proof.
    intros (r & args & -> & Hin & Hu & Hl & _). exists r, args. repeat split; auto.
    - destruct (rfr_kind us P _ _ Hin) as (pr & _ & -> & Hs). exact Hs.
    - apply in_or_app. right; auto.
    - apply (uargs_gen_impl (uvalid (rules us P))); auto. apply uvalid_mono. intros r0 H0. apply in_or_app. left; auto.
  Qed.

  Theorem supported_derives u data cs : supported us P u data cs ->
    derives (to_cfg (G_for us P data)) stree cmatch [NT data] cs.
  Proof.
    intros H. destruct (supported_valid _ _ _ H) as (r & args & -> & <- & Hv & <-). exact (node_derives _ _ Hv).
  Qed.

  (* for every tree the parser can return, the Earley chart (Earley/Spec.v) over the node's children, with the
     tree-matching rules the model derives, accepts: match_tree's parse does not fail at the specification level *)
  Theorem matcher_accepts : cls us P -> cls_extra us P ->
    forall pr ds, wf P (DNode pr ds) -> uncollapsed us (DNode pr ds) ->
    accepts_spec (to_cfg (G_for us P (sym_name pr))) stree cmatch (kids us (DNode pr ds)) (sym_name pr).
  Proof.
    intros Hc Hx pr ds Hwf Hun. destruct (match_exists us P Hc Hx pr ds Hwf Hun) as (u & Hs).
    apply accepts_iff_sentence. eapply supported_derives; eauto.
  Qed.
End Accepts.
