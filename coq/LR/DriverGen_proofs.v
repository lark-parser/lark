(* The hand models equal the drivers written over the REGENERATED conditions:
     gfeed  = Driver.feed    (stacks reversed: Python order vs top-first)
     gparse = Driver.parse
     gdecide = Automaton.decide, grow = row, gcollisions = collisions, gcompute_lalr = compute_lalr.
   The proofs unfold the definitions of Gen/LalrHoles.v: when an edit of the source changes one of them in a
   way that matters (`if is_end and ...` loses a conjunct, `>` becomes `>=`, the `if size:` guard goes away,
   a slice bound changes, reverse=True is dropped ...) the corresponding proof no longer goes through. *)
From Coq Require Import List Arith Bool ZArith Lia.
From LV Require Import Cfg.Grammar LR.Driver LR.Automaton Gen.LalrHoles LR.DriverGen.
Import ListNotations.

Lemma py_last_rev {A} (l : list A) : py_last (rev l) = match l with [] => None | x :: _ => Some x end.
Proof. unfold py_last. rewrite rev_involutive. reflexivity. Qed.

Lemma py_lo_neg {A} (n : nat) (l : list A) : 0 < n -> py_lo (- Z.of_nat n) l = length l - n.
Proof.
  intros Hn. unfold py_lo.
  replace (- Z.of_nat n <? 0)%Z with true by (symmetry; apply Z.ltb_lt; lia).
  rewrite Z.opp_involutive, Nat2Z.id. reflexivity.
Qed.

Lemma py_from_rev {A} (n : nat) (l : list A) : 0 < n ->
  py_from (- Z.of_nat n) (rev l) = rev (firstn n l).
Proof.
  intros Hn. unfold py_from. rewrite py_lo_neg by auto. rewrite rev_length, skipn_rev.
  destruct (Nat.le_gt_cases n (length l)).
  - replace (length l - (length l - n)) with n by lia. reflexivity.
  - replace (length l - (length l - n)) with (length l) by lia.
    rewrite !firstn_all2 by lia. reflexivity.
Qed.

Lemma py_del_from_rev {A} (n : nat) (l : list A) : 0 < n ->
  py_del_from (- Z.of_nat n) (rev l) = rev (skipn n l).
Proof.
  intros Hn. unfold py_del_from. rewrite py_lo_neg by auto. rewrite rev_length, firstn_rev.
  destruct (Nat.le_gt_cases n (length l)).
  - replace (length l - (length l - n)) with n by lia. reflexivity.
  - replace (length l - (length l - n)) with (length l) by lia.
    rewrite !skipn_all2 by lia. reflexivity.
Qed.

Lemma zeqb_nat a b : Z.eqb (Z.of_nat a) (Z.of_nat b) = Nat.eqb a b.
Proof.
  destruct (Nat.eqb_spec a b) as [->|N]; [apply Z.eqb_refl|].
  apply Z.eqb_neq. lia.
Qed.

(* `if size:` around a slice by -size: for size = 0 the untouched value is what the slice would give *)
Lemma size_guard {B} (n : nat) (a b c : B) :
  (n = 0 -> b = c) -> (0 < n -> a = c) -> (if negb (Z.eqb (Z.of_nat n) 0) then a else b) = c.
Proof.
  intros H0 Hp. destruct n as [|n]; [now apply H0|].
  replace (Z.eqb (Z.of_nat (S n)) 0) with false by (symmetry; apply Z.eqb_neq; lia).
  apply Hp. lia.
Qed.

Section GD.
  Variable tok : Type.
  Variable ttype : tok -> nat.
  Variable P : ptable.

  Definition cfg_py (c : config tok) : gconfig tok := mkG (rev (sstack c)) (rev (vstack c)).
  Definition out_py (o : outcome tok) : goutcome tok :=
    match o with
    | Shifted c => GShifted (cfg_py c)
    | Accepted t => GAccepted t
    | Unexpected c => GUnexpected (cfg_py c)
    | DAssert c => GAssert (cfg_py c)
    | DCrash c => GCrash (cfg_py c)
    | DFuel => GFuel
    end.

  (* ParserState.feed_token over the regenerated conditions = the hand model, for every table, every
     configuration, every token and both values of is_end *)
  Theorem gfeed_eq_feed fuel : forall c k is_end,
    gfeed tok ttype P fuel (cfg_py c) k is_end = out_py (feed tok ttype P fuel c k is_end).
  Proof.
    induction fuel as [|fuel IH]; intros c k is_end; [reflexivity|].
    destruct c as [ss vs]. cbn [gfeed feed cfg_py g_states g_values sstack vstack].
    rewrite py_last_rev. destruct ss as [|q ss]; [reflexivity|].
    destruct (pt_action P q (T (ttype k))) as [[q'|r]|]; [| |reflexivity].
    - unfold ft_arg_ok, ft_is_shift, ft_shift_ok. cbn [is_shift_b arg_z negb].
      rewrite zeqb_nat, negb_involutive.
      destruct (Nat.eqb q' (pt_end P)); [reflexivity|].
      cbn [negb]. rewrite negb_involutive. destruct is_end; [reflexivity|].
      cbn [out_py cfg_py sstack vstack rev]. reflexivity.
    - unfold ft_arg_ok, ft_is_shift. cbn [is_shift_b arg_z].
      replace (Z.eqb (-1) (Z.of_nat (pt_end P))) with false by (symmetry; apply Z.eqb_neq; lia).
      cbn [negb].
      unfold ft_pop_guard, ft_lo_values, ft_lo_del_states, ft_lo_del_values.
      remember (length (rhs r)) as n eqn:En.
      assert (Hsv : (if negb (Z.eqb (Z.of_nat n) 0) then py_from (- Z.of_nat n) (rev vs) else [])
                    = rev (firstn n vs))
        by (apply size_guard; [now intros -> | apply py_from_rev]).
      assert (Hss : (if negb (Z.eqb (Z.of_nat n) 0) then py_del_from (- Z.of_nat n) (rev (q :: ss)) else rev (q :: ss))
                    = rev (skipn n (q :: ss)))
        by (apply size_guard; [now intros -> | apply py_del_from_rev]).
      assert (Hvs : (if negb (Z.eqb (Z.of_nat n) 0) then py_del_from (- Z.of_nat n) (rev vs) else rev vs)
                    = rev (skipn n vs))
        by (apply size_guard; [now intros -> | apply py_del_from_rev]).
      cbn zeta. rewrite Hsv, Hss, Hvs. rewrite py_last_rev.
      destruct (skipn n (q :: ss)) as [|q2 ss2] eqn:Esk; [reflexivity|].
      destruct (pt_action P q2 (NT (lhs r))) as [[q3|r2]|]; [| reflexivity | reflexivity].
      unfold ft_goto_ok, ft_accept. cbn [is_shift_b arg_z negb].
      rewrite zeqb_nat.
      destruct (is_end && Nat.eqb q3 (pt_end P)); [reflexivity|].
      specialize (IH (mkConfig (q3 :: q2 :: ss2) (Node r (rev (firstn n vs)) :: skipn n vs)) k is_end).
      cbn [cfg_py sstack vstack rev] in IH. exact IH.
  Qed.

  Lemma gfeed_all_eq fuel : forall w c,
    gfeed_all tok ttype P fuel (cfg_py c) w = out_py (feed_all tok ttype P fuel c w).
  Proof.
    induction w as [|k w IH]; intros c; [reflexivity|].
    cbn [gfeed_all feed_all]. unfold pfs_loop_is_end, ft_is_end_default.
    rewrite gfeed_eq_feed. destruct (feed tok ttype P fuel c k false); cbn [out_py]; auto.
  Qed.

  (* _Parser.parse_from_state over the regenerated flags = the hand model *)
  Theorem gparse_eq_parse fuel w end_tok :
    gparse tok ttype P fuel w end_tok = out_py (parse tok ttype P fuel w end_tok).
  Proof.
    unfold gparse, parse. change (ginit tok P) with (cfg_py (init_config P)).
    rewrite gfeed_all_eq. destruct (feed_all tok ttype P fuel (init_config P) w); cbn [out_py]; auto.
    unfold pfs_end_is_end. apply gfeed_eq_feed.
  Qed.
End GD.

(* the end token fed by parse_from_state and by feed_eof has type $END, and the loop uses is_end = False *)
Lemma end_token_pinned :
  pfs_end_type_is_END = true /\ ip_eof_type_is_END = true /\ pfs_loop_is_end = false /\ pfs_end_is_end = true.
Proof. repeat split; reflexivity. Qed.

Theorem gdecide_eq_decide prio rs : gdecide prio rs = decide prio rs.
Proof.
  unfold gdecide, decide, rr_needs_resolution, rr_sort_descending, rr_winner.
  destruct rs as [|r1 [|r2 rs]]; [reflexivity | reflexivity |].
  replace (Z.gtb (Z.of_nat (length (r1 :: r2 :: rs))) 1) with true
    by (symmetry; rewrite Z.gtb_ltb; apply Z.ltb_lt; cbn [length]; lia).
  destruct (sort_desc _) as [|[p1 x1] [|[p2 x2] l]]; auto.
  rewrite Z.gtb_ltb. reflexivity.
Qed.

Theorem grow_eq_row rules prio A LA q : grow rules prio A LA q = row rules prio A LA q.
Proof.
  unfold grow, row, greduce_entries, reduce_entries, sr_keeps_shift. f_equal.
  apply flat_map_ext. intros s. rewrite gdecide_eq_decide. reflexivity.
Qed.

Theorem gcollisions_eq prio A LA : gcollisions prio A LA = collisions prio A LA.
Proof.
  unfold gcollisions, collisions. apply flat_map_ext. intros q. apply flat_map_ext. intros s.
  rewrite gdecide_eq_decide. reflexivity.
Qed.

Theorem gcompute_lalr_eq rules prio roots tEND fuel :
  gcompute_lalr rules prio roots tEND fuel = compute_lalr rules prio roots tEND fuel.
Proof.
  unfold gcompute_lalr, compute_lalr. destruct (build_lr0 rules roots fuel) as [A|]; [|reflexivity].
  cbn zeta. rewrite gcollisions_eq. unfold rr_raises.
  destruct (collisions prio A _) as [|c cs]; cbn [negb].
  - f_equal. unfold gtable_rows, table_rows. apply map_ext. intros q. now rewrite grow_eq_row.
  - reflexivity.
Qed.

(* the priority a rule without one gets (r.options.priority or <default>) is the default the model's
   [prio_of] uses for an index outside the exported list, and what the harness exports for None *)
Lemma prio_default_pinned : rr_prio_default = 0%Z.
Proof. reflexivity. Qed.
