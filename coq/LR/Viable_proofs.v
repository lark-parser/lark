(* Never-late half of "the error is reported at the first offending
   token" for the LALR driver: with a valid item annotation (Viable.wf_items_v) and productive
   rule bodies, every configuration the driver reaches has consumed a viable prefix, every
   token it shifts keeps the prefix viable, and an UnexpectedToken is raised with a viable
   consumed input.  Only LR(0) item validity is used - nothing about look-ahead sets. *)
From Coq Require Import List Arith Bool Lia.
From LV Require Import Cfg.Grammar Earley.Spec Earley.Prefix LR.Driver LR.Driver_proofs LR.Viable.
Import ListNotations.

Section VP.
  Variable tok : Type.
  Variable ttype : tok -> nat.
  Variable G : grammar.
  Variable P : ptable.
  Variable start : nat.
  Variable items : state -> list (rule * nat).

  Notation tm := (tmatch tok ttype).
  Notation derives := (derives G tok tm).
  Notation viable := (viable G tok tm start).
  Notation item_viable := (item_viable_lr G start tok tm).
  Notation stack_ok := (stack_ok tok ttype G P).
  Notation consumed := (consumed tok).
  Notation justified := (justified G P start items).

  Hypothesis WV : wf_items_v G P start items.
  Hypothesis Hprod : productive_bodies G tok tm.

  Let WI := wv_items _ _ _ _ WV.
  Let WT : wf_table G P start := wf_items_table G P start items WI.

  Lemma viable_weaken p u : viable (p ++ u) -> viable p.
  Proof. intros (v & Hv). exists (u ++ v). now rewrite app_assoc. Qed.

  Lemma clos_viable c r r' d' :
    item_viable c r' d' -> In r' G -> nth_error (rhs r') d' = Some (NT (lhs r)) -> In r G ->
    item_viable c r 0.
  Proof.
    intros IV Hin' Hn Hin u Hu. simpl in Hu.
    destruct (Hprod r' (S d') Hin') as (u2 & Hu2).
    assert (Hd : derives (skipn d' (rhs r')) (u ++ u2)).
    { rewrite (skipn_nth _ _ _ Hn). eapply d_nt with (r := r); eauto. }
    apply IV in Hd. rewrite app_assoc in Hd. exact (viable_weaken _ _ Hd).
  Qed.

  Lemma advance_viable c r d' (t : dtree tok) :
    item_viable c r d' -> nth_error (rhs r) d' = Some (root tok ttype t) -> wf_tree tok ttype G t ->
    item_viable (c ++ yield tok t) r (S d').
  Proof.
    intros IV Hn Hw u Hu.
    assert (Hd : derives (skipn d' (rhs r)) (yield tok t ++ u)).
    { rewrite (skipn_nth _ _ _ Hn).
      change (root tok ttype t :: skipn (S d') (rhs r)) with ([root tok ttype t] ++ skipn (S d') (rhs r)).
      apply derives_app; auto. now apply wf_tree_derives. }
    apply IV in Hd. now rewrite <- app_assoc.
  Qed.

  Lemma stack_items_viable ss vs : stack_ok ss vs ->
    forall q ss', ss = q :: ss' -> forall r d, justified q r d -> item_viable (consumed vs) r d.
  Proof.
    induction 1 as [|q0 ss0 vs0 t q' Hok IH Hw Ha]; intros q ss' E r d HJ; inversion E; subst;
      (induction HJ as [r d Hin | r Hq Hin Hr | r r' d' HJ' IH' Hin' Hn Hin]; [| |eapply clos_viable; eauto]).
    - apply (wi_init _ _ _ _ WI) in Hin. discriminate.
    - intros u Hu. rewrite Hr in Hu. simpl in Hu. exists []. now rewrite app_nil_r.
    - destruct (wi_shift _ _ _ _ WI _ _ _ _ _ Ha Hin) as [E0 | (d' & Ed & Hn & Hin')]; [discriminate|].
      inversion Ed; subst d'. rewrite consumed_push.
      apply advance_viable; auto.
      apply (IH q0 ss0 eq_refl). apply (wv_just _ _ _ _ WV). exact Hin'.
    - exfalso. apply (wi_start _ _ _ _ WI q0 (root tok ttype t)). now rewrite <- Hq.
  Qed.

  Lemma stack_viable ss vs : stack_ok ss vs -> viable (consumed vs).
  Proof.
    destruct 1 as [|q ss vs t q' Hok Hw Ha].
    - destruct (wv_root _ _ _ _ WV) as (r & Hin & Hr).
      destruct (Hprod r 0 Hin) as (u & Hu). simpl in Hu. rewrite Hr in Hu.
      exists u. exact Hu.
    - destruct (wv_src _ _ _ _ WV _ _ _ Ha) as (r & d & Hit & Hin & Hn).
      pose proof (stack_items_viable _ _ Hok q ss eq_refl r d (wv_just _ _ _ _ WV _ _ _ Hit)) as IV.
      pose proof (advance_viable _ _ _ _ IV Hn Hw) as IV'.
      destruct (Hprod r (S d) Hin) as (u2 & Hu2).
      rewrite consumed_push. exact (viable_weaken _ _ (IV' _ Hu2)).
  Qed.

  Notation cfg_ok := (cfg_ok tok ttype G P).

  (* one feed_token call that ends in a shift (after any number of reductions): the configuration it
     returns is a good one that has consumed k as well, and what a good configuration has consumed is viable *)
  Theorem feed_shift_viable fuel c k e c' :
    cfg_ok c -> feed tok ttype P fuel c k e = Shifted c' -> viable (consumed (vstack c) ++ [k]).
  Proof.
    intros Hc H. pose proof (feed_inv tok ttype G P start WT fuel c k e Hc) as HI. rewrite H in HI.
    destruct HI as (Hc' & <- & _). exact (stack_viable _ _ Hc').
  Qed.

  (* C08, LALR, never late (1): if after consuming u the driver shifts token k, then u ++ [k]
     can be extended to a sentence *)
  Theorem lalr_shift_viable fuel u c k c' :
    feed_all tok ttype P fuel (init_config P) u = Shifted c ->
    feed tok ttype P fuel c k false = Shifted c' ->
    viable (u ++ [k]).
  Proof.
    intros H1 H2. destruct (feed_all_init tok ttype G P start WT fuel u c H1) as (Hc & <-).
    eapply feed_shift_viable; eauto.
  Qed.

  (* (2): when UnexpectedToken is raised, what has been consumed is a viable prefix (and a
     prefix of the input): the error is never reported later than the first offending token *)
  Theorem lalr_error_not_late fuel w c :
    feed_all tok ttype P fuel (init_config P) w = Unexpected c ->
    exists w1 w2, w = w1 ++ w2 /\ consumed (vstack c) = w1 /\ viable w1.
  Proof.
    intros H.
    destruct (driver_error_prefix tok ttype G P start WT fuel w c H) as (Hc & w1 & w2 & E & Hcons).
    exists w1, w2. repeat split; auto. rewrite <- Hcons.
    unfold Driver_proofs.cfg_ok in Hc. eapply stack_viable; eauto.
  Qed.

  (* (3): accepts(): a token whose trial feed from a reachable configuration succeeds can
     legally come next; and a successful trial feed of $END means the consumed input is a sentence *)
  Theorem accepts_sound_model fuel c k c' :
    cfg_ok c -> feed tok ttype P fuel c k false = Shifted c' -> viable (consumed (vstack c) ++ [k]).
  Proof. exact (feed_shift_viable fuel c k false c'). Qed.

  Theorem accepts_end_sound fuel c k t :
    cfg_ok c -> feed tok ttype P fuel c k true = Accepted t ->
    derives [NT start] (consumed (vstack c)).
  Proof.
    intros Hc H. pose proof (feed_inv tok ttype G P start WT fuel c k true Hc) as HI.
    rewrite H in HI. destruct HI as (Hw & Hr & Hy & _). rewrite <- Hy, <- Hr.
    now apply wf_tree_derives.
  Qed.
End VP.
