(* C19, character level with NO per-tree hypothesis: for a grammar whose lexer satisfies the decidable per-grammar
   condition relex_safe_b (RelexSafe.v), every tree the char-level parser (BasicLexer model with the computed matcher
   m_cp, then the parser specification) returns on ANY source text is reconstructed to a text that lexes back to the
   written tokens and parses back to the same tree.
     recon_tokens_from   : the tokens _reconstruct yields are tokens of the tree or re-inserted literals
     shape_tokens_yield  : the tokens of a parser tree are tokens of the derivation's yield
     relex_safe_implies_bc : hence all written tokens are lexable, and relex_safe_bc gives bc_b
     char_roundtrip_safe : the round trip. *)
From Coq Require Import ZArith String Ascii List Arith Bool Lia.
From LV Require Import Base.Prelude Cfg.Grammar Lex.LexerBase Lex.Lexer Forest.ExplicitBuild Forest.ExplicitAlgBuild
     Recons.Recons Recons.ReconsCheck Recons.ReconsCheck_proofs Recons.Recons_proofs Recons.Complete_proofs
     Recons.Roundtrip_proofs Recons.Text_proofs Recons.EarleyM Recons.EarleyM_proofs Recons.EarleyM_sel Recons.Relex
     Recons.Relex_proofs Recons.Char_proofs Recons.RelexSafe Recons.RelexSafe_proofs.
Import ListNotations.

Fixpoint tokens_of (t : stree) : list token :=
  match t with
  | Tok n s => [(n, s)]
  | Node _ cs => flat_map tokens_of cs
  end.

Lemma tokens_of_child d cs c tok : In c cs -> In tok (tokens_of c) -> In tok (tokens_of (Node d cs)).
Proof. intros Hc Ht. simpl. apply in_flat_map. exists c. auto. Qed.

Section Written.
  Variable lit : nat -> option string.

  Variable M : stree -> option utree.
  Hypothesis M_leaves : forall t u, M t = Some u -> exists data cs, t = Node data cs /\ leaves u = cs.
  Variable Q : token -> Prop.
  Hypothesis Q_lit : forall n v, lit n = Some v -> Q (n, v).

  Theorem recon_tokens_from : forall fuel t toks, recon lit M fuel t = Ok toks ->
    Forall Q (tokens_of t) -> Forall Q toks.
  Proof.
    induction fuel as [|f IH]; intros t toks H Ht; simpl in H; [discriminate|].
    destruct t as [n s|data cs]; [discriminate|].
    destruct (M (Node data cs)) as [u|] eqn:EM; [|discriminate].
    destruct (M_leaves _ _ EM) as (data' & cs' & E & Hlv). injection E as E1 E2. rewrite <- E2 in Hlv. clear E1 E2.
    destruct (write lit u) as [c0|[items| |]] eqn:Ew; try discriminate.
    pose proof (write_items lit _ _ Ew) as Hit. rewrite Forall_forall, Hlv in Hit. rewrite Forall_forall in Ht.
    destruct (expand_ok _ _ _ H) as (Hsub & ->). unfold expandY. apply Forall_flat_map. apply Forall_forall. intros it Hin.
    specialize (Hit _ Hin). destruct it as [n v|[n s|d cs0]]; simpl in *.
    - constructor; auto.
    - constructor; auto. apply Ht. apply (tokens_of_child data cs (Tok n s)); auto. simpl. now left.
    - destruct (Hsub _ Hin) as (l & El). rewrite El. apply (IH _ _ El).
      apply Forall_forall. intros tok Htok. apply Ht. apply (tokens_of_child data cs (Node d cs0)); auto.
  Qed.
End Written.

Fixpoint dtree_ind2 (Q : dtree -> Prop) (HT : forall n s, Q (DTok n s))
         (HN : forall r ds, Forall Q ds -> Q (DNode r ds)) (d : dtree) : Q d :=
  match d with
  | DTok n s => HT n s
  | DNode r ds =>
      HN r ds ((fix go (l : list dtree) : Forall Q l :=
                  match l with
                  | [] => Forall_nil _
                  | x :: l' => Forall_cons _ (dtree_ind2 Q HT HN x) (go l')
                  end) ds)
  end.

Section ShapeTokens.
  Variable us : nat -> bool.

  Lemma tokens_wrap r ks tok : In tok (tokens_of (wrap r ks)) -> In tok (flat_map tokens_of ks).
  Proof.
    unfold wrap. destruct (p_expand1 r && negb (has_alias r)); auto.
    destruct ks as [|k [|k' ks]]; auto. simpl. try rewrite app_nil_r. auto.
  Qed.

  Lemma kids_tokens_yield : forall d tok, In tok (flat_map tokens_of (kids us d)) -> In tok (yield d).
  Proof.
    apply (dtree_ind2 (fun d => forall tok, In tok (flat_map tokens_of (kids us d)) -> In tok (yield d))).
    - intros n s tok H. simpl in H. try rewrite app_nil_r in H. exact H.
    - intros r ds IH tok H. rewrite kids_eq in H. simpl yield. revert H. generalize (p_exp r).
      induction ds as [|d ds IHds]; intros ss H; destruct ss as [|s ss]; simpl in H; try contradiction.
      inversion IH as [|? ? Hd Hds]; subst.
      rewrite flat_map_app in H. simpl. apply in_or_app. apply in_app_or in H. destruct H as [H|H].
      + left. unfold contrib in H. destruct s as [n fo|a].
        * destruct fo; [contradiction|auto].
        * destruct (us a); auto. simpl in H. try rewrite app_nil_r in H.
          destruct d as [n s|r' ds']; simpl in H; [exact H|]. apply Hd. eapply tokens_wrap; eauto.
      + right. eapply IHds; eauto.
  Qed.

  Theorem shape_tokens_yield pr ds tok : In tok (tokens_of (shape us (DNode pr ds))) -> In tok (yield (DNode pr ds)).
  Proof. intros H. apply kids_tokens_yield. simpl in H. eapply tokens_wrap; eauto. Qed.
End ShapeTokens.

Section CharSafe.
  Variable us : nat -> bool.
  Variable P : list prule.
  Hypothesis Hc : cls us P.
  Hypothesis Hx : cls_extra us P.
  Hypothesis Hplain : plain_roots us P.
  Variable order : nlabel stree -> list (family stree) -> list (family stree).
  Hypothesis order_perm : forall l fs f, In f (order l fs) <-> In f fs.
  Variable lits : list (nat * string).
  Hypothesis Hlit : forall r n, In r P -> In (Tm n true) (p_exp r) -> lookup_lit lits n <> None.
  Hypothesis Hdisj : forall r n fo, In r P -> In (Tm n fo) (p_exp r) ->
                     forall r', In r' P -> p_origin r' <> n /\ p_alias r' <> Some n.
  Variable cok : list term -> bool.
  Variable names : list string.
  Variable terms : list term.
  Variable ign : list string.
  Variable L : blexer.
  Hypothesis HL : make_lexer m_cp cok terms ign = Some L.
  Hypothesis Hsafe : relex_safe_b names L lits = true.

  Notation M := (M_earley us P (sel_graph order)).
  Notation lexm := (lex_model m_cp cok names terms ign).
  Notation lit := (lookup_lit lits).

  Lemma M_leaves t u : M t = Some u -> exists data cs, t = Node data cs /\ leaves u = cs.
  Proof.
    destruct t as [n s|data cs]; [discriminate|]. intros H.
    destruct (M_graph_sound order order_perm us P data cs u H) as (r & args & _ & _ & _ & _ & Hl). eauto.
  Qed.

  Theorem relex_safe_implies_bc fuel t toks :
    Forall (lexable names L) (tokens_of t) -> recon lit M fuel t = Ok toks ->
    bc_b m_cp names L (reconstruct_text toks) 0 EmptyString toks = true.
  Proof.
    intros Ht Hr. apply (relex_safe_bc names L lits); auto.
    apply (recon_tokens_from lit M M_leaves (lexable names L)) with (fuel := fuel) (t := t); auto.
    intros n v Hl. eapply lits_lexable; eauto.
  Qed.

  Lemma parsed_tokens_lexable start src t : parses_text us P lexm start src t ->
    Forall (lexable names L) (tokens_of t).
  Proof.
    intros (toks & Hlex & pr & ds & Hwf & Ho & Hy & Hsh). unfold lex_model in Hlex. rewrite HL in Hlex.
    pose proof (lex_with_lexable names L (proj1 (relex_safe_parts _ _ _ Hsafe)) src toks Hlex) as Hf. rewrite Forall_forall in Hf.
    apply Forall_forall. intros tok Htok. apply Hf. rewrite <- Hy. apply (shape_tokens_yield us). rewrite Hsh. exact Htok.
  Qed.

  Theorem char_roundtrip_safe start src t :
    ~ In start (expand1s P) -> us start = false ->
    parses_text us P lexm start src t ->
    exists fuel toks,
      recon lit M fuel t = Ok toks /\
      lexm (reconstruct_text toks) = Some toks /\
      parses_text us P lexm start (reconstruct_text toks) t /\
      (unambiguous P start -> forall t', parses_text us P lexm start (reconstruct_text toks) t' -> t' = t).
  Proof.
    intros Hne Hus Hp. pose proof (parsed_tokens_lexable _ _ _ Hp) as Hlx.
    destruct Hp as (toks0 & Hlex0 & pr0 & ds0 & Hwf & Ho & Hy & Hsh).
    destruct (char_roundtrip_earley us P Hc Hx Hplain order order_perm lit Hlit Hdisj m_cp cok names terms ign L HL
                start pr0 ds0 Hwf Ho Hne Hus) as (fuel & toks & Hr & Hrest).
    rewrite Hsh in *. exists fuel, toks. split; auto. apply Hrest. eapply relex_safe_implies_bc; eauto.
  Qed.
End CharSafe.
