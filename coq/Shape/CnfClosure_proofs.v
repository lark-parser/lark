(* closure_check (decidable, evaluated per grammar) implies unit_closure_spec. *)
From Coq Require Import String Ascii List Bool Arith Lia.
From LV Require Import Base.Prelude Shape.Chain Shape.Spec Shape.Cnf Shape.CnfLink Shape.CykParse_proofs.
Import ListNotations.

Lemma csym_eqb_eq a b : csym_eqb a b = true -> a = b.
Proof. destruct a, b; simpl; intros H; try discriminate; [apply String.eqb_eq in H|apply cnt_eqb_eq in H]; congruence. Qed.

Lemma calias_eqb_eq a b : calias_eqb a b = true -> a = b.
Proof. destruct a, b; simpl; intros H; try discriminate; auto. apply Nat.eqb_eq in H. congruence. Qed.

Lemma leqb_eq {A} (f : A -> A -> bool) : (forall x y, f x y = true -> x = y) -> forall a b, leqb f a b = true -> a = b.
Proof.
  intros Hf. induction a as [|x a IH]; intros [|y b] H; simpl in H; try discriminate; auto.
  apply andb_true_iff in H. destruct H as [H1 H2]. f_equal; auto.
Qed.

Lemma crule_eqb_eq a b : crule_eqb a b = true -> a = b.
Proof.
  unfold crule_eqb. intros H. repeat (apply andb_true_iff in H; destruct H as [H ?]).
  destruct a as [l1 r1 a1 s1], b as [l2 r2 a2 s2]; simpl in *.
  apply cnt_eqb_eq in H. apply (leqb_eq _ csym_eqb_eq) in H2. apply calias_eqb_eq in H1.
  apply (leqb_eq (fun x y => cnt_eqb (fst x) (fst y) && calias_eqb (snd x) (snd y))) in H0.
  - congruence.
  - intros [x1 x2] [y1 y2] E. simpl in E. apply andb_true_iff in E. destruct E as [E1 E2].
    apply cnt_eqb_eq in E1. apply calias_eqb_eq in E2. congruence.
Qed.

Lemma existsb_crule r l : existsb (crule_eqb r) l = true -> In r l.
Proof. intros H. apply existsb_exists in H. destruct H as (x & Hin & E). apply crule_eqb_eq in E. subst. exact Hin. Qed.

Lemma in_terms_of t l : In t (terms_of l) <-> In (CT t) l.
Proof.
  unfold terms_of. rewrite in_flat_map. split.
  - intros ([t'|x] & Hx & Ht); simpl in Ht; [|destruct Ht]. destruct Ht as [<-|[]]. exact Hx.
  - intros H. exists (CT t). split; simpl; auto.
Qed.

Section Closure.
  Variable rules : list rrec.
  Notation exp_of := (exp_of rules).
  Notation origin := (origin rules).
  Notation chain := (chain rules).
  Notation canon := (canon rules).
  Notation is_unit_rid := (is_unit_rid rules).
  Notation n := (length rules).

  Lemma is_unit_iff rid b : is_unit_rid rid = Some b <-> exp_of rid = [CN (NOrig b)].
  Proof.
    unfold CnfLink.is_unit_rid. split; [|intros ->; reflexivity].
    destruct (exp_of rid) as [|[t|[x|t|f i]] [|s l]]; intros H; try discriminate. congruence.
  Qed.

  Lemma is_unit_none rid : is_unit_rid rid = None -> forall b, exp_of rid <> [CN (NOrig b)].
  Proof. intros H b E. apply is_unit_iff in E. congruence. Qed.

  Lemma chainb_sound : forall sk rid f, chainb rules rid sk = Some f -> chain rid sk f.
  Proof.
    induction sk as [|[l a] sk IH]; intros rid f H; simpl in H;
      destruct (Nat.ltb rid n) eqn:El; simpl in H; try discriminate; apply Nat.ltb_lt in El.
    - destruct (is_unit_rid rid) eqn:Eu; [discriminate|]. injection H as <-. constructor; auto. apply is_unit_none. exact Eu.
    - destruct l as [b| |]; try discriminate. destruct a as [r1| |]; try discriminate.
      destruct (is_unit_rid rid) as [b'|] eqn:Eu; [|discriminate].
      destruct (String.eqb b' b && String.eqb (origin r1) b) eqn:Eb; [|discriminate].
      apply andb_true_iff in Eb. destruct Eb as [E1 E2]. apply String.eqb_eq in E1, E2. subst b'. rewrite <- E2.
      constructor; auto. apply is_unit_iff. rewrite E2. exact Eu.
  Qed.

  Theorem canonb_sound r : canonb rules r = true -> canon r.
  Proof.
    unfold canonb. destruct r as [l rhs a sk]; cbn [c_lhs c_alias c_skipped c_rhs]. destruct l as [a0|t|f i]; intros H.
    - destruct a as [rid| |]; try discriminate. destruct (chainb rules rid sk) as [f|] eqn:Ec; [|discriminate].
      rewrite andb_true_iff, String.eqb_eq in H. destruct H as [<- H2]. apply (leqb_eq _ csym_eqb_eq) in H2.
      subst. apply canon_head. apply chainb_sound. exact Ec.
    - rewrite andb_true_iff, existsb_exists in H. destruct H as [H1 (rid & Hin & H2)].
      rewrite andb_true_iff, existsb_exists in H2. destruct H2 as [Ht (x & Hx & E)].
      apply crule_eqb_eq in H1. apply csym_eqb_eq in E. apply in_seq in Hin. subst x. rewrite H1.
      apply (canon_term rules rid t); auto. lia.
    - rewrite !andb_true_iff, Nat.ltb_lt, Nat.leb_le in H. destruct H as [[Hlt H3] He].
      apply existsb_crule in He. apply (canon_split rules f); auto.
  Qed.

  Lemma chain_lt rid sk f : chain rid sk f -> rid < n.
  Proof. destruct 1; auto. Qed.

  Lemma chains_sound : forall fuel rid sk f, rid < n -> In (sk, f) (chains rules fuel rid) -> chain rid sk f.
  Proof.
    induction fuel as [|fu IH]; intros rid sk f Hlt H; [destruct H|]. simpl in H.
    destruct (is_unit_rid rid) as [b|] eqn:Eu.
    - apply in_flat_map in H. destruct H as (r1 & Hr1 & H). apply in_seq in Hr1.
      destruct (String.eqb (origin r1) b) eqn:Eb; [|destruct H]. apply String.eqb_eq in Eb.
      apply in_map_iff in H. destruct H as ([sk' f'] & E & Hin). simpl in E. injection E as <- <-.
      constructor; auto. { apply is_unit_iff. rewrite Eb. exact Eu. } apply IH; auto. lia.
    - destruct H as [E|[]]. injection E as <- <-. constructor; auto. apply is_unit_none. exact Eu.
  Qed.

  Hypothesis Hrank : unit_rank_ok rules = true.

  Lemma rank_ok rid : rid < n ->
    urank rules n rid <= n /\
    forall r1, r1 < n -> exp_of rid = [CN (NOrig (origin r1))] -> urank rules n r1 < urank rules n rid.
  Proof.
    intros H1. unfold unit_rank_ok in Hrank. rewrite forallb_forall in Hrank.
    specialize (Hrank rid ltac:(apply in_seq; lia)). apply andb_true_iff in Hrank. destruct Hrank as [Ha Hb].
    split; [apply Nat.leb_le; exact Hb|]. intros r1 H2 He.
    rewrite (proj2 (is_unit_iff rid _) He) in Ha. rewrite forallb_forall in Ha. specialize (Ha r1 ltac:(apply in_seq; lia)).
    rewrite String.eqb_refl in Ha. apply Nat.ltb_lt. exact Ha.
  Qed.

  Lemma chains_complete rid sk f : chain rid sk f -> forall fuel, urank rules n rid < fuel -> In (sk, f) (chains rules fuel rid).
  Proof.
    induction 1 as [rid Hlt Hnu|rid r1 sk f Hlt He Hch IH]; intros fuel Hf; (destruct fuel as [|fu]; [lia|]); simpl.
    - destruct (is_unit_rid rid) as [b|] eqn:Eu; [exfalso; apply (Hnu b); apply is_unit_iff; exact Eu|]. left. reflexivity.
    - rewrite (proj2 (is_unit_iff rid _) He). apply in_flat_map. exists r1. pose proof (chain_lt _ _ _ Hch) as Hr1.
      split; [apply in_seq; lia|]. rewrite String.eqb_refl. apply in_map_iff. exists (sk, f). split; [reflexivity|].
      apply IH. pose proof (proj2 (rank_ok rid Hlt) r1 Hr1 He). lia.
  Qed.

  Lemma spec_cnf_sound r : In r (spec_cnf rules) -> canon r.
  Proof.
    unfold spec_cnf. rewrite !in_app_iff, !in_flat_map.
    intros [(rid & Hrid & H)|[(rid & Hrid & H)|(rid & Hrid & H)]]; apply in_seq in Hrid.
    - destruct (tf_of rules rid) eqn:Et; [|destruct H]. apply in_map_iff in H. destruct H as (t & <- & Ht).
      apply (canon_term rules rid t); auto; [lia|]. apply in_terms_of. exact Ht.
    - destruct (Nat.leb 3 (length (e_of rules rid))) eqn:E3; [|destruct H]. apply Nat.leb_le in E3.
      apply (canon_split rules rid); auto. lia.
    - apply in_map_iff in H. destruct H as ([sk f] & <- & Hc). simpl. apply canon_head.
      apply (chains_sound (S n)); auto. lia.
  Qed.

  Lemma spec_cnf_complete r : canon r -> In r (spec_cnf rules).
  Proof.
    unfold spec_cnf. rewrite !in_app_iff, !in_flat_map. intros [rid t Hlt Ht Hin|rid r' Hlt H3 Hin|rid sk f Hch].
    - left. exists rid. split; [apply in_seq; lia|]. rewrite Ht. apply in_map. apply in_terms_of. exact Hin.
    - right. left. exists rid. split; [apply in_seq; lia|]. apply Nat.leb_le in H3. rewrite H3. exact Hin.
    - right. right. pose proof (chain_lt _ _ _ Hch) as Hlt.
      exists rid. split; [apply in_seq; lia|]. apply in_map_iff. exists (sk, f). split; [reflexivity|].
      apply chains_complete; auto. pose proof (proj1 (rank_ok rid Hlt)). lia.
  Qed.
End Closure.

Theorem closure_check_sound rules g : closure_check rules g = true -> unit_closure_spec rules g.
Proof.
  unfold closure_check. rewrite !andb_true_iff, !forallb_forall. intros [[H1 H2] Hr]. split.
  - intros r Hin. apply canonb_sound. apply H1. exact Hin.
  - intros r Hc. apply existsb_crule. apply H2. apply spec_cnf_complete; auto.
Qed.
