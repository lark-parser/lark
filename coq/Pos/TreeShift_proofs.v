(* Proofs about the tree-level position pipeline Pos/TreeShift.v:
   - the LALR driver's control does not depend on token positions (naturality in the token map),
   - the callback chain and PropagatePositions commute with re-basing maps,
   - parse_window_shift (C15) and tree_coords_exact (C06). *)
From Coq Require Import ZArith List Bool String Lia.
From LV Require Import Base.Prelude Cfg.Grammar Pos.PosBase Gen.LineCounter Gen.LexStep Pos.Coord
  Pos.LineCounter_proofs Pos.LexCoords Pos.LexCoords_proofs Pos.Repr_proofs Pos.Current
  Pos.MetaSpan Pos.MetaSpan_proofs Shape.Chain Shape.Chain_proofs Pos.TreeShift.
From LV Require LR.Driver LR.Driver_proofs.
Import ListNotations.

(* [all_some] is TreeShift's own copy of the function of Shape/Spec.v *)
Lemma all_some_map {X Y} (h : X -> Y) (l : list (option X)) :
  all_some (map (option_map h) l) = option_map (map h) (all_some l).
Proof.
  induction l as [|[x|] l IH]; cbn; try reflexivity. rewrite IH. destruct (all_some l); reflexivity.
Qed.

Lemma all_some_Forall2_inv {X Y} (g : X -> option Y) (Q : X -> Y -> Prop) l : forall vs,
  all_some (map g l) = Some vs -> (forall x v, In x l -> g x = Some v -> Q x v) -> Forall2 Q l vs.
Proof.
  induction l as [|x l IH]; cbn [map all_some]; intros vs E H.
  - injection E as <-. constructor.
  - destruct (g x) as [v|] eqn:Ex; [|discriminate].
    destruct (all_some (map g l)) as [vs'|]; [|discriminate]. injection E as <-.
    constructor; [apply H; [left; reflexivity|exact Ex]|].
    apply IH; [reflexivity|]. intros x' v' Hx'. apply H. right. exact Hx'.
Qed.

Section DriverNat.
Variables tok tok' : Type.
Variable ttype : tok -> nat.
Variable ttype' : tok' -> nat.
Variable f : tok -> tok'.
Variable P : Driver.ptable.

Fixpoint map_dtree (d : Driver.dtree tok) : Driver.dtree tok' :=
  match d with
  | Driver.Leaf k => Driver.Leaf (f k)
  | Driver.Node r cs => Driver.Node r (map map_dtree cs)
  end.

Definition map_config (c : Driver.config tok) : Driver.config tok' :=
  Driver.mkConfig (Driver.sstack c) (map map_dtree (Driver.vstack c)).

Definition map_outcome (o : Driver.outcome tok) : Driver.outcome tok' :=
  match o with
  | Driver.Shifted c => Driver.Shifted (map_config c)
  | Driver.Accepted t => Driver.Accepted (map_dtree t)
  | Driver.Unexpected c => Driver.Unexpected (map_config c)
  | Driver.DAssert c => Driver.DAssert (map_config c)
  | Driver.DCrash c => Driver.DCrash (map_config c)
  | Driver.DFuel => Driver.DFuel
  end.

(* one feed_token call: same control, tokens carried along.  The end token is never shifted, so
   with is_end only its type matters. *)
Lemma feed_nat fuel : forall c k k' e,
  ttype' k' = ttype k -> (e = false -> k' = f k) ->
  Driver.feed tok' ttype' P fuel (map_config c) k' e = map_outcome (Driver.feed tok ttype P fuel c k e).
Proof.
  induction fuel as [|fuel IH]; intros c k k' e Ht Hk; [reflexivity|].
  cbn [Driver.feed]. cbn [map_config Driver.sstack Driver.vstack].
  destruct (Driver.sstack c) as [|q ss] eqn:Es; [reflexivity|].
  rewrite Ht.
  destruct (Driver.pt_action P q (T (ttype k))) as [[q'|r]|]; [| |reflexivity].
  - destruct (Nat.eqb q' (Driver.pt_end P)); [reflexivity|].
    destruct e; [reflexivity|]. rewrite (Hk eq_refl). reflexivity.
  - rewrite firstn_map, <- map_rev, !skipn_map.
    destruct (skipn (List.length (rhs r)) (q :: ss)) as [|q2 ss2] eqn:Ess; [reflexivity|].
    destruct (Driver.pt_action P q2 (NT (lhs r))) as [[q3|r']|]; [| reflexivity | reflexivity].
    destruct (e && Nat.eqb q3 (Driver.pt_end P))%bool; [reflexivity|].
    specialize (IH (Driver.mkConfig (q3 :: q2 :: ss2)
                      (Driver.Node r (rev (firstn (List.length (rhs r)) (Driver.vstack c))) :: skipn (List.length (rhs r)) (Driver.vstack c)))
                   k k' e Ht Hk).
    exact IH.
Qed.
End DriverNat.

Section PropagateNat.
Variable phi : trip -> trip.

Lemma m_empty_map m : m_empty (map_meta phi m) = m_empty m.
Proof. unfold m_empty, map_meta. cbn. destruct (m_start m), (m_end m); reflexivity. Qed.

Lemma view_map c : view (map_shaped phi c) = option_map (map_meta phi) (view c).
Proof.
  destruct c as [s e|m|]; cbn [map_shaped view]; try reflexivity.
  rewrite m_empty_map. destruct (m_empty m); reflexivity.
Qed.

Lemma first_view_map l : first_view (map (map_shaped phi) l) = option_map (map_meta phi) (first_view l).
Proof.
  induction l as [|c l IH]; [reflexivity|]. cbn [map first_view]. rewrite view_map.
  destruct (view c); [reflexivity|exact IH].
Qed.

Lemma or_else_map (a b : option trip) : or_else (option_map phi a) (option_map phi b) = option_map phi (or_else a b).
Proof. destruct a; reflexivity. Qed.

Theorem propagate_nat m ch :
  propagate (map_meta phi m) (map (map_shaped phi) ch) = map_meta phi (propagate m ch).
Proof.
  unfold propagate. rewrite <- map_rev, !first_view_map.
  destruct (first_view ch) as [f|]; destruct (first_view (rev ch)) as [l|]; cbn [option_map];
    unfold map_meta; cbn [m_start m_end m_cstart m_cend]; rewrite ?or_else_map; reflexivity.
Qed.
End PropagateNat.

Section TreeNat.
Context {A term : Type}.
Notation tok := (token A term).
Variable f : tok -> tok.
Variable phi : trip -> trip.
Hypothesis f_start : forall t, start3 (f t) = phi (start3 t).
Hypothesis f_end : forall t, end3 (f t) = phi (end3 t).
Variable rr : rule -> rrec.
Variable mp : bool.

Notation G := (map_vtree f phi).

Lemma shaped_of_map v : shaped_of (G v) = map_shaped phi (shaped_of v).
Proof. destruct v as [t|n m ch|]; cbn; [rewrite f_start, f_end|..]; reflexivity. Qed.

Lemma pp_map res ch : pp (G res) (map G ch) = G (pp res ch).
Proof.
  destruct res as [t|n m l|]; cbn [pp map_vtree]; try reflexivity.
  rewrite map_map. rewrite (map_ext _ _ shaped_of_map), <- map_map, propagate_nat. reflexivity.
Qed.

Lemma pos_callback_map r ch : pos_callback r mp (map G ch) = option_map G (pos_callback r mp ch).
Proof.
  unfold pos_callback.
  rewrite (run_callback_nat (vtree A term) (vtree A term) G VNone VNone vkids vkids vmk vmk).
  - destruct (run_callback _ _ _ _ _ r mp false ch) as [[res|]| |]; cbn [option_map]; try reflexivity.
    rewrite pp_map. reflexivity.
  - reflexivity.
  - intros [t|n m l|]; reflexivity.
  - intros n l. unfold vmk. cbn. reflexivity.
Qed.

Theorem tree_of_map d :
  tree_of rr mp (map_dtree tok tok f d) = option_map G (tree_of rr mp d).
Proof.
  induction d as [k|r cs IH] using Driver_proofs.dtree_ind'; [reflexivity|].
  cbn [map_dtree tree_of]. rewrite map_map.
  assert (E : map (fun x => tree_of rr mp (map_dtree tok tok f x)) cs = map (option_map G) (map (tree_of rr mp) cs)).
  { rewrite map_map. apply map_ext_in. intros x Hx. rewrite Forall_forall in IH. apply IH, Hx. }
  rewrite E, all_some_map. destruct (all_some (map (tree_of rr mp) cs)) as [vs|]; cbn [option_map]; [|reflexivity].
  apply pos_callback_map.
Qed.

Variable tnum : term -> nat.
Variable end_term : term.
Variable P : Driver.ptable.
Hypothesis f_type : forall t, t_type (f t) = t_type t.

Notation tty := (ttype tnum).

Lemma run_tokens_map fuel : forall w c,
  run_tokens tnum P fuel (map_config tok tok f c) (map f w) =
  (map_outcome tok tok f (fst (run_tokens tnum P fuel c w)), option_map f (snd (run_tokens tnum P fuel c w))).
Proof.
  induction w as [|k w IH]; intros c; [reflexivity|].
  cbn [map run_tokens].
  rewrite (feed_nat tok tok tty tty f P fuel c k (f k) false) by (unfold ttype; rewrite ?f_type; auto).
  destruct (Driver.feed tok tty P fuel c k false); cbn [map_outcome fst snd option_map]; try reflexivity.
  apply IH.
Qed.

Lemma last_tok_map (w : list tok) : last_tok (map f w) = option_map f (last_tok w).
Proof. unfold last_tok. rewrite <- map_rev. destruct (rev w); reflexivity. Qed.

Theorem parse_tokens_map fuel ts o o' shift_err :
  o' = match o with LexCoords.Unexpected p _ _ => let '(p', l', c') := shift_err p in LexCoords.Unexpected p' l' c' | x => x end ->
  parse_tokens rr mp tnum end_term P fuel (map f ts, o') =
  map_presult f phi shift_err (parse_tokens rr mp tnum end_term P fuel (ts, o)).
Proof.
  intros ->. unfold parse_tokens.
  change (Driver.init_config P) with (map_config tok tok f (Driver.init_config P)) at 1.
  rewrite run_tokens_map.
  destruct (run_tokens tnum P fuel (Driver.init_config P) ts) as [[c|t|c|c|c|] ko]; cbn [fst snd map_outcome];
    [|destruct ko; reflexivity..].
  destruct o as [|p l cl|].
  - rewrite last_tok_map.
    rewrite (feed_nat tok tok tty tty f P fuel c (end_token end_term (last_tok ts))
               (end_token end_term (option_map f (last_tok ts))) true).
    + destruct (Driver.feed tok tty P fuel c (end_token end_term (last_tok ts)) true); cbn [map_outcome map_presult]; try reflexivity.
      rewrite tree_of_map. destruct (tree_of rr mp t); reflexivity.
    + unfold ttype. destruct (last_tok ts); reflexivity.
    + discriminate.
  - cbn [map_presult]. destruct (shift_err p) as [[p' l'] c']. reflexivity.
  - reflexivity.
Qed.
End TreeNat.

Section ParseWindowShift.
Context {A term : Type} (eqb : A -> A -> bool) (nl : A).
Variable scan : list term -> list A -> Z -> Z -> option (nat * term).
Variable ignore : term -> bool.
Variable newline_types : term -> bool.
Variable rr : rule -> rrec.
Variable mp : bool.
Variable tnum : term -> nat.
Variable end_term : term.
Variable P : Driver.ptable.

Theorem parse_window_shift (T : list A) (a b : nat) fuel :
  (a <= b)%nat -> (b <= List.length T)%nat ->
  (forall h (p n : nat) ty, scan h T (Z.of_nat p) (Z.of_nat b) = Some (n, ty) -> (p + n <= b)%nat) ->
  (forall h (p : nat), (a <= p < b)%nat ->
     scan h T (Z.of_nat p) (Z.of_nat b) = scan h (sub T a b) (Z.of_nat (p - a)) (Z.of_nat (b - a))) ->
  let ln := lnT eqb nl T in
  let col := colT eqb nl T in
  let za := Z.of_nat a in
  parse_slice rr mp tnum end_term P eqb nl scan ignore newline_types fuel T za (Z.of_nat b) =
  map_presult (shift_tok za ln col) (shift_trip za ln col)
              (fun p => ((p + za)%Z, ln (p + za)%Z, col (p + za)%Z))
    (parse_slice rr mp tnum end_term P eqb nl scan ignore newline_types fuel (sub T a b) 0%Z (Z.of_nat (b - a))).
Proof.
  intros Hab Hb Hsb Hcf. cbv zeta. unfold parse_slice.
  rewrite (window_shift_current eqb nl scan ignore newline_types T a b Hab Hb Hsb Hcf).
  unfold shift_result.
  destruct (lex_slice eqb nl scan ignore newline_types (sub T a b) 0 (Z.of_nat (b - a)) None) as [ts o].
  cbn [fst snd]. apply parse_tokens_map.
  - intros t. reflexivity.
  - intros t. reflexivity.
  - intros t. reflexivity.
  - destruct o; reflexivity.
Qed.
End ParseWindowShift.

Section TreeOf.
Context {A term : Type}.
Notation tok := (token A term).
Variable rr : rule -> rrec.
Variable mp : bool.

Lemma pos_callback_inv r vs v : pos_callback r mp vs = Some v ->
  exists res, run_callback (vtree A term) VNone vkids (fun _ => None) vmk r mp false vs = Prelude.Ok (Some res) /\
              pp res vs = v.
Proof.
  unfold pos_callback. destruct (run_callback _ _ _ _ _ r mp false vs) as [[res|]| |]; try discriminate.
  intros [= <-]. exists res. split; reflexivity.
Qed.

Lemma tree_of_ind (P : Driver.dtree tok -> Prop) (Q : Driver.dtree tok -> vtree A term -> Prop) :
  (forall r cs c, P (Driver.Node r cs) -> In c cs -> P c) ->
  (forall k, P (Driver.Leaf k) -> Q (Driver.Leaf k) (VTok k)) ->
  (forall r cs vs res, P (Driver.Node r cs) -> Forall2 Q cs vs ->
     tree_of rr mp (Driver.Node r cs) = Some (pp res vs) ->
     run_callback (vtree A term) VNone vkids (fun _ => None) vmk (rr r) mp false vs = Prelude.Ok (Some res) ->
     Q (Driver.Node r cs) (pp res vs)) ->
  forall d v, P d -> tree_of rr mp d = Some v -> Q d v.
Proof.
  intros HP Hleaf Hnode. induction d as [k|r cs IH] using Driver_proofs.dtree_ind'; intros v Pd Hv.
  - injection Hv as <-. apply Hleaf, Pd.
  - pose proof Hv as Hcb. cbn [tree_of] in Hcb.
    destruct (all_some (map (tree_of rr mp) cs)) as [vs|] eqn:E; [|discriminate].
    destruct (pos_callback_inv _ _ _ Hcb) as (res & Er & <-).
    apply (Hnode r cs vs res Pd); [|exact Hv|exact Er]. apply (all_some_Forall2_inv _ _ _ _ E). intros c v' Hc.
    rewrite Forall_forall in IH. apply IH; [exact Hc|exact (HP r cs c Pd Hc)].
Qed.
End TreeOf.

(* The ParseTreeBuilder callbacks - PropagatePositions around the ChildFilter / ExpandSingleChild chain, the same
   objects ForestToParseTree calls - evaluated bottom-up on ANY derivation tree over positioned tokens only ever
   copy position triples of those tokens.  Generic in the token claim Qt and the triple claim R. *)
Section TreeAny.
Context {A term : Type}.
Notation tok := (token A term).
Variable rr : rule -> rrec.
Variable mp : bool.
Variable Qt : tok -> Prop.
Variable R : trip -> Prop.
Hypothesis Qt_trips : forall t, Qt t -> R (start3 t) /\ R (end3 t).

Definition QvG (v : vtree A term) : Prop := Forall Qt (vtokens v) /\ Forall R (vtrips v).
Definition metaG (m : meta) : Prop := Forall R (meta_trips m).

Lemma or_else_cases {X} (x y : option X) (S : X -> Prop) :
  (forall t, x = Some t -> S t) -> (forall t, y = Some t -> S t) -> forall t, or_else x y = Some t -> S t.
Proof. destruct x; cbn; auto. Qed.

Lemma Forall_opt (x : option trip) :
  Forall R (match x with Some t => [t] | None => [] end) <-> (forall t, x = Some t -> R t).
Proof.
  destruct x as [u|]; split.
  - intros H t [= <-]. inversion H; assumption.
  - intros H. constructor; auto.
  - intros _ t [=].
  - constructor.
Qed.

Lemma metaG_iff m : metaG m <->
  (forall t, m_start m = Some t -> R t) /\ (forall t, m_end m = Some t -> R t) /\
  (forall t, m_cstart m = Some t -> R t) /\ (forall t, m_cend m = Some t -> R t).
Proof. unfold metaG, meta_trips. rewrite !Forall_app, !Forall_opt. reflexivity. Qed.

Lemma widen_startG m f : metaG m -> metaG f -> metaG (widen_start m f).
Proof.
  intros Hm Hf. apply metaG_iff in Hm, Hf. destruct Hm as (M1 & M2 & M3 & M4), Hf as (F1 & F2 & F3 & F4).
  apply metaG_iff. cbn [widen_start m_start m_end m_cstart m_cend]. repeat split; repeat apply or_else_cases; auto.
Qed.

Lemma widen_endG m l : metaG m -> metaG l -> metaG (widen_end m l).
Proof.
  intros Hm Hl. apply metaG_iff in Hm, Hl. destruct Hm as (M1 & M2 & M3 & M4), Hl as (L1 & L2 & L3 & L4).
  apply metaG_iff. cbn [widen_end m_start m_end m_cstart m_cend]. repeat split; repeat apply or_else_cases; auto.
Qed.

Lemma propagateG m ch :
  metaG m -> (forall c f, In c ch -> view c = Some f -> metaG f) -> metaG (propagate m ch).
Proof.
  intros Hm Hch.
  assert (Hfv : forall l f, (forall c, In c l -> In c ch) -> first_view l = Some f -> metaG f).
  { intros l f Hl Hf. destruct (first_view_in l f Hf) as (c & Hin & Hv). eapply Hch; eauto. }
  rewrite propagate_halves.
  assert (H1 : metaG (half widen_start m (first_view ch))).
  { destruct (first_view ch) as [f|] eqn:E; [|exact Hm].
    apply widen_startG; [exact Hm|]. exact (Hfv ch f (fun c H => H) E). }
  destruct (first_view (rev ch)) as [l|] eqn:E; [|exact H1].
  apply widen_endG; [exact H1|]. exact (Hfv (rev ch) l (fun c H => proj2 (in_rev ch c) H) E).
Qed.

Lemma QvG_view v f : QvG v -> view (shaped_of v) = Some f -> metaG f.
Proof.
  intros (Ht & Hp). destruct v as [t|n m ch|]; cbn [shaped_of view].
  - intros [= <-]. cbn in Ht. inversion Ht as [|? ? Hk _]; subst.
    destruct (Qt_trips t Hk). unfold metaG, meta_trips. cbn. repeat constructor; auto.
  - destruct (m_empty m); [discriminate|]. intros [= <-]. cbn [vtrips] in Hp.
    apply Forall_app in Hp. apply Hp.
  - discriminate.
Qed.

Lemma QvG_pp res ch : QvG res -> Forall QvG ch -> QvG (pp res ch).
Proof.
  intros Hr Hch. destruct res as [t|n m l|]; cbn [pp]; auto.
  destruct Hr as (Ht & Hp). split; [exact Ht|]. cbn [vtrips] in *.
  apply Forall_app in Hp. destruct Hp as (Hm & Hl). apply Forall_app. split; [|exact Hl].
  apply propagateG; [exact Hm|].
  intros c f Hin Hv. apply in_map_iff in Hin. destruct Hin as (v & <- & Hin).
  rewrite Forall_forall in Hch. eapply QvG_view; eauto.
Qed.

Lemma QvG_kids x l : QvG x -> vkids x = Some l -> Forall QvG l.
Proof.
  destruct x as [t|n m ch|]; cbn [vkids]; try discriminate. intros (Ht & Hp) [= <-].
  cbn [vtokens vtrips] in *. apply Forall_app in Hp. destruct Hp as (_ & Hp).
  apply Forall_flat_map in Ht. apply Forall_flat_map in Hp.
  rewrite Forall_forall in *. intros c Hc. split; auto.
Qed.

Lemma QvG_mk n l : Forall QvG l -> QvG (vmk n l).
Proof.
  intros H. unfold vmk. split; cbn [vtokens vtrips meta_trips empty_meta m_start m_end m_cstart m_cend app].
  - apply Forall_flat_map. eapply Forall_impl; [|exact H]. intros v (Hv & _). exact Hv.
  - apply Forall_flat_map. eapply Forall_impl; [|exact H]. intros v (_ & Hv). exact Hv.
Qed.

Theorem tree_of_any d v : Forall Qt (Driver.yield tok d) -> tree_of rr mp d = Some v -> QvG v.
Proof.
  revert d v. apply (tree_of_ind rr mp (fun d => Forall Qt (Driver.yield tok d)) (fun _ v => QvG v)).
  - intros r cs c Hy Hc. cbn [Driver.yield] in Hy. rewrite Forall_flat_map, Forall_forall in Hy. exact (Hy c Hc).
  - intros k Hk. split; [exact Hk|constructor].
  - intros r cs vs res _ Hvs _ Er.
    assert (Hvs' : Forall QvG vs) by (clear - Hvs; induction Hvs; constructor; auto).
    apply QvG_pp; [|exact Hvs'].
    eapply (run_callback_pres (vtree A term) VNone vkids vmk QvG); eauto.
    + split; constructor.
    + exact QvG_kids.
    + exact QvG_mk.
Qed.
End TreeAny.

Section TreeCoords.
Context {A term : Type} (eqb : A -> A -> bool) (nl : A).
Notation tok := (token A term).
Variable rr : rule -> rrec.
Variable mp : bool.
Variable tnum : term -> nat.
Variable end_term : term.
Variable P : Driver.ptable.

Section Leaves.
Variable Qt : tok -> Prop.
Definition leaves_ok (vs : list (Driver.dtree tok)) : Prop := Forall (fun d => Forall Qt (Driver.yield tok d)) vs.

Lemma feed_leaves fuel : forall c k e,
  leaves_ok (Driver.vstack c) -> (e = false -> Qt k) ->
  match Driver.feed tok (ttype tnum) P fuel c k e with
  | Driver.Shifted c' => leaves_ok (Driver.vstack c')
  | Driver.Accepted t => Forall Qt (Driver.yield tok t)
  | _ => True
  end.
Proof.
  induction fuel as [|fuel IH]; intros c k e Hc Hk; [exact I|].
  cbn [Driver.feed]. destruct (Driver.sstack c) as [|q ss]; [exact I|].
  destruct (Driver.pt_action P q (T (ttype tnum k))) as [[q'|r]|]; [| |exact I].
  - destruct (Nat.eqb q' (Driver.pt_end P)); [exact I|]. destruct e; [exact I|].
    cbn [Driver.vstack]. constructor; [|exact Hc]. cbn. constructor; auto.
  - destruct (skipn (List.length (rhs r)) (q :: ss)) as [|q2 ss2]; [exact I|].
    destruct (Driver.pt_action P q2 (NT (lhs r))) as [[q3|r']|]; try exact I.
    unfold leaves_ok in Hc. rewrite <- (firstn_skipn (List.length (rhs r)) (Driver.vstack c)) in Hc.
    apply Forall_app in Hc. destruct Hc as (Hpop & Hrest).
    assert (Hn : Forall Qt (Driver.yield tok (Driver.Node r (rev (firstn (List.length (rhs r)) (Driver.vstack c))))))
      by (cbn [Driver.yield]; apply Forall_flat_map, Forall_rev, Hpop).
    destruct (e && Nat.eqb q3 (Driver.pt_end P))%bool; [exact Hn|].
    apply IH; [|exact Hk]. cbn [Driver.vstack]. constructor; [exact Hn|exact Hrest].
Qed.

Lemma run_tokens_leaves fuel : forall w c,
  leaves_ok (Driver.vstack c) -> Forall Qt w ->
  match fst (run_tokens tnum P fuel c w) with
  | Driver.Shifted c' => leaves_ok (Driver.vstack c')
  | _ => True
  end.
Proof.
  induction w as [|k w IH]; intros c Hc Hw; [exact Hc|].
  cbn [run_tokens]. inversion Hw as [|? ? Hk Hw']; subst.
  pose proof (feed_leaves fuel c k false Hc (fun _ => Hk)) as H.
  destruct (Driver.feed tok (ttype tnum) P fuel c k false); try exact I. apply IH; auto.
Qed.
End Leaves.

Variable T : list A.
Variables a e : nat.

Definition trip_exact (t : trip) : Prop :=
  exists q : nat, fst (fst t) = Z.of_nat q /\ (a <= q <= e)%nat /\ (snd (fst t), snd t) = coord eqb nl T q.

Lemma tok_ok_trips (t : tok) : tok_ok eqb nl T a e t -> trip_exact (start3 t) /\ trip_exact (end3 t).
Proof.
  intros H. split; [exact (tok_ok_start eqb nl T a e t H)|exact (tok_ok_end eqb nl T a e t H)].
Qed.

Variable scan : list term -> list A -> Z -> Z -> option (nat * term).
Variable ignore : term -> bool.
Variable newline_types : term -> bool.

(* C06 tree_coords_exact (the part proved here): in the tree lark returns for the window [a,e) of T,
   every token satisfies the token claim and every position triple of every meta (own and
   container, start and end) is an exact source coordinate inside the window *)
Theorem tree_coords_exact_partial fuel v :
  (a <= e)%nat -> (e <= List.length T)%nat ->
  (forall h (p n : nat) ty, scan h T (Z.of_nat p) (Z.of_nat e) = Some (n, ty) -> (p + n <= e)%nat) ->
  parse_slice rr mp tnum end_term P eqb nl scan ignore newline_types fuel T (Z.of_nat a) (Z.of_nat e) = RTree v ->
  Forall (tok_ok eqb nl T a e) (vtokens v) /\ Forall trip_exact (vtrips v).
Proof.
  intros Ha He Hb. unfold parse_slice.
  destruct (lex_slice eqb nl scan ignore newline_types T (Z.of_nat a) (Z.of_nat e) None) as [ts o] eqn:El.
  destruct (lexer_coords eqb nl scan ignore newline_types T a e None ts o Ha He Hb (or_introl eq_refl) El) as (Hts & _ & _).
  unfold parse_tokens.
  pose proof (run_tokens_leaves (tok_ok eqb nl T a e) fuel ts (Driver.init_config P)) as Hl.
  destruct (run_tokens tnum P fuel (Driver.init_config P) ts) as [[c|t|c|c|c|] ko]; cbn [fst] in Hl; try discriminate.
  2:{ destruct ko; discriminate. }
  specialize (Hl (Forall_nil _) Hts).
  destruct o; try discriminate.
  pose proof (feed_leaves (tok_ok eqb nl T a e) fuel c (end_token end_term (last_tok ts)) true Hl) as Hf.
  destruct (Driver.feed tok (ttype tnum) P fuel c (end_token end_term (last_tok ts)) true) as [c'|d|c'|c'|c'|]; try discriminate.
  specialize (Hf (fun H => ltac:(discriminate))).
  destruct (tree_of rr mp d) as [v'|] eqn:Et; [|discriminate]. intros [= <-].
  exact (tree_of_any rr mp (tok_ok eqb nl T a e) trip_exact tok_ok_trips d v' Hf Et).
Qed.

End TreeCoords.
