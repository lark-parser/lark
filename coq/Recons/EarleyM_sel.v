(* C19: the selector `sel` of Recons/EarleyM.v instantiated with the model of
   ForestToParseTree(resolve_ambiguity=True) on graph forests (Forest/GraphResolve.v).  Its two hypotheses
   sel_sound / sel_total are theorems (Forest/GraphResolve_proofs.v: graph_resolve_in_den, graph_resolve_total,
   valid on cyclic forests as well - tree-matching grammars are often cyclic), so the results of
   Recons/EarleyM_proofs.v hold for the concrete matcher with no assumption on the selection left.
   The theorems hold for every rearrangement [order] of the packed children (SymbolNode.children); the instance
   below keeps insertion order, which is what PackedNode.sort_key gives when no priorities are set and the
   rules of one origin are added in rule order. *)
From Coq Require Import String Ascii List Arith Bool.
From LV Require Import Base.Prelude Cfg.Grammar Forest.ExplicitBuild Forest.ExplicitAlgBuild
     Forest.GraphResolve Forest.GraphResolve_proofs
     Recons.Recons Recons.ReconsCheck Recons.ReconsCheck_proofs Recons.Recons_proofs Recons.Complete_proofs
     Recons.Roundtrip_proofs Recons.EarleyM Recons.EarleyM_proofs.
Import ListNotations.

Lemma stree_eqb_iff a b : stree_eqb a b = true <-> a = b.
Proof. split; [apply stree_eqb_eq|intros ->; apply stree_eqb_refl]. Qed.

Section Sel.
  (* SymbolNode.children as a rearrangement of the packed children *)
  Variable order : nlabel stree -> list (family stree) -> list (family stree).
  Hypothesis order_perm : forall l fs f, In f (order l fs) <-> In f fs.

  Definition sel_graph (data : nat) (cs : list stree) (fams : list (fam stree)) : option (dt stree) :=
    graph_resolve stree stree_eqb fams order (NSym stree data 0 (List.length cs)).

  Theorem sel_graph_sound data cs fams d : sel_graph data cs fams = Some d ->
    den stree (in_forest stree fams) (NSym stree data 0 (List.length cs)) [d].
  Proof. apply (graph_resolve_in_den stree stree_eqb stree_eqb_iff fams order order_perm). Qed.

  Theorem sel_graph_total data cs (fams : list (nlabel stree * family stree)) d :
    den stree (in_forest stree fams) (NSym stree data 0 (List.length cs)) [d] -> sel_graph data cs fams <> None.
  Proof. apply (graph_resolve_total stree stree_eqb stree_eqb_iff fams order order_perm). Qed.

  Section Main.
    Variable us : nat -> bool.
    Variable P : list prule.
    Notation M := (M_earley us P sel_graph).

    Theorem M_graph_sound data cs u : M (Node data cs) = Some u ->
      exists r args, u = UNode r args /\ In r (G_for us P data) /\ r_origin r = data /\
                     uargs_gen (uvalid (G_for us P data)) (r_exp r) args /\ leaves u = cs.
    Proof. exact (M_earley_sound us P sel_graph sel_graph_sound data cs u). Qed.

    Theorem M_graph_complete data cs : (exists u, supported us P u data cs) -> M (Node data cs) <> None.
    Proof. exact (M_earley_complete us P sel_graph sel_graph_total data cs). Qed.

    Hypothesis Hc : cls us P.
    Hypothesis Hx : cls_extra us P.
    Hypothesis Hplain : plain_roots us P.

    Theorem M_graph_ok t u : ptree us P t -> M t = Some u ->
      exists data cs, t = Node data cs /\ supported us P u data cs.
    Proof. exact (M_earley_ok us P Hc Hx Hplain sel_graph sel_graph_sound t u). Qed.

    Theorem recons_token_roundtrip_earley_graph lit
      (Hlit : forall r n, In r P -> In (Tm n true) (p_exp r) -> lit n <> None)
      (Hdisj : forall r n fo, In r P -> In (Tm n fo) (p_exp r) ->
               forall r', In r' P -> p_origin r' <> n /\ p_alias r' <> Some n)
      start pr0 ds0 :
      wf P (DNode pr0 ds0) -> p_origin pr0 = start -> ~ In start (expand1s P) -> us start = false ->
      exists fuel toks, recon lit M fuel (shape us (DNode pr0 ds0)) = Ok toks /\
        parses us P start toks (shape us (DNode pr0 ds0)) /\
        (unambiguous P start -> forall t', parses us P start toks t' -> t' = shape us (DNode pr0 ds0)).
    Proof.
      exact (recons_token_roundtrip_earley us P Hc Hx Hplain sel_graph sel_graph_sound sel_graph_total
               lit Hlit Hdisj start pr0 ds0).
    Qed.
  End Main.
End Sel.

Definition order_id (l : nlabel stree) (fs : list (family stree)) : list (family stree) := fs.
Lemma order_id_perm l fs f : In f (order_id l fs) <-> In f fs.
Proof. reflexivity. Qed.

Definition sel_resolve := sel_graph order_id.

Theorem sel_resolve_sound data cs fams d : sel_resolve data cs fams = Some d ->
  den stree (in_forest stree fams) (NSym stree data 0 (List.length cs)) [d].
Proof. exact (sel_graph_sound order_id order_id_perm data cs fams d). Qed.

Theorem sel_resolve_total data cs (fams : list (nlabel stree * family stree)) d :
  den stree (in_forest stree fams) (NSym stree data 0 (List.length cs)) [d] -> sel_resolve data cs fams <> None.
Proof. exact (sel_graph_total order_id order_id_perm data cs fams d). Qed.

Print Assumptions sel_resolve_sound.
Print Assumptions sel_resolve_total.
Print Assumptions recons_token_roundtrip_earley_graph.
