(* A concrete instance of every oracle of Cache/Cache.v that satisfies all hypotheses of Cache_proofs.v:
   shows that the hypotheses are jointly satisfiable (the theorems are not vacuous) by a system in which the
   grammar really imports a file, the result really depends on a run-time option, and hits and misses occur.
     digest   t_sha x   = 8 characters '0'/'1' per byte, then '.'   (a prefix code without newline)
     pickle   unary length prefix, then the payload                  (self-delimiting, never empty)
     build    reads the file "imp"; used = [("imp", sha text)]; data = grammar ++ text;
              parser = (run-time option of this call, data);  load d c = (run-time option of c, d)
     okenv    the file "imp" can be read *)
From Coq Require Import String List Ascii Bool Arith Lia.
From LV Require Import Cache.Bytes Cache.PyRepr Gen.CacheKey Cache.Cache Cache.PyRepr_proofs Cache.Cache_proofs.
Import ListNotations.

Definition bit (b : bool) : ascii := if b then "1"%char else "0"%char.
Definition bits (c : ascii) : bytes :=
  match c with Ascii b0 b1 b2 b3 b4 b5 b6 b7 => [bit b0; bit b1; bit b2; bit b3; bit b4; bit b5; bit b6; bit b7] end.
Definition t_sha (x : bytes) : bytes := flat_map bits x ++ ["."%char].

Lemma bit_inj a b : bit a = bit b -> a = b.
Proof. destruct a, b; cbn; congruence. Qed.

Lemma bits_prefix c c' r r' : bits c ++ r = bits c' ++ r' -> c = c' /\ r = r'.
Proof.
  destruct c, c'; cbn. intros H. inversion H.
  repeat match goal with H : bit _ = bit _ |- _ => apply bit_inj in H; subst end. auto.
Qed.

Lemma bits_head c r : exists b t, bits c ++ r = bit b :: t.
Proof. destruct c; cbn; eauto. Qed.

Lemma t_sha_prefix a : forall b r r', t_sha a ++ r = t_sha b ++ r' -> a = b.
Proof.
  unfold t_sha. induction a as [|c a IH]; intros [|c' b] r r'; cbn; rewrite <- ?app_assoc; intros H.
  - reflexivity.
  - exfalso. destruct (bits_head c' (flat_map bits b ++ ["."%char] ++ r')) as (x & t & E).
    rewrite E in H. destruct x; discriminate.
  - exfalso. destruct (bits_head c (flat_map bits a ++ ["."%char] ++ r)) as (x & t & E).
    rewrite E in H. destruct x; discriminate.
  - apply bits_prefix in H as [-> H]. f_equal. eapply IH. rewrite <- !app_assoc. exact H.
Qed.

Lemma t_sha_no_nl a : ~ In nl (t_sha a).
Proof.
  unfold t_sha. intros H. apply in_app_or in H as [H | [H | []]]; [|discriminate].
  apply in_flat_map in H as (c & _ & H). destruct c as [b0 b1 b2 b3 b4 b5 b6 b7]. cbn [bits In] in H.
  repeat (destruct H as [H | H]; [match type of H with bit ?b = _ => destruct b; discriminate end|]). exact H.
Qed.

Definition one : ascii := "1"%char.
Definition zero : ascii := "0"%char.

Fixpoint cnt (f : bytes) : nat * bytes :=
  match f with
  | c :: r => if Ascii.eqb c one then let (n, r') := cnt r in (S n, r') else (0, f)
  | [] => (0, [])
  end.

Definition enc_b (x : bytes) : bytes := repeat one (length x) ++ zero :: x.
Definition dec_b (f : bytes) : option (bytes * bytes) :=
  let (n, r) := cnt f in
  match r with
  | c :: y => if Ascii.eqb c zero && (n <=? length y) then Some (firstn n y, skipn n y) else None
  | [] => None
  end.

Lemma cnt_repeat n y : cnt (repeat one n ++ zero :: y) = (n, zero :: y).
Proof. induction n; cbn; [reflexivity|]. now rewrite IHn. Qed.

Lemma cnt_spec f : let (n, r) := cnt f in f = repeat one n ++ r /\ (forall c t, r = c :: t -> c <> one).
Proof.
  induction f as [|c f IH]; cbn. { split; [reflexivity | discriminate]. }
  destruct (Ascii.eqb c one) eqn:E.
  - apply Ascii.eqb_eq in E. subst. destruct (cnt f) as [n r]. destruct IH as [-> H]. split; [reflexivity | exact H].
  - apply Ascii.eqb_neq in E. split; [reflexivity|]. intros ? ? X. inversion X; subst. exact E.
Qed.

Lemma dec_enc_b x r : dec_b (enc_b x ++ r) = Some (x, r).
Proof.
  unfold dec_b, enc_b. rewrite <- app_assoc. cbn [app]. rewrite cnt_repeat. cbn.
  rewrite app_length. replace (length x <=? length x + length r) with true
    by (symmetry; apply Nat.leb_le; lia).
  rewrite firstn_app, Nat.sub_diag, firstn_all, skipn_app, Nat.sub_diag, skipn_all. cbn.
  now rewrite app_nil_r.
Qed.

Definition enc_pair (ph : bytes * bytes) : bytes := enc_b (fst ph) ++ enc_b (snd ph).
Definition t_encU (u : ufiles) : bytes := repeat one (length u) ++ zero :: flat_map enc_pair u.

Fixpoint dec_pairs (n : nat) (f : bytes) : option (ufiles * bytes) :=
  match n with
  | O => Some ([], f)
  | S n' => match dec_b f with
            | None => None
            | Some (p, r1) => match dec_b r1 with
                              | None => None
                              | Some (h, r2) => match dec_pairs n' r2 with
                                                | None => None
                                                | Some (u, r3) => Some ((p, h) :: u, r3)
                                                end
                              end
            end
  end.

Definition t_decU (f : bytes) : option (ufiles * bytes) :=
  let (n, r) := cnt f in
  match r with
  | c :: y => if Ascii.eqb c zero then dec_pairs n y else None
  | [] => None
  end.

Lemma dec_pairs_enc u r : dec_pairs (length u) (flat_map enc_pair u ++ r) = Some (u, r).
Proof.
  induction u as [|[p h] u IH]; [reflexivity|]. cbn [length flat_map dec_pairs].
  unfold enc_pair at 1. cbn [fst snd]. rewrite <- !app_assoc, dec_enc_b, dec_enc_b, IH. reflexivity.
Qed.

Lemma t_decU_encU u r : t_decU (t_encU u ++ r) = Some (u, r).
Proof.
  unfold t_decU, t_encU. rewrite <- app_assoc. cbn [app]. rewrite cnt_repeat. cbn. apply dec_pairs_enc.
Qed.

Lemma t_encU_nonempty u : t_encU u <> [].
Proof. unfold t_encU. destruct u; cbn; discriminate. Qed.

Lemma t_ideal : ideal_oracles t_sha bytes t_encU t_decU enc_b dec_b.
Proof.
  constructor.
  - intros a b r r'. apply t_sha_prefix.
  - apply t_sha_no_nl.
  - apply t_decU_encU.
  - apply dec_enc_b.
  - apply t_encU_nonempty.
Qed.

Definition imp : bytes := B "imp"%string.
Definition t_P := (bool * bytes)%type.

Definition t_build (c : cfg bool) (e : env) : option (built bytes t_P) :=
  match e imp with
  | None => None
  | Some t => let d := grammar bool c ++ t in
              Some (mkBuilt bytes t_P [(imp, t_sha t)] d (ropts bool c, d))
  end.

Definition t_load (d : bytes) (c : cfg bool) : option t_P := Some (ropts bool c, d).

Definition t_okenv (e : env) : Prop := e imp <> None.

Lemma t_rest : rest_of_lark bool t_sha bytes t_P t_build t_load t_okenv.
Proof.
  constructor.
  - intros c e0 b e O0 O. unfold t_build, t_okenv in *.
    destruct (e0 imp) as [t0|]; [|contradiction]. destruct (e imp) as [t|] eqn:E; [|contradiction].
    intros H; inversion H; subst; clear H. cbn -[imp]. rewrite E, andb_true_r. intros V.
    apply beqb_eq in V. assert (t = t0) by (apply (t_sha_prefix t t0 [] []); now rewrite V). now subst.
  - intros c e b O. unfold t_build, t_okenv in *. destruct (e imp) as [t|] eqn:E; [|contradiction].
    intros H; inversion H; subst. cbn -[imp]. now rewrite E, beqb_refl.
  - intros c0 c e b0. unfold t_build. destruct (e imp) as [t|]; [|discriminate].
    intros H Hh; inversion H; subst; clear H. unfold hashed in Hh. inversion Hh as [[Hg Ho Hv Hp]].
    eexists. split; [reflexivity|]. cbn. unfold t_load. now rewrite Hg.
Qed.

(* ---- a concrete history: build, hit under another run-time option, stale after the import changed, a crash
        in the middle of the rewrite, recovery ----------------------------------------------------------- *)
Definition t_cfg (g : string) (keep : string) (r : bool) : cfg bool :=
  mkCfg bool (B g) [("parser"%string, B "lalr"); ("transformer"%string, B "<T>"); ("keep_all_tokens"%string, B keep)]
        r (B "1.3.1"%string) (B "(3, 12)"%string).
Definition t_env (t : string) : env := fun p => if beqb p imp then Some (B t) else None.

Definition t_history : list (event bool) := [
  mkEv bool (t_cfg "start: X"%string "False"%string false) (t_env "X: ""x"""%string) None;        (* absent file: build, write *)
  mkEv bool (t_cfg "start: X"%string "False"%string true)  (t_env "X: ""x"""%string) None;        (* hit, other transformer *)
  mkEv bool (t_cfg "start: X"%string "True"%string true)   (t_env "X: ""x"""%string) None;        (* other hashed option: rebuild *)
  mkEv bool (t_cfg "start: X"%string "True"%string true)   (t_env "X: ""y"""%string) (Some 40);   (* import edited; crash while writing *)
  mkEv bool (t_cfg "start: X"%string "True"%string false)  (t_env "X: ""y"""%string) None ].      (* truncated file: rebuild *)

Definition t_run := run bool t_sha bytes t_P t_encU t_decU enc_b dec_b t_build t_load None t_history.

Definition parser_of (g t : string) (r : bool) : option (option t_P) := Some (Some (r, B g ++ B t)).
