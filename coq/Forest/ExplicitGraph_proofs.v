(* C04 layer B on cyclic forests - proofs about the walk of Forest/ExplicitGraph.v:
     gsym_unf        what the walk keeps is a pruned finite unfolding of the graph (also through the cache)
     unfn_wf         a pruned unfolding of a locally well-formed graph is a well-formed acyclic forest (wfnb; root_okb at a
                     symbol root), so the theorems about acyclic forests (B_expand_exact, B_tree_tidy, the collapse
                     theorems) apply to the result
     unfn_gder       every derivation of the pruned unfolding is a finite unfolding (derivation) of the graph
     gsym_total      the walk never runs out of its fuel |g| + 1: the path is duplicate-free *)
From Coq Require Import String Ascii Bool Arith List Lia.
From LV Require Import Base.Prelude Forest.ExplicitToTree Forest.ExplicitCheck Forest.ExplicitToTree_proofs
  Forest.ExplicitGraph Forest.ExplicitGraphCheck.
Import ListNotations.
Local Open Scope list_scope.

Lemma gmem_In x l : gmem x l = true <-> In x l.
Proof.
  induction l as [|y l IH]; simpl; [split; [discriminate|tauto]|].
  rewrite orb_true_iff, Nat.eqb_eq, IH. split; intros [H|H]; auto.
Qed.

Lemma cache_get_In n k c p : cache_get n k c = Some p -> In (n, k, p) c.
Proof.
  induction c as [|[[n' k'] p'] c IH]; simpl; [discriminate|].
  destruct (Nat.eqb_spec n n'); simpl; [destruct (Nat.eqb_spec k k'); simpl|]; auto.
  intros E; inversion E; subst; auto.
Qed.

(* derivations of a graph: its finite unfoldings, as children sequences (the shape of ExplicitToTree.dn) *)
Inductive gder (g : graph) : nat -> list dtree -> Prop :=
| gder_tok n ty v : nth_error g n = Some (GTok ty v) -> gder g n [DTok ty v]
| gder_sym n l fams gp dl dr : nth_error g n = Some (GSym l fams) -> In gp fams ->
    gder_opt g (gp_left gp) dl -> gder_opt g (gp_right gp) dr ->
    gder g n (match l with LSym _ => [DNode (gp_rule gp) (dl ++ dr)] | LInter _ _ => dl ++ dr end)
with gder_opt (g : graph) : option nat -> list dtree -> Prop :=
| gdo_none : gder_opt g None []
| gdo_some m ds : gder g m ds -> gder_opt g (Some m) ds.

Section Unf.
  Variable g : graph.

  Inductive unfn : nat -> node -> Prop :=
  | unf_tok n ty v : nth_error g n = Some (GTok ty v) -> unfn n (TokN ty v)
  | unf_sym n l fams ps : nth_error g n = Some (GSym l fams) -> ps <> [] ->
      Forall (fun p => exists gp, In gp fams /\ unfp gp p) ps -> unfn n (SymN l ps)
  with unfp : gpack -> packed -> Prop :=
  | unf_pack gp lf rt : unfo (gp_left gp) lf -> unfo (gp_right gp) rt -> unfp gp (Pack (gp_rule gp) lf rt)
  with unfo : option nat -> option node -> Prop :=
  | unfo_none : unfo None None
  | unfo_some m nd : unfn m nd -> unfo (Some m) (Some nd).

  Definition cache_ok (c : gcache) : Prop :=
    forall n k p', In (n, k, p') c ->
      exists l fams gp, nth_error g n = Some (GSym l fams) /\ nth_error fams k = Some gp /\ unfp gp p'.

  Definition rec_ok (rec : gcache -> nat -> gres) : Prop :=
    forall c m o c', cache_ok c -> rec c m = Some (o, c') -> cache_ok c' /\ optP (unfn m) o.

  Lemma gchild_ok rec path c o r c' :
    rec_ok rec -> cache_ok c -> gchild rec path c o = Some (r, c') -> cache_ok c' /\ optP (unfo o) r.
  Proof.
    intros HR HC. unfold gchild. destruct o as [m|].
    - destruct (gmem m path); [intros E; inversion E; subst; simpl; auto|].
      destruct (rec c m) as [[x c1]|] eqn:Er; [|discriminate]. destruct (HR _ _ _ _ HC Er) as (HC1 & Hu).
      destruct x as [nd|]; intros E; inversion E; subst; split; auto. constructor; exact Hu.
    - intros E; inversion E; subst. split; auto. constructor.
  Qed.

  Lemma gpacked_ok rec path c n k p l fams o c' :
    rec_ok rec -> cache_ok c -> nth_error g n = Some (GSym l fams) -> nth_error fams k = Some p ->
    gpacked rec path c n k p = Some (o, c') -> cache_ok c' /\ optP (unfp p) o.
  Proof.
    intros HR HC Hn Hk. unfold gpacked. destruct (cache_get n k c) as [pc|] eqn:Ec.
    - intros E; inversion E; subst. split; auto.
      apply cache_get_In in Ec. destruct (HC _ _ _ Ec) as (l0 & fams0 & gp & H1 & H2 & H3).
      rewrite Hn in H1. inversion H1; subst. rewrite Hk in H2. inversion H2; subst. exact H3.
    - destruct (gchild rec path c (gp_left p)) as [[lf c1]|] eqn:El; [|discriminate].
      destruct (gchild_ok _ _ _ _ _ _ HR HC El) as (HC1 & HL).
      destruct lf as [lf|]; [|intros E; inversion E; subst; simpl; auto].
      destruct (gchild rec path c1 (gp_right p)) as [[rt c2]|] eqn:Er; [|discriminate].
      destruct (gchild_ok _ _ _ _ _ _ HR HC1 Er) as (HC2 & HRt).
      destruct rt as [rt|]; intros E; inversion E; subst; [|simpl; auto].
      assert (HU : unfp p (Pack (gp_rule p) lf rt)) by (constructor; auto).
      split; auto. intros n0 k0 p0 [E0|Hin]; [|apply HC2; auto]. inversion E0; subst. exists l, fams, p. auto.
  Qed.

  Lemma gfams_ok rec path n l fams : rec_ok rec -> nth_error g n = Some (GSym l fams) ->
    forall fs k c ps c', cache_ok c -> (forall j gp, nth_error fs j = Some gp -> nth_error fams (k + j) = Some gp) ->
      gfams rec path n k fs c = Some (ps, c') ->
      cache_ok c' /\ Forall (fun p => exists gp, In gp fams /\ unfp gp p) ps.
  Proof.
    intros HR Hn. induction fs as [|p r IH]; intros k c ps c' HC Hsuf; simpl.
    - intros E; inversion E; subst. split; auto.
    - destruct (gpacked rec path c n k p) as [[o c1]|] eqn:Ep; try discriminate.
      assert (Hk : nth_error fams k = Some p) by (rewrite <- (Nat.add_0_r k); apply Hsuf; reflexivity).
      destruct (gpacked_ok _ _ _ _ _ _ _ _ _ _ HR HC Hn Hk Ep) as (HC1 & Ho).
      destruct (gfams rec path n (S k) r c1) as [[ps1 c2]|] eqn:Er; try discriminate.
      destruct (IH (S k) c1 ps1 c2 HC1) as (HC2 & Hps); auto.
      { intros j gp Hj. replace (S k + j) with (k + S j) by lia. apply Hsuf. exact Hj. }
      intros E; inversion E; subst. split; auto.
      destruct o as [p'|]; auto. constructor; auto. exists p. split; [eapply nth_error_In; eauto|exact Ho].
  Qed.

  Theorem gsym_unf fuel : forall path, rec_ok (gsym g fuel path).
  Proof.
    induction fuel as [|f IH]; intros path c n o c' HC; simpl; [discriminate|].
    destruct (nth_error g n) as [[ty v|l fams]|] eqn:En; try discriminate.
    - intros E; inversion E; subst. split; auto. constructor; auto.
    - destruct (gfams (gsym g f (n :: path)) (n :: path) n 0 fams c) as [[ps c1]|] eqn:Ef; try discriminate.
      destruct (gfams_ok _ _ _ _ _ (IH (n :: path)) En fams 0 c ps c1 HC (fun j gp H => H) Ef) as (HC1 & Hps).
      destruct ps as [|p ps]; intros E; inversion E; subst; split; auto; [exact I|].
      econstructor; eauto. discriminate.
  Qed.

  Lemma cache_ok_nil : cache_ok [].
  Proof. intros n k p []. Qed.

  Hypothesis Hwf : gwfb g = true.

  Lemma gwf_fam n l fams p : nth_error g n = Some (GSym l fams) -> In p fams -> gwfp g l p = true.
  Proof.
    intros En Hp. pose proof (proj1 (forallb_forall _ _) Hwf _ (nth_error_In _ _ En)) as H. simpl in H.
    apply andb_true_iff in H. destruct H as (_ & H). rewrite forallb_forall in H. auto.
  Qed.

  Lemma unfn_sym_matches s m nd : unfn m nd -> gsym_matches s (nth_error g m) = true -> sym_matches s nd = true.
  Proof.
    intros H; destruct H as [? ? ? ->|? ? ? ? -> _ _]; simpl; auto.
  Qed.

  Definition Wn (nd : node) : Prop := forall n, unfn n nd -> wfnb nd = true.
  Definition Wp (p : packed) : Prop := forall l gp, gwfp g l gp = true -> unfp gp p -> wfpb l p = true.

  Lemma Wp_Pack r lf rt : optP Wn lf -> optP Wn rt -> Wp (Pack r lf rt).
  Proof.
    intros Hl Hr l gp Hg Hu. inversion Hu as [? ? ? Ul Ur]; subst.
    unfold gwfp in Hg. simpl wfpb.
    apply andb_true_iff in Hg. destruct Hg as (Hg0 & Hg). rewrite Hg0. simpl.
    set (k := match l with LSym _ => length (x_exp (gp_rule gp)) | LInter _ k0 => k0 end) in *.
    destruct k as [|k'].
    - destruct (gp_left gp), (gp_right gp); try discriminate. inversion Ul; inversion Ur; reflexivity.
    - apply andb_true_iff in Hg. destruct Hg as (Hrt & Hlf).
      destruct (gp_right gp) as [mr|]; [|discriminate]. inversion Ur as [|? rn Ur']; subst. simpl in Hr.
      rewrite (unfn_sym_matches _ _ _ Ur' Hrt), (Hr _ Ur'). simpl.
      destruct k' as [|k''].
      + destruct (gp_left gp); [discriminate|]. inversion Ul. reflexivity.
      + destruct (gp_left gp) as [ml|]; [|discriminate]. inversion Ul as [|? ln Ul']; subst. simpl in Hl.
        rewrite (Hl _ Ul'). destruct (nth_error g ml) as [[|[|r2 k2] fs]|] eqn:Eml; try discriminate.
        destruct Ul' as [? ? ? E2|? ? ? ? E2 _ _]; rewrite Eml in E2; inversion E2; subst.
        rewrite Hlf. reflexivity.
  Qed.

  Lemma Wn_SymN l ps : Forall Wp ps -> Wn (SymN l ps).
  Proof.
    intros HQ n Hu. inversion Hu as [|? ? fams ? En Hne Hps]; subst.
    rewrite wfnb_SymN. apply andb_true_iff. split; [destruct ps; [congruence|reflexivity]|].
    apply forallb_forall. intros p Hp. rewrite Forall_forall in HQ, Hps.
    destruct (Hps p Hp) as (gp & Hgp & Hup).
    apply (HQ p Hp l gp); auto. apply (gwf_fam n l fams); auto.
  Qed.

  Theorem unfn_wf nd : Wn nd.
  Proof.
    apply (node_ind2 Wn Wp).
    - intros ty v n _. reflexivity.
    - apply Wn_SymN.
    - apply Wp_Pack.
  Qed.
End Unf.

Section Der.
  Variable g : graph.

  Definition Dn (nd : node) : Prop := forall n, unfn g n nd -> forall ds, In ds (dn nd) -> gder g n ds.
  Definition Dp (p : packed) : Prop :=
    forall gp, unfp g gp p -> forall ds, In ds (dp p) ->
      exists dl dr, ds = dl ++ dr /\ gder_opt g (gp_left gp) dl /\ gder_opt g (gp_right gp) dr.

  Lemma Dn_opt o x ds : unfo g o x -> optP Dn x ->
    In ds (match x with Some n => dn n | None => [[]] end) -> gder_opt g o ds.
  Proof.
    intros [|m n U] H Hd.
    - destruct Hd as [<-|[]]. constructor.
    - constructor. apply (H m U); auto.
  Qed.

  Lemma Dp_Pack r lf rt : optP Dn lf -> optP Dn rt -> Dp (Pack r lf rt).
  Proof.
    intros Hl Hr gp Hu ds Hds. inversion Hu as [? ? ? Ul Ur]; subst.
    rewrite dp_eq in Hds. apply In_app_product in Hds. destruct Hds as (x & y & -> & Hx & Hy).
    exists x, y. split; auto. split; [apply (Dn_opt _ lf) | apply (Dn_opt _ rt)]; auto.
  Qed.

  Lemma Dn_SymN l ps : Forall Dp ps -> Dn (SymN l ps).
  Proof.
    intros HQ n Hu ds Hds. inversion Hu as [|? ? fams ? En _ Hps]; subst.
    rewrite dn_SymN in Hds. apply in_flat_map in Hds. destruct Hds as (p & Hp & Hd).
    rewrite Forall_forall in HQ, Hps. destruct (Hps p Hp) as (gp & Hgp & Hup).
    assert (Er : prule p = gp_rule gp) by (destruct Hup; reflexivity).
    destruct l as [a|r k].
    - apply in_map_iff in Hd. destruct Hd as (ks & <- & Hks).
      destruct (HQ p Hp gp Hup ks Hks) as (dl & dr & -> & H1 & H2). rewrite Er.
      exact (gder_sym g n (LSym a) fams gp dl dr En Hgp H1 H2).
    - destruct (HQ p Hp gp Hup ds Hd) as (dl & dr & -> & H1 & H2).
      exact (gder_sym g n (LInter r k) fams gp dl dr En Hgp H1 H2).
  Qed.

  Theorem unfn_gder nd : Dn nd.
  Proof.
    apply (node_ind2 Dn Dp).
    - intros ty v n Hu ds [<-|[]]. inversion Hu. constructor; auto.
    - apply Dn_SymN.
    - apply Dp_Pack.
  Qed.
End Der.

Section Fuel.
  Variable g : graph.
  Hypothesis Hwf : gwfb g = true.

  Definition in_range (o : option nat) : Prop := match o with Some m => m < length g | None => True end.

  Lemma gwfp_in_range l p : gwfp g l p = true -> in_range (gp_left p) /\ in_range (gp_right p).
  Proof.
    unfold gwfp. intros Hn. apply andb_true_iff in Hn. destruct Hn as (_ & Hn).
    destruct (match l with LSym _ => length (x_exp (gp_rule p)) | LInter _ k => k end) as [|k'].
    - destruct (gp_left p), (gp_right p); try discriminate. simpl; auto.
    - apply andb_true_iff in Hn. destruct Hn as (Hr & Hl). split.
      + destruct (gp_left p) as [m|]; simpl; auto. destruct k'; [discriminate|].
        destruct (nth_error g m) eqn:E; [|discriminate]. apply nth_error_Some. congruence.
      + destruct (gp_right p) as [m|]; simpl; auto.
        destruct (nth_error g m) eqn:E; [|discriminate]. apply nth_error_Some. congruence.
  Qed.

  Definition rec_total (rec : gcache -> nat -> gres) (path : list nat) : Prop :=
    forall c m, m < length g -> ~ In m path -> rec c m <> None.

  Lemma gchild_total rec path c o : rec_total rec path -> in_range o -> gchild rec path c o <> None.
  Proof.
    intros HR Ho. unfold gchild. destruct o as [m|]; [|discriminate].
    destruct (gmem m path) eqn:Em; [discriminate|].
    assert (Hn : ~ In m path) by (intros H; apply gmem_In in H; congruence).
    specialize (HR c m Ho Hn). destruct (rec c m) as [[[nd|] c1]|]; try discriminate. congruence.
  Qed.

  Lemma gpacked_total rec path c n k p : rec_total rec path -> in_range (gp_left p) -> in_range (gp_right p) ->
    gpacked rec path c n k p <> None.
  Proof.
    intros HR Hl Hr. unfold gpacked. destruct (cache_get n k c); [discriminate|].
    pose proof (gchild_total rec path c _ HR Hl) as H1.
    destruct (gchild rec path c (gp_left p)) as [[[lf|] c1]|]; try discriminate; try congruence.
    pose proof (gchild_total rec path c1 _ HR Hr) as H2.
    destruct (gchild rec path c1 (gp_right p)) as [[[rt|] c2]|]; try discriminate; congruence.
  Qed.

  Lemma gfams_total rec path n : rec_total rec path ->
    forall fs k c, (forall p, In p fs -> in_range (gp_left p) /\ in_range (gp_right p)) ->
      gfams rec path n k fs c <> None.
  Proof.
    intros HR. induction fs as [|p r IH]; intros k c Hfs; simpl; [discriminate|].
    destruct (Hfs p (or_introl eq_refl)) as (Hl & Hr).
    pose proof (gpacked_total rec path c n k p HR Hl Hr) as H1.
    destruct (gpacked rec path c n k p) as [[o c1]|]; [|congruence].
    specialize (IH (S k) c1 (fun q Hq => Hfs q (or_intror Hq))).
    destruct (gfams rec path n (S k) r c1) as [[ps c2]|]; [discriminate|congruence].
  Qed.

  (* the path is duplicate-free and inside the graph, so it is shorter than the graph while a node is off it *)
  Definition path_ok (path : list nat) : Prop := NoDup path /\ forall x, In x path -> x < length g.

  Lemma path_ok_cons n path : path_ok path -> n < length g -> ~ In n path ->
    path_ok (n :: path) /\ length path < length g.
  Proof.
    intros (Hnd & Hb) Hn Hnot.
    assert (Hb' : forall x, In x (n :: path) -> x < length g) by (intros x [<-|Hx]; auto).
    assert (Hnd' : NoDup (n :: path)) by (constructor; auto).
    split; [split; auto|]. rewrite <- (seq_length (length g) 0). apply (NoDup_incl_length Hnd').
    intros x Hx. apply in_seq. specialize (Hb' x Hx). lia.
  Qed.

  Theorem gsym_total fuel : forall path, path_ok path -> length g - length path <= fuel ->
    rec_total (gsym g fuel path) path.
  Proof.
    induction fuel as [|f IH]; intros path Hp Hf c n Hn Hnot;
      destruct (path_ok_cons n path Hp Hn Hnot) as (Hp' & Hlt); [lia|].
    simpl. destruct (nth_error g n) as [[ty v|l fams]|] eqn:En.
    - discriminate.
    - assert (Hf' : length g - length (n :: path) <= f) by (simpl; lia).
      pose proof (gfams_total (gsym g f (n :: path)) (n :: path) n (IH _ Hp' Hf') fams 0 c
                    (fun p Hp => gwfp_in_range l p (gwf_fam g Hwf n l fams p En Hp))) as H.
      destruct (gfams (gsym g f (n :: path)) (n :: path) n 0 fams c) as [[[|p ps] c1]|]; try discriminate. congruence.
    - apply nth_error_None in En. lia.
  Qed.
End Fuel.

(* the theorems about transform(root) *)
Section Top.
  Variable g : graph.
  Hypothesis Hwf : gwfb g = true.

  Theorem gunfold_total root : root < length g -> gunfold g root <> None.
  Proof.
    intros Hr. unfold gunfold.
    pose proof (gsym_total g Hwf (S (length g)) [] (conj (NoDup_nil _) (fun x (H : In x []) => match H with end)) ltac:(simpl; lia) [] root Hr
                  (fun H => H)) as H.
    destruct (gsym g (S (length g)) [] [] root) as [[o c]|]; [discriminate|congruence].
  Qed.

  Theorem gunfold_unf root nd : gunfold g root = Some (Some nd) -> unfn g root nd.
  Proof.
    unfold gunfold. destruct (gsym g (S (length g)) [] [] root) as [[o c]|] eqn:E; [|discriminate].
    intros H; inversion H; subst.
    exact (proj2 (gsym_unf g _ _ _ _ _ _ (cache_ok_nil g) E)).
  Qed.

  (* the kept part of a cyclic forest is a well-formed acyclic forest whose derivations are derivations of the graph;
     hence the explicit tree expands exactly to the shapes of the derivations of the kept part, each of which is a
     finite unfolding of the forest lark transformed *)
  Theorem graph_explicit_sound root nd :
    groot_okb g root = true -> gunfold g root = Some (Some nd) ->
    root_okb nd = true
    /\ (forall t, In t (expand (to_tree_explicit nd)) <-> In t (map shape (derivs nd)))
    /\ (forall d, In d (derivs nd) -> gder g root [d]).
  Proof.
    intros Hroot Hu. pose proof (gunfold_unf _ _ Hu) as HU.
    assert (Hok : root_okb nd = true).
    { unfold groot_okb in Hroot. destruct (nth_error g root) as [[|[a|] fams]|] eqn:En; try discriminate.
      inversion HU as [? ? ? E'|? ? ? ? E' _ _]; subst; rewrite En in E'; inversion E'; subst.
      simpl root_okb. apply (unfn_wf g Hwf _ _ HU). }
    split; auto. split; [apply B_expand_exact; auto|].
    intros d Hd. apply In_derivs in Hd; [|apply (root_NIF nd Hok)]. exact (unfn_gder g nd root HU [d] Hd).
  Qed.
End Top.

(* What is kept on a cyclic forest is NOT "the derivations without a repeated node", in either direction.
   sder: the derivations of the graph in which no node occurs twice on a path from the root (what a walk that only
   refuses to re-enter a node on its path, without a cache, would keep).  Because the transformation of a packed node is
   cached under the path of its first visit and reused under other paths, the walk (a) loses such derivations and (b)
   keeps derivations that do pass twice through a node; which ones depends on the order of the packed children.
   Witness: the forests lark builds on "a" for
       start: a | x     a: x | A     x: y     y: a | A     A: "a"          (cx_g:  start(x(y(a))) is lost)
       start: x | a     (the same, alternatives of start swapped)          (cx_g2: start(a(x(y(a)))) is kept)
   exported by the harness (stream cyclic-corpus compares lark's trees with the model's on both). *)
Inductive sder (g : graph) : list nat -> nat -> list dtree -> Prop :=
| sder_tok path n ty v : nth_error g n = Some (GTok ty v) -> sder g path n [DTok ty v]
| sder_sym path n l fams gp dl dr : nth_error g n = Some (GSym l fams) -> ~ In n path -> In gp fams ->
    sder_opt g (n :: path) (gp_left gp) dl -> sder_opt g (n :: path) (gp_right gp) dr ->
    sder g path n (match l with LSym _ => [DNode (gp_rule gp) (dl ++ dr)] | LInter _ _ => dl ++ dr end)
with sder_opt (g : graph) : list nat -> option nat -> list dtree -> Prop :=
| sdo_none path : sder_opt g path None []
| sdo_some path m ds : sder g path m ds -> sder_opt g path (Some m) ds.

Local Open Scope string_scope.
Local Open Scope list_scope.
Definition cx_s (nm : string) : xrule := mkX nm nm false false false [mkSym "x" false false] [].
Definition cx_start_a := mkX "start" "start" false false false [mkSym "a" false false] [].
Definition cx_start_x := mkX "start" "start" false false false [mkSym "x" false false] [].
Definition cx_a_x := mkX "a" "a" false false false [mkSym "x" false false] [].
Definition cx_a_A := mkX "a" "a" false false false [mkSym "A" true false] [].
Definition cx_x_y := mkX "x" "x" false false false [mkSym "y" false false] [].
Definition cx_y_a := mkX "y" "y" false false false [mkSym "a" false false] [].
Definition cx_y_A := mkX "y" "y" false false false [mkSym "A" true false] [].

Definition cx_g : graph :=
  [GSym (LSym "start") [mkGP cx_start_a None (Some 1); mkGP cx_start_x None (Some 2)];
   GSym (LSym "a") [mkGP cx_a_x None (Some 2); mkGP cx_a_A None (Some 3)];
   GSym (LSym "x") [mkGP cx_x_y None (Some 4)];
   GTok "A" "a";
   GSym (LSym "y") [mkGP cx_y_a None (Some 1); mkGP cx_y_A None (Some 5)];
   GTok "A" "a"].
Definition cx_tree : tree :=
  Nd "_ambig" [Nd "start" [Nd "_ambig" [Nd "a" [Nd "x" [Nd "y" [Tk "A" "a"]]]; Nd "a" [Tk "A" "a"]]];
               Nd "start" [Nd "x" [Nd "y" [Tk "A" "a"]]]].
Definition cx_lost : dtree := DNode cx_start_x [DNode cx_x_y [DNode cx_y_a [DNode cx_a_A [DTok "A" "a"]]]].

Definition cx_g2 : graph :=
  [GSym (LSym "start") [mkGP cx_start_x None (Some 1); mkGP cx_start_a None (Some 2)];
   GSym (LSym "x") [mkGP cx_x_y None (Some 3)];
   GSym (LSym "a") [mkGP cx_a_x None (Some 1); mkGP cx_a_A None (Some 4)];
   GSym (LSym "y") [mkGP cx_y_a None (Some 2); mkGP cx_y_A None (Some 5)];
   GTok "A" "a";
   GTok "A" "a"].
Definition cx_tree2 : tree :=
  Nd "_ambig" [Nd "start" [Nd "x" [Nd "_ambig" [Nd "y" [Nd "a" [Tk "A" "a"]]; Nd "y" [Tk "A" "a"]]]];
               Nd "start" [Nd "_ambig" [Nd "a" [Nd "x" [Nd "_ambig" [Nd "y" [Nd "a" [Tk "A" "a"]]; Nd "y" [Tk "A" "a"]]]];
                                        Nd "a" [Tk "A" "a"]]]].
Definition cx_pumped : dtree :=
  DNode cx_start_a [DNode cx_a_x [DNode cx_x_y [DNode cx_y_a [DNode cx_a_A [DTok "A" "a"]]]]].

Lemma sder_unit g path n a fams gp m d :
  nth_error g n = Some (GSym (LSym a) fams) -> ~ In n path -> In gp fams -> gp_left gp = None -> gp_right gp = Some m ->
  sder g (n :: path) m [d] -> sder g path n [DNode (gp_rule gp) [d]].
Proof.
  intros En Hp Hg Hl Hr Hd.
  pose proof (sder_sym g path n (LSym a) fams gp [] [d] En Hp Hg) as H. rewrite Hl, Hr in H.
  apply H; constructor; auto.
Qed.

Lemma sder_fresh g path n l fams ds : sder g path n ds -> nth_error g n = Some (GSym l fams) -> ~ In n path.
Proof. intros Hs En. inversion Hs; subst; congruence. Qed.

(* one step down a chain of unit rules: the family is determined by its rule *)
Lemma sder_unit_inv g path n a fams r ks m :
  sder g path n [DNode r ks] -> nth_error g n = Some (GSym (LSym a) fams) ->
  (forall gp, In gp fams -> gp_left gp = None /\ (gp_rule gp = r -> gp_right gp = Some m)) ->
  sder g (n :: path) m ks.
Proof.
  intros Hs En Hf. inversion Hs as [|? ? l fams0 gp dl dr E0 Hp Hg Hl Hr E1 E2 E3]. subst.
  rewrite En in E0. inversion E0; subst. inversion E3; subst.
  destruct (Hf gp Hg) as (El & Er). rewrite El in Hl. rewrite (Er eq_refl) in Hr.
  inversion Hl; subst. inversion Hr; subst. auto.
Qed.

Theorem cyclic_kept_is_order_dependent :
  (gwfb cx_g = true /\ groot_okb cx_g 0 = true /\
   exists nd, gunfold cx_g 0 = Some (Some nd) /\ to_tree_explicit nd = cx_tree /\ length (derivs nd) = 3 /\
              sder cx_g [] 0 [cx_lost] /\ ~ In cx_lost (derivs nd))
  /\
  (gwfb cx_g2 = true /\ groot_okb cx_g2 0 = true /\
   exists nd, gunfold cx_g2 0 = Some (Some nd) /\ to_tree_explicit nd = cx_tree2 /\ length (derivs nd) = 5 /\
              In cx_pumped (derivs nd) /\ ~ sder cx_g2 [] 0 [cx_pumped]).
Proof.
  split.
  - split; [vm_compute; reflexivity|]. split; [vm_compute; reflexivity|].
    eexists. split; [vm_compute; reflexivity|]. split; [vm_compute; reflexivity|]. split; [vm_compute; reflexivity|]. split.
    + unfold cx_lost.
      eapply (sder_unit cx_g [] 0 "start" _ (mkGP cx_start_x None (Some 2)) 2); try reflexivity; simpl; auto.
      eapply (sder_unit cx_g [0] 2 "x" _ (mkGP cx_x_y None (Some 4)) 4); try reflexivity; simpl; [intuition lia|auto|].
      eapply (sder_unit cx_g [2; 0] 4 "y" _ (mkGP cx_y_a None (Some 1)) 1); try reflexivity; simpl; [intuition lia|auto|].
      eapply (sder_unit cx_g [4; 2; 0] 1 "a" _ (mkGP cx_a_A None (Some 3)) 3); try reflexivity; simpl; [intuition lia|auto|].
      apply sder_tok. reflexivity.
    + vm_compute. intros H. repeat (destruct H as [H|H]; [discriminate H|]). exact H.
  - split; [vm_compute; reflexivity|]. split; [vm_compute; reflexivity|].
    eexists. split; [vm_compute; reflexivity|]. split; [vm_compute; reflexivity|]. split; [vm_compute; reflexivity|]. split.
    + vm_compute. tauto.
    + (* the tree passes through node 2 (a) twice *)
      intros H. unfold cx_pumped in H.
      eapply (sder_unit_inv _ _ _ _ _ _ _ 2) in H; [|reflexivity|intros gp [<-|[<-|[]]]; split; auto; intros E; discriminate E].
      eapply (sder_unit_inv _ _ _ _ _ _ _ 1) in H; [|reflexivity|intros gp [<-|[<-|[]]]; split; auto; intros E; discriminate E].
      eapply (sder_unit_inv _ _ _ _ _ _ _ 3) in H; [|reflexivity|intros gp [<-|[]]; split; auto].
      eapply (sder_unit_inv _ _ _ _ _ _ _ 2) in H; [|reflexivity|intros gp [<-|[<-|[]]]; split; auto; intros E; discriminate E].
      apply (sder_fresh _ _ _ _ _ _ H eq_refl). simpl. auto.
Qed.
