(* The yield-level Indenter of Inst/IndSteps.v against the whole-stream model Sys/Indenter.v: stage by stage
   (pop_steps / nl_steps / final_steps / run_steps), forgetting the per-yield states gives the function of C18. *)
From Coq Require Import ZArith List Bool String Ascii.
From LV Require Import Base.Prelude Sys.IndenterBase Gen.IndenterHoles Sys.Indenter Inst.IndSteps.
Import ListNotations.
Local Open Scope Z_scope.

Definition forget {S E} (r : list ystep * S * E) : list tok * S * E :=
  let '(o, s, e) := r in (map fst o, s, e).

Lemma pop_steps_pop_while cfg indent istr paren stk :
  forget (pop_steps cfg indent istr paren stk) = pop_while cfg indent istr stk.
Proof.
  induction stk as [|top rest IH]; cbn; auto.
  destruct (h_lt indent top).
  - rewrite <- IH. destruct (pop_steps cfg indent istr paren rest) as [[o s] e]. reflexivity.
  - destruct (h_ne indent top); reflexivity.
Qed.

Lemma nl_steps_handle_NL cfg st t : forget (nl_steps cfg st t) = handle_NL cfg st t.
Proof.
  unfold nl_steps, handle_NL. destruct (h_inparen (paren st)); auto.
  destruct (after_last_nl (tval t)); auto. destruct (stack st) as [|top r] eqn:E; auto.
  destruct (h_gt (h_indent cfg s) top); auto.
  rewrite <- (pop_steps_pop_while cfg (h_indent cfg s) s (paren st) (top :: r)).
  destruct (pop_steps cfg (h_indent cfg s) s (paren st) (top :: r)) as [[o s1] e1]. reflexivity.
Qed.

Lemma final_steps_final_pops cfg paren stk : forget (final_steps cfg paren stk) = final_pops cfg stk.
Proof.
  induction stk as [|top rest IH]; cbn [final_steps final_pops].
  - destruct (h_more []); reflexivity.
  - destruct (h_more (top :: rest)); auto.
    rewrite <- IH. destruct (final_steps cfg paren rest) as [[o s] e]. reflexivity.
Qed.

Lemma run_steps_run cfg ts : forall st, forget (run_steps cfg st ts) = run cfg st ts.
Proof.
  induction ts as [|t rest IH]; intros st; cbn [run_steps run].
  - unfold finish_steps. rewrite <- (final_steps_final_pops cfg (paren st) (stack st)).
    destruct (final_steps cfg (paren st) (stack st)) as [[o s] e]. destruct e; reflexivity.
  - unfold feed.
    assert (H : forget (if String.eqb (ttype t) (nl_type cfg) then nl_steps cfg st t else ([(t, st)], st, None))
                = (if String.eqb (ttype t) (nl_type cfg) then handle_NL cfg st t else ([t], st, None))).
    { destruct (String.eqb (ttype t) (nl_type cfg)); [apply nl_steps_handle_NL|reflexivity]. }
    rewrite <- H.
    destruct (if String.eqb (ttype t) (nl_type cfg) then nl_steps cfg st t else ([(t, st)], st, None)) as [[o1 st1] e1].
    cbn. destruct e1; [reflexivity|].
    destruct (step_paren cfg st1 t) as [st2 e2]. destruct e2; [reflexivity|].
    rewrite <- IH. destruct (run_steps cfg st2 rest) as [[o s] e]. cbn. now rewrite map_app.
Qed.
