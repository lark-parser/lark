(* Count semantics of the compiled repetition operators (C09). *)
From Coq Require Import ZArith List Bool Lia Arith.
From LV Require Import Base.Prelude Gen.Consts Gen.SmallFactors Ebnf.Repeat Ebnf.SmallFactors_proofs.
Import ListNotations.

(* cnt e k : the fragment e derives exactly k consecutive occurrences of the item *)
Inductive cnt : rexp -> nat -> Prop :=
| c_atom : cnt Atom 1
| c_eps : cnt Eps 0
| c_cat a b i j : cnt a i -> cnt b j -> cnt (Cat a b) (i + j)
| c_or_l a b k : cnt a k -> cnt (Or a b) k
| c_or_r a b k : cnt b k -> cnt (Or a b) k
| c_rec1 e k : cnt e k -> cnt (Rec e) k
| c_rec2 e i j : cnt (Rec e) i -> cnt e j -> cnt (Rec e) (i + j).

Lemma cnt_atom_iff k : cnt Atom k <-> k = 1.
Proof. split; intros H; [inversion H; auto | subst; constructor]. Qed.
Lemma cnt_eps_iff k : cnt Eps k <-> k = 0.
Proof. split; intros H; [inversion H; auto | subst; constructor]. Qed.
Lemma cnt_void k : ~ cnt Void k.
Proof. intros H; inversion H. Qed.
Lemma cnt_cat_iff a b k : cnt (Cat a b) k <-> exists i j, k = i + j /\ cnt a i /\ cnt b j.
Proof.
  split.
  - intros H; inversion H; subst. eauto.
  - intros (i & j & -> & Ha & Hb). constructor; auto.
Qed.
Lemma cnt_or_iff a b k : cnt (Or a b) k <-> cnt a k \/ cnt b k.
Proof.
  split.
  - intros H; inversion H; subst; auto.
  - intros [H|H]; [apply c_or_l | apply c_or_r]; auto.
Qed.

Definition exactly (e : rexp) (c : nat) : Prop := forall k, cnt e k <-> k = c.
Definition below (e : rexp) (c : nat) : Prop := forall k, cnt e k <-> k < c.

Lemma exactly_atom : exactly Atom 1.
Proof. exact cnt_atom_iff. Qed.

Lemma cnt_alt_of l k : cnt (alt_of l) k <-> exists e, In e l /\ cnt e k.
Proof.
  induction l as [|x l IH]; simpl.
  - split; [intros H; exfalso; eapply cnt_void; eauto | intros (e & [] & _)].
  - rewrite cnt_or_iff. split.
    + intros [H|H]; [exists x; auto|]. apply IH in H. destruct H as (e & Hin & He). exists e; auto.
    + intros (e & [->|Hin] & He); auto. right. apply IH. exists e; auto.
Qed.

Lemma cnt_seq_repeat t c l : exactly t c ->
  forall a k, cnt (seq_of (repeat t a ++ l)) k <-> exists j, cnt (seq_of l) j /\ k = a * c + j.
Proof.
  intros Ht. induction a as [|a IH]; intros k; simpl.
  - split; [intros H; exists k; auto | intros (j & H & ->); auto].
  - rewrite cnt_cat_iff. split.
    + intros (i & j & -> & Hi & Hj). apply Ht in Hi. subst i. apply IH in Hj.
      destruct Hj as (j' & Hj' & ->). exists j'. split; auto. lia.
    + intros (j & Hj & ->). exists c, (a * c + j). split; [lia|]. split; [apply Ht; auto|].
      apply IH. exists j; auto.
Qed.

Lemma cnt_seq_nil k : cnt (seq_of []) k <-> k = 0.
Proof. simpl. apply cnt_eps_iff. Qed.

Lemma cnt_seq_single e k : cnt (seq_of [e]) k <-> cnt e k.
Proof.
  simpl. rewrite cnt_cat_iff. split.
  - intros (i & j & -> & Hi & Hj). apply cnt_eps_iff in Hj. subst. rewrite Nat.add_0_r. auto.
  - intros H. exists k, 0. split; [lia|]. split; auto. constructor.
Qed.

Lemma cnt_seq_atoms atom b k : exactly atom 1 -> cnt (seq_of (repeat atom b)) k <-> k = b.
Proof.
  intros Ha. rewrite <- (app_nil_r (repeat atom b)). rewrite (cnt_seq_repeat atom 1 [] Ha).
  split.
  - intros (j & Hj & ->). apply cnt_seq_nil in Hj. lia.
  - intros ->. exists 0. split; [apply cnt_seq_nil; auto | lia].
Qed.

Lemma repeat_rule_exact a b t atom c :
  exactly t c -> exactly atom 1 -> exactly (add_repeat_rule a b t atom) (a * c + b).
Proof.
  intros Ht Ha k. unfold add_repeat_rule. rewrite cnt_alt_of. split.
  - intros (e & [<-|[]] & He). apply (cnt_seq_repeat t c _ Ht) in He.
    destruct He as (j & Hj & ->). apply (cnt_seq_atoms atom b j Ha) in Hj. lia.
  - intros ->. eexists. split; [left; reflexivity|].
    apply (cnt_seq_repeat t c _ Ht). exists b. split; auto. apply (cnt_seq_atoms atom b b Ha). auto.
Qed.

Lemma repeat_opt_below a b t topt atom c :
  exactly t c -> below topt c -> exactly atom 1 -> 1 <= c ->
  below (add_repeat_opt_rule a b t topt atom) (a * c + b).
Proof.
  intros Ht Ho Ha Hc k. unfold add_repeat_opt_rule. rewrite cnt_alt_of. split.
  - intros (e & Hin & He). apply in_app_or in Hin. destruct Hin as [Hin|Hin];
      apply in_map_iff in Hin; destruct Hin as (i & <- & Hi); apply in_seq in Hi.
    + apply (cnt_seq_repeat t c _ Ht) in He. destruct He as (j & Hj & ->).
      apply cnt_seq_single, Ho in Hj. nia.
    + apply (cnt_seq_repeat t c _ Ht) in He. destruct He as (j & Hj & ->).
      apply (cnt_seq_atoms atom i j Ha) in Hj. nia.
  - intros Hk. destruct (lt_dec k (a * c)) as [Hlt|Hge].
    + exists (seq_of (repeat t (k / c) ++ [topt])). split.
      * apply in_or_app. left. apply in_map_iff. exists (k / c). split; auto.
        apply in_seq. split; [lia|]. simpl. apply Nat.div_lt_upper_bound; lia.
      * apply (cnt_seq_repeat t c _ Ht). exists (k mod c). split.
        -- apply cnt_seq_single, Ho. apply Nat.mod_upper_bound. lia.
        -- rewrite (Nat.div_mod k c) at 1 by lia. lia.
    + exists (seq_of (repeat t a ++ repeat atom (k - a * c))). split.
      * apply in_or_app. right. apply in_map_iff. exists (k - a * c). split; auto.
        apply in_seq. lia.
      * apply (cnt_seq_repeat t c _ Ht). exists (k - a * c). split; [|lia].
        apply (cnt_seq_atoms atom _ _ Ha). auto.
Qed.

Definition nvalue (l : list (nat * nat)) (c : nat) : nat := fold_left (fun n p => n * fst p + snd p) l c.

Lemma mn_fold fs : forall t c, exactly t c -> exactly (fold_left (mn_step Atom) fs t) (nvalue fs c).
Proof.
  induction fs as [|[a b] fs IH]; intros t c Ht; simpl; auto.
  apply IH. unfold mn_step. simpl. rewrite (Nat.mul_comm c a).
  apply repeat_rule_exact; auto. apply exactly_atom.
Qed.

Lemma diff_fold fs : forall s c,
  exactly (fst s) c -> below (snd s) c -> 1 <= c -> Forall (fun p => 1 <= fst p) fs ->
  exactly (fst (fold_left (diff_step Atom) fs s)) (nvalue fs c) /\
  below (snd (fold_left (diff_step Atom) fs s)) (nvalue fs c) /\ 1 <= nvalue fs c.
Proof.
  induction fs as [|[a b] fs IH]; intros s c He Hb Hc Hall; simpl; auto.
  inversion Hall as [|? ? Ha Hall']; subst. simpl in Ha.
  apply IH; auto; unfold diff_step; simpl; rewrite (Nat.mul_comm c a).
  - apply repeat_rule_exact; auto. apply exactly_atom.
  - apply repeat_opt_below; auto. apply exactly_atom.
  - nia.
Qed.

Lemma nvalue_Z fs : forall c,
  Forall (fun p => (0 <= fst p /\ 0 <= snd p)%Z) fs ->
  Z.of_nat (nvalue (map natpair fs) c) = fold_left (fun n p => (n * fst p + snd p)%Z) fs (Z.of_nat c).
Proof.
  induction fs as [|[a b] fs IH]; intros c Hall; simpl; auto.
  inversion Hall as [|? ? [Ha Hb] Hall']; subst. simpl in Ha, Hb.
  unfold nvalue in *. simpl. rewrite IH by auto. f_equal. lia.
Qed.

Lemma sf_wf_nonneg mf n l : sf_wf mf n l -> Forall (fun p => (0 <= fst p /\ 0 <= snd p)%Z) l.
Proof.
  intros (a0 & rest & -> & Ha0 & _ & Ht). constructor; [simpl; lia|].
  eapply Forall_impl; [|exact Ht]. simpl. intros; lia.
Qed.

Lemma sf_wf_pos mf n l : (1 <= n)%Z -> sf_wf mf n l -> Forall (fun p => 1 <= fst p) (map natpair l).
Proof.
  intros Hn (a0 & rest & -> & Ha0 & H1 & Ht). simpl. constructor; [simpl; lia|].
  apply Forall_map. eapply Forall_impl; [|exact Ht]. simpl. intros; lia.
Qed.

Lemma sf_value_nat mf n l : (0 <= n)%Z -> sf_wf mf n l -> sf_value l = n ->
  nvalue (map natpair l) 1 = Z.to_nat n.
Proof.
  intros Hn Hwf Hv. apply Nat2Z.inj. rewrite (nvalue_Z l 1 (sf_wf_nonneg _ _ _ Hwf)).
  unfold sf_value in Hv. simpl Z.of_nat. rewrite Hv. lia.
Qed.

Lemma SFT_ok : (2 < SMALL_FACTOR_THRESHOLD)%Z.
Proof. unfold SMALL_FACTOR_THRESHOLD. lia. Qed.

Lemma below_eps_1 : below (seq_of []) 1.
Proof. intros k. rewrite cnt_seq_nil. lia. Qed.

(* x~mn..mx matches exactly mn..mx occurrences, through either compilation scheme *)
Theorem generate_repeats_count mn mx :
  (0 <= mn <= mx)%Z ->
  exists e, generate_repeats Atom mn mx = Ok e /\
            forall k, cnt e k <-> Z.to_nat mn <= k <= Z.to_nat mx.
Proof.
  intros Hb. unfold generate_repeats.
  destruct (mx <? REPEAT_BREAK_THRESHOLD)%Z.
  - eexists. split; [reflexivity|]. intros k. rewrite cnt_alt_of. split.
    + intros (e & Hin & He). apply in_map_iff in Hin. destruct Hin as (n & <- & Hn).
      apply in_seq in Hn. apply (cnt_seq_atoms Atom n k exactly_atom) in He. lia.
    + intros Hk. exists (seq_of (repeat Atom k)). split.
      * apply in_map_iff. exists k. split; auto. apply in_seq. lia.
      * apply (cnt_seq_atoms Atom k k exactly_atom). auto.
  - destruct (small_factors_spec mn SMALL_FACTOR_THRESHOLD ltac:(lia) SFT_ok) as (fs & Hfs & Hv & Hwf).
    unfold sf_fuel. rewrite Hfs. cbn [rbind].
    pose proof (mn_fold (map natpair fs) Atom 1 exactly_atom) as Hmn.
    rewrite (sf_value_nat SMALL_FACTOR_THRESHOLD mn fs ltac:(lia) Hwf Hv) in Hmn.
    destruct (mx =? mn)%Z eqn:Heq.
    + apply Z.eqb_eq in Heq. subst mx. eexists. split; [reflexivity|]. intros k. rewrite (Hmn k). lia.
    + apply Z.eqb_neq in Heq.
      destruct (small_factors_spec (mx - mn + 1) SMALL_FACTOR_THRESHOLD ltac:(lia) SFT_ok) as (dfs & Hdfs & Hdv & Hdwf).
      rewrite Hdfs. cbn [rbind]. eexists. split; [reflexivity|].
      pose proof (sf_wf_pos SMALL_FACTOR_THRESHOLD (mx - mn + 1)%Z dfs ltac:(lia) Hdwf) as Hpos.
      destruct (diff_fold (map natpair dfs) (Atom, seq_of []) 1 exactly_atom below_eps_1 (le_n 1) Hpos) as (_ & Hopt & _).
      rewrite (sf_value_nat SMALL_FACTOR_THRESHOLD (mx - mn + 1)%Z dfs ltac:(lia) Hdwf Hdv) in Hopt.
      (* the last step of the fold makes the optional target that the code builds from the last pair *)
      assert (Hne : map natpair dfs <> []) by (destruct Hdwf as (a0 & rest & -> & _); discriminate).
      rewrite (app_removelast_last (0, 0) Hne), fold_left_app in Hopt. cbn [fold_left diff_step snd] in Hopt.
      intros k. rewrite cnt_alt_of. split.
      * intros (e & [<-|[]] & Hk). simpl in Hk. apply cnt_cat_iff in Hk.
        destruct Hk as (i & j & -> & Hi & Hj). apply Hmn in Hi. apply cnt_seq_single, Hopt in Hj. lia.
      * intros Hk. eexists. split; [left; reflexivity|]. simpl. apply cnt_cat_iff.
        exists (Z.to_nat mn), (k - Z.to_nat mn). split; [lia|]. split; [apply Hmn; auto|].
        apply cnt_seq_single, Hopt. lia.
Qed.

Lemma rec_count e : exactly e 1 -> forall k, cnt (Rec e) k <-> 1 <= k.
Proof.
  intros He k. split.
  - intros H. remember (Rec e) as r eqn:Er. induction H; inversion Er; subst.
    + apply He in H. lia.
    + apply He in H0. specialize (IHcnt1 eq_refl). lia.
  - intros Hk. induction k as [|k IH]; [lia|].
    destruct k as [|k'].
    + apply c_rec1. apply He. auto.
    + replace (S (S k')) with (S k' + 1) by lia. apply c_rec2; [apply IH; lia | apply He; auto].
Qed.

Theorem op_opt_count k : cnt (op_opt Atom) k <-> k <= 1.
Proof.
  unfold op_opt. rewrite cnt_alt_of. split.
  - intros (e & [<-|[<-|[]]] & H); [apply cnt_atom_iff in H | apply cnt_seq_nil in H]; lia.
  - intros Hk. destruct k as [|[|k]]; [| |lia].
    + exists (seq_of []). split; [right; left; auto | apply cnt_seq_nil; auto].
    + exists Atom. split; [left; auto | constructor].
Qed.

Theorem op_plus_count k : cnt (op_plus Atom) k <-> 1 <= k.
Proof. apply rec_count. apply exactly_atom. Qed.

Theorem op_star_count k : cnt (op_star Atom) k <-> True.
Proof.
  unfold op_star. rewrite cnt_alt_of. split; auto. intros _.
  destruct k as [|k].
  - exists (seq_of []). split; [right; left; auto | apply cnt_seq_nil; auto].
  - exists (Rec Atom). split; [left; auto | apply (rec_count Atom exactly_atom); lia].
Qed.

(* from counts to languages: x may be any language A (terminal, rule, group, template
   argument): the fragment derives w iff w is a concatenation of k words of A with cnt k. *)
Section Lang.
  Variable tok : Type.
  Variable A : list tok -> Prop.

  Inductive pow : nat -> list tok -> Prop :=
  | pow0 : pow 0 []
  | powS k u v : A u -> pow k v -> pow (S k) (u ++ v).

  Inductive den : rexp -> list tok -> Prop :=
  | d_atom w : A w -> den Atom w
  | d_eps : den Eps []
  | d_cat a b u v : den a u -> den b v -> den (Cat a b) (u ++ v)
  | d_or_l a b w : den a w -> den (Or a b) w
  | d_or_r a b w : den b w -> den (Or a b) w
  | d_rec1 e w : den e w -> den (Rec e) w
  | d_rec2 e u v : den (Rec e) u -> den e v -> den (Rec e) (u ++ v).

  Lemma pow_app i j u v : pow i u -> pow j v -> pow (i + j) (u ++ v).
  Proof.
    induction 1; intros Hv; simpl; auto. rewrite <- app_assoc. constructor; auto.
  Qed.

  Lemma pow_split i j w : pow (i + j) w -> exists u v, w = u ++ v /\ pow i u /\ pow j v.
  Proof.
    revert w. induction i as [|i IH]; simpl; intros w H.
    - exists [], w. repeat split; auto. constructor.
    - inversion H as [|k0 u v0 Hu0 Hp0]; subst.
      destruct (IH _ Hp0) as (u' & v' & -> & Hu & Hv).
      exists (u ++ u'), v'. rewrite app_assoc. repeat split; auto. constructor; auto.
  Qed.

  Lemma pow_1 w : A w -> pow 1 w.
  Proof. intros. rewrite <- (app_nil_r w). constructor; auto. constructor. Qed.

  Theorem den_cnt e w : den e w <-> exists k, cnt e k /\ pow k w.
  Proof.
    split.
    - induction 1.
      + exists 1. split; [constructor | apply pow_1; auto].
      + exists 0. split; constructor.
      + destruct IHden1 as (i & Hi & Pi). destruct IHden2 as (j & Hj & Pj).
        exists (i + j). split; [constructor; auto | apply pow_app; auto].
      + destruct IHden as (k & Hk & Pk). exists k. split; auto. apply c_or_l; auto.
      + destruct IHden as (k & Hk & Pk). exists k. split; auto. apply c_or_r; auto.
      + destruct IHden as (k & Hk & Pk). exists k. split; auto. apply c_rec1; auto.
      + destruct IHden1 as (i & Hi & Pi). destruct IHden2 as (j & Hj & Pj).
        exists (i + j). split; [apply c_rec2; auto | apply pow_app; auto].
    - intros (k & Hk & Pk). revert w Pk. induction Hk; intros w Pk.
      + inversion Pk as [|k0 u v0 Hu0 Hp0]; subst. inversion Hp0; subst. rewrite app_nil_r. constructor; auto.
      + inversion Pk; subst. constructor.
      + apply pow_split in Pk. destruct Pk as (u & v & -> & Pu & Pv). constructor; auto.
      + apply d_or_l; auto.
      + apply d_or_r; auto.
      + apply d_rec1; auto.
      + apply pow_split in Pk. destruct Pk as (u & v & -> & Pu & Pv). apply d_rec2; auto.
  Qed.
End Lang.

Theorem generate_repeats_language (tok : Type) (A : list tok -> Prop) mn mx :
  (0 <= mn <= mx)%Z ->
  exists e, generate_repeats Atom mn mx = Ok e /\
    forall w, den tok A e w <-> exists k, Z.to_nat mn <= k <= Z.to_nat mx /\ pow tok A k w.
Proof.
  intros Hb. destruct (generate_repeats_count mn mx Hb) as (e & He & Hc).
  exists e. split; auto. intros w. rewrite den_cnt.
  split; intros (k & Hk & Pk); exists k; (split; [apply Hc; exact Hk | exact Pk]).
Qed.
