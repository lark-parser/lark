(* Extent of metas in the LALR pipeline (C06 tree_coords_exact, second half): the value of every
   sub-derivation offers its parent exactly the span of the tokens it matched, and a tree created
   by a rule application carries that span as its own meta. *)
From Coq Require Import ZArith List Bool String Lia.
From LV Require Import Base.Prelude Cfg.Grammar Pos.LexCoords Pos.MetaSpan Pos.MetaSpan_proofs
  Shape.Chain Shape.Chain_proofs Pos.TreeShift Pos.TreeShift_proofs.
From LV Require LR.Driver.
Import ListNotations.

Section TreeSpan.
Context {A term : Type}.
Notation tok := (token A term).
Notation dt := (Driver.dtree tok).
Variable rr : rule -> rrec.
Variable mp : bool.

Definition se (t : tok) : trip * trip := (start3 t, end3 t).
Definition Y (d : dt) : list (trip * trip) := map se (Driver.yield tok d).

(* exclusion of finding F23, stated on the derivation: a sub-derivation whose value is a bare token
   (an inlined ?rule around one kept token) or None matched nothing else *)
Definition good_d (d : dt) : Prop :=
  forall d', In d' (dsubs d) ->
    match tree_of rr mp d' with
    | Some (VTok t) => Driver.yield tok d' = [t]
    | Some VNone => Driver.yield tok d' = []
    | _ => True
    end.

Inductive DE : vtree A term -> Prop :=
| DE_tok t : DE (VTok t)
| DE_none : DE VNone
| DE_tree n m ch : m_empty m = true -> Forall DE ch -> DE (VTree n m ch).

(* the extent invariant of MetaSpan_proofs.Inv (there over ptree), here over the driver's derivations *)
Definition DInv (d : dt) (v : vtree A term) : Prop :=
  offers (shaped_of v) (Y d) /\ (Y d = [] -> DE v).

Lemma Y_node r cs : Y (Driver.Node r cs) = flat_map Y cs.
Proof.
  unfold Y. cbn [Driver.yield]. induction cs as [|c cs IH]; [reflexivity|].
  cbn [flat_map]. rewrite map_app, IH. reflexivity.
Qed.

Lemma dsubs_self (d : dt) : In d (dsubs d).
Proof. destruct d; left; reflexivity. Qed.

Lemma good_d_child r cs c : good_d (Driver.Node r cs) -> In c cs -> good_d c.
Proof. intros G Hc d' Hd'. apply G. cbn [dsubs]. right. apply in_flat_map. exists c. split; auto. Qed.

Lemma DE_kids x l : DE x -> vkids x = Some l -> Forall DE l.
Proof. intros H. destruct x; cbn; try discriminate. intros [= <-]. inversion H; auto. Qed.

Theorem tree_of_DInv d : good_d d -> forall v, tree_of rr mp d = Some v -> DInv d v.
Proof.
  intros G v. revert d v G. apply (tree_of_ind rr mp good_d DInv).
  - exact good_d_child.
  - intros k _. split; [apply offers_tok|discriminate].
  - intros r cs vs res G Hkids Hv Er.
    pose proof (G _ (dsubs_self (Driver.Node r cs))) as Gd. rewrite Hv in Gd.
    destruct res as [t|n m l|]; cbn [pp] in *.
    + split; [|intros; constructor]. unfold Y. rewrite Gd. apply offers_tok.
    + assert (Hsp : Forall2 (fun c v => offers (shaped_of v) (Y c)) cs vs).
      { eapply Forall2_impl; [|exact Hkids]. intros c v H. apply H. }
      (* no token below: nothing below has a meta, so the tree that comes back has none either *)
      assert (Hde : flat_map Y cs = [] -> DE (VTree n m l)).
      { intros Ey. assert (Hvs : Forall DE vs).
        { clear - Hkids Ey. induction Hkids as [|c v cs vs (_ & Hd) _ IH]; constructor;
            cbn [flat_map] in Ey; apply app_eq_nil in Ey; [apply Hd|apply IH]; tauto. }
        eapply (run_callback_pres (vtree A term) VNone vkids vmk DE); eauto.
        - constructor.
        - exact DE_kids.
        - intros n' l' Hl. constructor; [reflexivity|exact Hl]. }
      unfold DInv. cbn [shaped_of]. rewrite (Y_node r). split.
      * apply (offers_propagate Y shaped_of); [exact Hsp|]. intros Ey.
        specialize (Hde Ey). inversion Hde; assumption.
      * intros Ey. rewrite (propagate_span Y shaped_of m cs vs Hsp). cbv zeta. rewrite Ey. exact (Hde Ey).
    + split; [|intros; constructor]. unfold Y. rewrite Gd. reflexivity.
Qed.

(* C06: the span offered to the parent (container fields when present, else own) is exactly the
   span of the matched tokens; the meta is empty iff no token was matched *)
Theorem tree_container_span d name m ch :
  good_d d -> tree_of rr mp d = Some (VTree name m ch) ->
  (Y d = [] <-> m_empty m = true) /\
  (Y d <> [] -> or_else (m_cstart m) (m_start m) = first_start (Y d) /\
                or_else (m_cend m) (m_end m) = last_end (Y d)).
Proof.
  intros G Hv. destruct (tree_of_DInv d G _ Hv) as (Ho & _). cbn [shaped_of] in Ho. apply offers_tree in Ho.
  destruct (m_empty m).
  - split; [split; auto|]. intros H. contradiction.
  - destruct Ho as (Hne & Hse). split; [split; [intros H; contradiction|discriminate]|]. intros _. exact Hse.
Qed.

End TreeSpan.

Section OwnSpan.
Context {A term : Type}.
Notation tok := (token A term).
Variable rr : rule -> rrec.
Variable mp : bool.

Inductive desc (c : vtree A term) : vtree A term -> Prop :=
| d_refl : desc c c
| d_kid n m ch y : desc c (VTree n m ch) -> In y ch -> desc c y.

Definition old_value (vs : list (vtree A term)) (x : vtree A term) : Prop :=
  x = VNone \/ exists c, In c vs /\ desc c x.

(* A tree that comes out of a rule application either was created by it - then its own meta AND its
   container fields are exactly the span of the tokens the rule matched - or it already existed
   inside one of the children's values (inlined ?rule: that tree keeps the span of the rule that
   created it, by this same theorem one level down, and only its container fields are widened,
   tree_container_span). *)
Theorem tree_own_span r cs vs name m ch :
  good_d rr mp (Driver.Node r cs) ->
  all_some (map (tree_of rr mp) cs) = Some vs ->
  tree_of rr mp (Driver.Node r cs) = Some (VTree name m ch) ->
  (exists m0, old_value vs (VTree name m0 ch)) \/
  (m_start m = first_start (Y (Driver.Node r cs)) /\ m_end m = last_end (Y (Driver.Node r cs)) /\
   m_cstart m = m_start m /\ m_cend m = m_end m).
Proof.
  intros G E Hv.
  cbn [tree_of] in Hv. rewrite E in Hv. apply pos_callback_inv in Hv. destruct Hv as (res & Er & Hv).
  assert (Hnone : old_value vs VNone) by (left; reflexivity).
  assert (Hkids : forall x l, old_value vs x -> vkids x = Some l -> Forall (old_value vs) l).
  { intros x l [-> | (c & Hc & Hd)]; [discriminate|]. destruct x as [t|n m' ch'|]; try discriminate.
    intros [= <-]. rewrite Forall_forall. intros y Hy. right. exists c. split; auto. econstructor; eauto. }
  assert (Hfor : Forall (old_value vs) vs).
  { rewrite Forall_forall. intros x Hx. right. exists x. split; auto. constructor. }
  destruct (run_callback_cases (vtree A term) VNone vkids vmk (old_value vs) Hnone Hkids (rr r) mp false vs res Hfor Er)
    as [Hold | (n & l & _ & ->)].
  - left. destruct res as [t|n m0 l|]; cbn [pp] in Hv; try discriminate. injection Hv as <- _ <-.
    exists m0. exact Hold.
  - (* a fresh tree: PropagatePositions fills an empty meta with the span of the tokens below *)
    right. unfold vmk in Hv. cbn [pp] in Hv. injection Hv as <- Hm <-. subst m.
    assert (Hsp : Forall2 (fun c v => offers (shaped_of v) (Y c)) cs vs).
    { apply (all_some_Forall2_inv _ _ _ _ E). intros c v Hc Hcv.
      apply (tree_of_DInv rr mp c (good_d_child rr mp r cs c G Hc) v Hcv). }
    rewrite (propagate_span Y shaped_of empty_meta cs vs Hsp), <- (Y_node r). cbv zeta.
    destruct (Y (Driver.Node r cs)) as [|y ys]; [repeat split; reflexivity|].
    destruct (span_nonempty (y :: ys)) as (s & e & -> & ->); [discriminate|]. repeat split; reflexivity.
Qed.
End OwnSpan.
