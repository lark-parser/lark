(* FindRuleSize returns the number of symbols kept by the longest alternative, and the untaken
   alternative of [e] is exactly that many `_EMPTY` markers. *)
From Coq Require Import String Ascii List Bool Arith Lia.
From LV Require Import Base.Prelude Shape.Chain Shape.Spec Shape.Ebnf.
Import ListNotations.

Section EbnfInd.
  Variable P : ebnf -> Prop.
  Hypothesis Hs : forall s, P (ESym s).
  Hypothesis He : P EEmpty.
  Hypothesis Hq : forall l, Forall P l -> P (ESeq l).
  Hypothesis Ha : forall l, Forall P l -> P (EAlt l).
  Fixpoint ebnf_ind' (e : ebnf) : P e :=
    let go := fix go l : Forall P l :=
                match l with [] => Forall_nil P | x :: r => Forall_cons x (ebnf_ind' x) (go r) end in
    match e with
    | ESym s => Hs s
    | EEmpty => He
    | ESeq l => Hq l (go l)
    | EAlt l => Ha l (go l)
    end.
End EbnfInd.

Lemma lmax_app a b : lmax (a ++ b) = Nat.max (lmax a) (lmax b).
Proof. induction a; simpl; auto. rewrite IHa. lia. Qed.

Lemma kept_count_app ka a b : kept_count ka (a ++ b) = kept_count ka a + kept_count ka b.
Proof. unfold kept_count. rewrite filter_app, app_length. reflexivity. Qed.

Lemma lmax_map_add (c : nat) l : l <> [] -> lmax (map (fun y => c + y) l) = c + lmax l.
Proof.
  induction l as [|x l IH]; [congruence|]. intros _. simpl.
  destruct l as [|y l']; [simpl; lia|]. rewrite IH by discriminate. lia.
Qed.

Lemma lmax_cross ka a b : b <> [] ->
  lmax (map (kept_count ka) (cross a b)) = match a with [] => 0 | _ => lmax (map (kept_count ka) a) + lmax (map (kept_count ka) b) end.
Proof.
  intros Hb. unfold cross. induction a as [|x a IH]; simpl; auto.
  rewrite map_app, lmax_app, map_map.
  assert (E : map (fun y => kept_count ka (x ++ y)) b = map (fun y => kept_count ka x + y) (map (kept_count ka) b)).
  { rewrite map_map. apply map_ext. intros y. apply kept_count_app. }
  rewrite E, lmax_map_add by (destruct b; [congruence|discriminate]).
  rewrite IH. destruct a; simpl; lia.
Qed.

Lemma cross_nonempty a b : a <> [] -> b <> [] -> cross a b <> [].
Proof. destruct a as [|x a], b as [|y b]; try congruence. intros _ _. unfold cross. simpl. discriminate. Qed.

Lemma alts_nonempty e : wf_ebnf e = true -> alts e <> [].
Proof.
  induction e as [s| |l IH|l IH] using ebnf_ind'; simpl; intros Hwf; try discriminate.
  - induction IH as [|x l Hx _ IHl]; simpl in *; [discriminate|].
    apply andb_true_iff in Hwf. destruct Hwf as [H1 H2].
    apply cross_nonempty; auto.
  - apply andb_true_iff in Hwf. destruct Hwf as [Hne Hall].
    destruct l as [|x l]; [discriminate|]. inversion IH as [|? ? Hx _]; subst. simpl in Hall.
    apply andb_true_iff in Hall. destruct Hall as [Hw _]. simpl.
    specialize (Hx Hw). destruct (alts x); [congruence|]. discriminate.
Qed.

Theorem frs_longest_alternative ka e : wf_ebnf e = true -> frs ka e = longest ka e.
Proof.
  unfold longest.
  induction e as [s| |l IH|l IH] using ebnf_ind'; simpl; intros Hwf.
  - unfold kept_count. simpl. destruct (will_not_get_removed ka s); reflexivity.
  - reflexivity.
  - induction IH as [|x l Hx _ IHl]; simpl in *; [reflexivity|].
    apply andb_true_iff in Hwf. destruct Hwf as [H1 H2].
    rewrite lmax_cross.
    + pose proof (alts_nonempty x H1). destruct (alts x) eqn:Ex; [congruence|].
      rewrite <- Ex in *. rewrite (Hx H1), (IHl H2). reflexivity.
    + clear -H2. induction l as [|y l IHl]; simpl in *; [discriminate|].
      apply andb_true_iff in H2. destruct H2 as [Hy Hl].
      apply cross_nonempty; auto. apply alts_nonempty; auto.
  - apply andb_true_iff in Hwf. destruct Hwf as [_ Hall].
    induction IH as [|x l Hx _ IHl]; simpl in *; [reflexivity|].
    apply andb_true_iff in Hall. destruct Hall as [H1 H2].
    rewrite map_app, lmax_app, (Hx H1), (IHl H2). reflexivity.
Qed.

Lemma alts_repeat_empty n : alts (ESeq (repeat EEmpty n)) = [repeat IEmpty n].
Proof. induction n as [|n IH]; [reflexivity|]. simpl in *. rewrite IH. reflexivity. Qed.

(* the alternatives of [e] are those of e plus ONE alternative made of frs(e) `_EMPTY` markers,
   which compiles to an empty expansion carrying frs(e) `True` marks *)
Theorem maybe_untaken ka e :
  alts (maybe ka e) = alts e ++ [repeat IEmpty (frs ka e)] /\
  empty_indices_of (repeat IEmpty (frs ka e)) = repeat true (frs ka e) /\
  expansion_of (repeat IEmpty (frs ka e)) = [].
Proof.
  split.
  - unfold maybe. change (alts (EAlt [e; ESeq (repeat EEmpty (frs ka e))]))
      with (alts e ++ alts (ESeq (repeat EEmpty (frs ka e))) ++ []).
    rewrite alts_repeat_empty, app_nil_r. reflexivity.
  - split; induction (frs ka e); simpl; auto. f_equal; auto.
Qed.

Lemma empty_indices_app a b : empty_indices_of (a ++ b) = empty_indices_of a ++ empty_indices_of b.
Proof. apply map_app. Qed.

Lemma expansion_app a b : expansion_of (a ++ b) = expansion_of a ++ expansion_of b.
Proof. unfold expansion_of. apply flat_map_app. Qed.

Lemma count_false_marks a : count_false (empty_indices_of a) = length (expansion_of a).
Proof. induction a as [|[s|] a IH]; simpl; auto. Qed.
