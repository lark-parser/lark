(* C19, stretch: completeness of _build_recons_rules.  Every tree the parser can return (the shape of a
   well-formed derivation whose root is not collapsed) has a supported match: root rule in
   rules_for_root[data], inner rules in TreeMatcher.rules, leaves = the node's children. *)
From Coq Require Import String Ascii List Arith Bool Lia.
From LV Require Import Base.Prelude Cfg.Grammar Recons.Recons Recons.Recons_proofs Recons.ReconsCheck
     Recons.ReconsCheck_proofs.
Import ListNotations.

Lemma same_key_refl r : same_key r r = true.
Proof. unfold same_key. rewrite Nat.eqb_refl, (list_eqb_refl _ symbol_eqb_refl). reflexivity. Qed.

Lemma same_key_eq r s : same_key r s = true -> r_origin r = r_origin s /\ r_exp r = r_exp s.
Proof.
  unfold same_key. intros E. apply andb_true_iff in E. destruct E as (E1 & E2).
  apply Nat.eqb_eq in E1. apply (list_eqb_eq _ symbol_eqb_eq) in E2. auto.
Qed.

Definition keyed (r r' : rrule) : Prop := r_origin r' = r_origin r /\ r_exp r' = r_exp r.

Lemma dedupe_complete : forall l seen r, In r l ->
  (exists r', In r' (dedupe seen l) /\ keyed r r') \/ (exists s, In s seen /\ same_key r s = true).
Proof.
  induction l as [|x l IH]; intros seen r Hin; [contradiction|]. simpl.
  destruct Hin as [->|Hin].
  - destruct (existsb (same_key r) seen) eqn:E.
    + right. apply existsb_exists in E. exact E.
    + left. exists r. split; [left; auto|split; auto].
  - destruct (existsb (same_key x) seen) eqn:E.
    + destruct (IH seen r Hin) as [(r' & H1 & H2)|H]; [left; eauto|right; auto].
    + destruct (IH (x :: seen) r Hin) as [(r' & H1 & H2)|(s & [<-|Hs] & Hk)].
      * left. exists r'. split; [right; auto|auto].
      * left. exists x. split; [left; auto|]. apply same_key_eq in Hk. destruct Hk. split; auto.
      * right. eauto.
Qed.

Lemma best_complete l r : In r l -> exists r', In r' (best l) /\ keyed r r'.
Proof.
  intros Hin. destruct (dedupe_complete l [] r Hin) as [(r' & H1 & H2)|(s & [] & _)].
  exists r'. split; auto. unfold best. apply In_sort_len. auto.
Qed.

Arguments c_closed {us P}.
Arguments c_alias {us P}.
Arguments c_uscore {us P}.
Arguments c_uniform {us P}.
Arguments c_single {us P}.

Section Complete.
  Variable us : nat -> bool.
  Variable P : list prule.

  Notation expand1s := (expand1s P).
  Notation aliased := (aliased P).
  Notation rule_names := (rule_names P).
  Notation is_nonterminal := (is_nonterminal us P).
  Notation recons_sym := (recons_sym us P).
  Notation recons_exp := (recons_exp us P).
  Notation regular := (regular us P).
  Notation rules := (rules us P).
  Notation rfr := (rfr us P).
  Notation wf := (wf P).
  Notation wf_args := (wf_args P).

  (* the remaining class conditions of the property statement that completeness uses:
     no alternative is dropped as a self-recursive unit rule, and every alternative keeps a symbol *)
  Record cls_extra : Prop := {
    x_noskip : forall r, In r P -> skipped us P r = false;
    x_keeps : forall r, In r P -> filter kept (p_exp r) <> []
  }.

  Definition uncollapsed (d : dtree) : Prop :=
    match d with
    | DTok _ _ => False
    | DNode pr _ => us (p_origin pr) = false /\
                    (p_expand1 pr = true -> p_alias pr = None -> length (kids us d) <> 1)
    end.

  Hypothesis Hc : cls us P.
  Hypothesis Hx : cls_extra.

  Lemma yielded_rules r : inner_kind us P r -> exists r', In r' rules /\ keyed r r'.
  Proof. intros H. unfold Recons.rules. apply best_complete. rewrite <- in_rev. apply yielded_kind; auto. Qed.

  Definition nonempty_kids (d : dtree) : Prop :=
    match d with DTok _ _ => True | DNode _ _ => kids us d <> [] end.

  (* every kept symbol contributes a child, since every alternative keeps a symbol *)
  Lemma kids_count :
    (forall d, wf d -> nonempty_kids d) /\
    (forall ss ds, wf_args ss ds -> length (filter kept ss) <= length (kids_go us ss ds)).
  Proof.
    apply wf_mutind.
    - intros; exact I.
    - intros r ds Hin _ Hlen. unfold nonempty_kids. rewrite kids_eq. pose proof (x_keeps Hx _ Hin) as Hk.
      destruct (filter kept (p_exp r)); [congruence|]. destruct (kids_go us (p_exp r) ds); simpl in *; [lia|congruence].
    - simpl. auto.
    - intros n fo s ss ds _ IH. cbn [kids_go filter]. rewrite app_length. unfold kept at 1. cbn [discarded contrib].
      destruct fo; cbn [negb length kids]; simpl length; lia.
    - intros a r ds0 ss ds _ _ Hne _ IH. unfold nonempty_kids in Hne.
      cbn [kids_go filter]. rewrite app_length. unfold kept at 1. cbn [discarded contrib negb length].
      destruct (us a); [destruct (kids us (DNode r ds0)); [congruence|]|]; simpl length; lia.
  Qed.

  Lemma two_kids pr ds : wf (DNode pr ds) -> length (recons_exp pr) <> 1 -> length (kids us (DNode pr ds)) <> 1.
  Proof.
    intros Hwf Hlen. destruct (wf_root _ _ _ Hwf) as (Hin & Hargs).
    rewrite kids_eq. pose proof (proj2 kids_count _ _ Hargs) as Hc'.
    pose proof (x_keeps Hx _ Hin) as Hk. unfold Recons.recons_exp in Hlen. rewrite map_length in Hlen.
    destruct (filter kept (p_exp pr)) as [|? [|? ?]]; simpl in *; try congruence; lia.
  Qed.

  Definition Qnode (d : dtree) : Prop :=
    match d with
    | DTok _ _ => True
    | DNode pr _ => is_nonterminal (p_origin pr) = true ->
        exists r args, uvalid rules (UNode r args) /\ r_origin r = p_origin pr /\
                       leaves (UNode r args) = contrib us (Nt (p_origin pr)) d
    end.
  Definition Qargs (ss : list sym) (ds : list dtree) : Prop :=
    (forall a, In (Nt a) ss -> In a rule_names) ->
    exists args, uargs_gen (uvalid rules) (map recons_sym (filter kept ss)) args /\
                 flat_map leaves args = kids_go us ss ds.

  Lemma regular_node pr ds : inner_kind us P (regular pr) -> In pr P -> Qargs (p_exp pr) ds ->
    exists r args, uvalid rules (UNode r args) /\ r_origin r = sym_name pr /\
                   leaves (UNode r args) = kids us (DNode pr ds).
  Proof.
    intros Hk HinP HQ. destruct (yielded_rules _ Hk) as (r' & Hr' & Ho & He).
    destruct HQ as (args & Hu & Hl). { intros; eapply (c_closed Hc); eauto. }
    exists r', args. split; [|split; auto].
    - constructor; auto. rewrite He. exact Hu.
    - rewrite kids_eq. exact Hl.
  Qed.

  Lemma unit_node o nm d ks : inner_kind us P (unit_rule o nm) -> us o = false -> shape us d = Node nm ks ->
    exists r args, uvalid rules (UNode r args) /\ r_origin r = o /\ leaves (UNode r args) = contrib us (Nt o) d.
  Proof.
    intros Hk Hus Hsh. destruct (yielded_rules _ Hk) as (r' & Hr' & Ho & He). simpl in Ho, He.
    exists r', [ULeaf (shape us d)]. split; [|split; auto].
    - constructor; auto. rewrite He. constructor; [|constructor]. unfold cmatch. rewrite Hsh. apply Nat.eqb_refl.
    - cbn [leaves flat_map contrib app]. rewrite Hus. reflexivity.
  Qed.

  Lemma matches_exist : (forall d, wf d -> Qnode d) /\ (forall ss ds, wf_args ss ds -> Qargs ss ds).
  Proof.
    apply wf_mutind.
    - intros; exact I.
    - intros pr ds HinP Hargs HQ Hnon. pose proof (wf_node P _ _ HinP Hargs) as Hwf.
      pose proof (x_noskip Hx _ HinP) as Hsk. set (a := p_origin pr) in *.
      destruct (us a) eqn:Eus.
      + (* _rule: its own rules are tree-matching rules *)
        destruct (c_uscore Hc _ HinP Eus) as (Hal & He).
        assert (Hsn : sym_name pr = a) by (unfold sym_name; rewrite Hal; reflexivity).
        destruct (regular_node pr ds) as (r' & args & Hv & Ho & Hl); auto.
        { constructor; auto; unfold root1, inlined; rewrite Hsn, ?Eus; auto.
          destruct (memn a expand1s) eqn:Hm; auto. apply memn_In in Hm.
          rewrite (us_false_of_expand1 us P Hc _ Hm) in Eus. discriminate. }
        exists r', args. cbn [contrib]. fold a. rewrite Eus, Hl, <- Hsn. auto.
      + destruct (p_alias pr) as [al|] eqn:Hal.
        * (* aliased alternative: origin -> alias *)
          apply (unit_node a al _ (kids us (DNode pr ds))); auto; [apply ik_alias; auto|].
          rewrite shape_node; [unfold sym_name; rewrite Hal; reflexivity|congruence].
        * assert (Hsn : sym_name pr = a) by (unfold sym_name; rewrite Hal; reflexivity).
          destruct (memn a expand1s) eqn:He1.
          -- assert (He : p_expand1 pr = true) by (apply (c_uniform Hc); auto; apply memn_In; auto).
             destruct (Nat.eqb_spec (length (recons_exp pr)) 1) as [Hlen|Hlen].
             ++ (* ?rule with one kept symbol: its own rule, collapsing *)
                destruct (regular_node pr ds) as (r' & args & Hv & Ho & Hl); auto.
                { constructor; auto; unfold root1, inlined; rewrite Hsn, He1, ?Hlen; auto using orb_true_r. }
                destruct (one_kid us P Hc pr ds HinP Hargs He Hal Hlen) as (k & Hk & Hsh).
                exists r', args. cbn [contrib]. fold a. rewrite Eus, Hl, Hk, Hsh, <- Hsn. auto.
             ++ (* ?rule that does not collapse: name -> itself *)
                apply (unit_node a a _ (kids us (DNode pr ds))); auto.
                ** rewrite <- Hsn. apply ik_expand1; auto. unfold root1. rewrite Hsn, He1.
                   apply Nat.eqb_neq in Hlen. rewrite Hlen. reflexivity.
                ** rewrite shape_node, Hsn; auto. intros _ _. apply two_kids; auto.
          -- (* plain alternative of an aliased origin: origin -> itself *)
             apply (unit_node a a _ (kids us (DNode pr ds))); auto.
             ++ apply is_nonterminal_iff in Hnon. fold a in Hnon. apply memn_false in He1.
                destruct Hnon as (_ & [Hu|[Hx'|Hali]]); [congruence|contradiction|].
                apply In_aliased in Hali. destruct Hali as (pr' & Hin' & <- & Hal'). apply ik_origin; auto.
             ++ rewrite shape_node, Hsn; auto. intros He. exfalso. apply memn_false in He1. apply He1, In_expand1s.
                exists pr. auto.
    - intros _. exists []. split; [constructor|reflexivity].
    - intros n fo t ss ds _ IH Hcl. destruct IH as (args & Hu & Hl). { intros; apply Hcl; right; auto. }
      destruct fo.
      + exists args. split; auto.
      + exists (ULeaf (Tok n t) :: args). split.
        * simpl. constructor; auto. unfold cmatch. simpl. apply Nat.eqb_refl.
        * simpl. rewrite Hl. reflexivity.
    - intros a r ds0 ss ds <- Hwd HQ0 _ IH Hcl. destruct IH as (args & Hu & Hl). { intros; apply Hcl; right; auto. }
      assert (Ha : In (p_origin r) rule_names) by (apply Hcl; left; auto).
      cbn [filter kept discarded negb map]. unfold Recons.recons_sym. fold recons_sym.
      destruct (is_nonterminal (p_origin r)) eqn:En.
      + destruct (HQ0 En) as (r' & args0 & Hv & Hor & Hlv).
        exists (UNode r' args0 :: args). split.
        * constructor; auto.
        * cbn [flat_map kids_go]. rewrite Hlv, Hl. reflexivity.
      + destruct (not_nonterminal us P _ Ha En) as (Hus & Hne & Hna).
        destruct (wf_root _ _ _ Hwd) as (HinP & _).
        assert (Hal : p_alias r = None).
        { destruct (p_alias r) eqn:E; auto. exfalso. apply Hna, In_aliased. exists r. eauto using has_alias_Some. }
        exists (ULeaf (shape us (DNode r ds0)) :: args). split.
        * constructor; auto. rewrite shape_node. { unfold cmatch, sym_name. simpl. rewrite Hal. apply Nat.eqb_refl. }
          intros He. exfalso. apply Hne, In_expand1s. exists r. auto.
        * cbn [flat_map kids_go contrib leaves]. rewrite Hus, Hl. reflexivity.
  Qed.

  Theorem match_exists pr ds : wf (DNode pr ds) -> uncollapsed (DNode pr ds) ->
    exists u, supported us P u (sym_name pr) (kids us (DNode pr ds)).
  Proof.
    intros Hwf (Hus & Hunc). destruct (wf_root _ _ _ Hwf) as (HinP & Hargs).
    assert (Hclosed : forall b, In (Nt b) (p_exp pr) -> In b rule_names) by (intros; eapply (c_closed Hc); eauto).
    assert (Hus' : us (sym_name pr) = false).
    { unfold sym_name. destruct (p_alias pr) as [al|] eqn:Hal; auto. apply (c_alias Hc _ _ HinP Hal). }
    assert (He1 : In (sym_name pr) expand1s -> p_expand1 pr = true /\ p_alias pr = None).
    { intros Hin. destruct (sym_name_rule us P Hc pr _ HinP eq_refl (expand1s_names P _ Hin)) as (Hn & Ho).
      split; auto. apply (c_uniform Hc); auto. rewrite Ho. exact Hin. }
    assert (Hroot : In (sym_name pr, regular pr) (rfr_all us P)).
    { apply In_rfr_all. exists pr. repeat split; auto. { apply (x_noskip Hx); auto. }
      unfold root1, inlined. rewrite Hus'. destruct (memn (sym_name pr) expand1s) eqn:Em; auto.
      apply memn_In in Em. destruct (He1 Em) as (He & Hal).
      destruct (Nat.eqb_spec (length (recons_exp pr)) 1) as [Hlen|Hlen]; auto.
      destruct (one_kid us P Hc pr ds HinP Hargs He Hal Hlen) as (k & Hk & _).
      exfalso. apply (Hunc He Hal). rewrite Hk. reflexivity. }
    assert (Hraw : In (regular pr) (rfr_raw us P (sym_name pr))).
    { unfold rfr_raw. apply in_map_iff. exists (sym_name pr, regular pr). split; auto.
      apply filter_In. split; auto. simpl. apply Nat.eqb_refl. }
    destruct (best_complete _ _ Hraw) as (r' & Hr' & Ho & He').
    destruct (proj2 matches_exist _ _ Hargs Hclosed) as (args & Hu & Hl).
    exists (UNode r' args), r', args. repeat split; auto.
    - rewrite He'. exact Hu.
    - rewrite kids_eq. cbn [leaves]. exact Hl.
    - intros Hin. destruct (He1 Hin) as (He & Hal). apply Hunc; auto.
  Qed.
End Complete.
