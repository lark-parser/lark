(* C17 - an injective renaming of the non-terminals changes neither the language nor the
   derivation trees (up to the renaming of their labels). *)
From Coq Require Import List Arith Bool Lia.
From LV Require Import Cfg.Grammar Mod.Rename.
Import ListNotations.

Definition inj_on (D : nat -> Prop) (rho : nat -> nat) : Prop :=
  forall a b, D a -> D b -> rho a = rho b -> a = b.

Lemma nts_app a b : nts (a ++ b) = nts a ++ nts b.
Proof. induction a as [|[t|x] a IH]; simpl; auto. now rewrite IH. Qed.

Lemma in_nts a ss : In a (nts ss) <-> In (NT a) ss.
Proof. induction ss as [|[t|x] ss IH]; simpl; [tauto| |]; rewrite IH; intuition congruence. Qed.

Lemma nts_rename rho ss : nts (map (rename_sym rho) ss) = map rho (nts ss).
Proof. induction ss as [|[t|x] ss IH]; simpl; auto. now rewrite IH. Qed.

Lemma lhs_rename rho G : map lhs (rename_grammar rho G) = map rho (map lhs G).
Proof. unfold rename_grammar. now rewrite !map_map. Qed.

Lemma in_grammar_nts_lhs G r : In r G -> In (lhs r) (grammar_nts G).
Proof. intros H. unfold grammar_nts. apply in_flat_map. exists r; split; auto. now left. Qed.

Lemma in_grammar_nts_rhs G r a : In r G -> In a (nts (rhs r)) -> In a (grammar_nts G).
Proof. intros H Ha. unfold grammar_nts. apply in_flat_map. exists r; split; auto. now right. Qed.

Lemma rename_sym_T rho s t : rename_sym rho s = T t -> s = T t.
Proof. destruct s; simpl; congruence. Qed.

Lemma rename_sym_NT rho s a : rename_sym rho s = NT a -> exists a0, s = NT a0 /\ rho a0 = a.
Proof. destruct s; simpl; try congruence. intros H; inversion H; eauto. Qed.

Scheme tree_of_mind := Minimality for tree_of Sort Prop
  with forest_of_mind := Minimality for forest_of Sort Prop.
Combined Scheme tree_forest_mind from tree_of_mind, forest_of_mind.

Section TreesDerive.
  Variable G : grammar.
  Variable tok : Type.
  Variable tmatch : nat -> tok -> bool.

  Lemma forest_derives ss ts :
    forest_of G tok tmatch ss ts -> derives G tok tmatch ss (flat_map yield ts).
  Proof.
    revert ss ts.
    apply (forest_of_mind G tok tmatch (fun s t => derives G tok tmatch [s] (yield t))
                          (fun ss ts => derives G tok tmatch ss (flat_map yield ts))); simpl.
    - intros t k Hm. constructor; auto. constructor.
    - intros a r ch Hin Hl _ IH. rewrite <- (app_nil_r (flat_map yield ch)). apply d_nt with (r := r); auto. constructor.
    - constructor.
    - intros s ss t ts _ IHt _ IHts. change (s :: ss) with ([s] ++ ss). now apply derives_app.
  Qed.

  Lemma derives_forest ss w :
    derives G tok tmatch ss w -> exists ts, forest_of G tok tmatch ss ts /\ flat_map yield ts = w.
  Proof.
    induction 1 as [|t k ss w Hm Hd (ts & Hts & Hy)|a r ss w1 w2 Hin Hl Hd1 (ts1 & Hts1 & Hy1) Hd2 (ts2 & Hts2 & Hy2)].
    - exists []. split; constructor.
    - exists (Leaf t k :: ts). split. constructor; auto. now constructor. simpl. now rewrite Hy.
    - exists (Node a r ts1 :: ts2). split.
      + constructor; auto. now apply to_node.
      + simpl. now rewrite Hy1, Hy2.
  Qed.

  Theorem derives_iff_tree X w :
    sentence G tok tmatch X w <-> exists t, tree_of G tok tmatch (NT X) t /\ yield t = w.
  Proof.
    unfold sentence. split.
    - intros H. apply derives_forest in H. destruct H as (ts & Hts & Hy).
      inversion Hts as [|s ss t ts' Ht Hrest]; subst. inversion Hrest; subst.
      exists t. split; auto. simpl. now rewrite app_nil_r.
    - intros (t & Ht & <-).
      assert (F : forest_of G tok tmatch [NT X] [t]) by (constructor; auto; constructor).
      apply forest_derives in F. simpl in F. now rewrite app_nil_r in F.
  Qed.
End TreesDerive.

Section Rename.
  Variable G : grammar.
  Variable tok : Type.
  Variable tmatch : nat -> tok -> bool.
  Variable rho : nat -> nat.

  Let G' := rename_grammar rho G.

  Lemma rename_fwd :
    (forall s t, tree_of G tok tmatch s t -> tree_of G' tok tmatch (rename_sym rho s) (rename_dtree rho t)) /\
    (forall ss ts, forest_of G tok tmatch ss ts ->
                   forest_of G' tok tmatch (map (rename_sym rho) ss) (map (rename_dtree rho) ts)).
  Proof.
    apply tree_forest_mind; simpl.
    - now constructor.
    - intros a r ch Hin Hl _ IH. apply to_node; auto.
      + unfold G', rename_grammar. now apply in_map.
      + simpl. now subst.
    - constructor.
    - constructor; auto.
  Qed.

  Lemma yield_rename (t : dtree tok) : yield (rename_dtree rho t) = yield t.
  Proof.
    revert t. fix IH 1. intros [t k|a r ch]; simpl; auto.
    induction ch as [|c ch IHch]; simpl; auto.
    now rewrite IH, IHch.
  Qed.

  Lemma yields_rename (ts : list (dtree tok)) : flat_map yield (map (rename_dtree rho) ts) = flat_map yield ts.
  Proof. induction ts as [|t ts IH]; simpl; auto. now rewrite yield_rename, IH. Qed.

  Variable D : nat -> Prop.
  Hypothesis Hinj : inj_on D rho.
  Hypothesis HG : forall a, In a (grammar_nts G) -> D a.

  (* rho is injective on the non-terminals in sight: a rule of G' used at rho a0 is the image of a rule of G
     for a0 itself *)
  Lemma rename_bwd :
    (forall s' t', tree_of G' tok tmatch s' t' ->
       forall s, s' = rename_sym rho s -> (forall a, s = NT a -> D a) ->
       exists t, tree_of G tok tmatch s t /\ t' = rename_dtree rho t) /\
    (forall ss' ts', forest_of G' tok tmatch ss' ts' ->
       forall ss, ss' = map (rename_sym rho) ss -> (forall a, In (NT a) ss -> D a) ->
       exists ts, forest_of G tok tmatch ss ts /\ ts' = map (rename_dtree rho) ts).
  Proof.
    apply tree_forest_mind.
    - intros t k Hm s Hs HD. symmetry in Hs. apply rename_sym_T in Hs. subst s.
      exists (Leaf t k). split; auto. now constructor.
    - intros a r' ch Hin Hl _ IH s Hs HD. symmetry in Hs. apply rename_sym_NT in Hs. destruct Hs as (a0 & -> & Ha0).
      unfold G', rename_grammar in Hin. apply in_map_iff in Hin. destruct Hin as (r0 & <- & Hr0).
      simpl in Hl.
      assert (lhs r0 = a0).
      { apply Hinj.
        - apply HG. now apply in_grammar_nts_lhs.
        - now apply HD.
        - congruence. }
      destruct (IH (rhs r0) eq_refl) as (ts & Hts & ->).
      { intros b Hb. apply HG, (in_grammar_nts_rhs G r0); auto. now apply in_nts. }
      exists (Node a0 r0 ts). split.
      + apply to_node; auto.
      + simpl. now subst.
    - intros ss Hs _. destruct ss; try discriminate. exists []. split; auto. constructor.
    - intros s' ss' t' ts' _ IHt _ IHts ss0 Hs HD. destruct ss0 as [|s0 ss0]; try discriminate. simpl in Hs.
      inversion Hs as [[Hs0 Hss0]].
      destruct (IHt s0 Hs0) as (t0 & Ht0 & ->). { intros b ->. apply HD. now left. }
      destruct (IHts ss0 Hss0) as (ts0 & Hts0 & ->). { intros b Hb. apply HD. now right. }
      exists (t0 :: ts0). split; auto. now constructor.
  Qed.

  (* same language: a derivation is the yield of a forest *)
  Theorem derives_rename ss w :
    (forall a, In a (nts ss) -> D a) ->
    (derives G' tok tmatch (map (rename_sym rho) ss) w <-> derives G tok tmatch ss w).
  Proof.
    intros HD; split; intros H; apply derives_forest in H; destruct H as (ts & Hts & <-).
    - destruct (proj2 rename_bwd _ _ Hts ss eq_refl) as (ts0 & Hts0 & ->). { intros a Ha. now apply HD, in_nts. }
      rewrite yields_rename. now apply forest_derives.
    - rewrite <- (yields_rename ts). apply forest_derives. now apply rename_fwd.
  Qed.

  Corollary sentence_rename X w :
    D X -> (sentence G' tok tmatch (rho X) w <-> sentence G tok tmatch X w).
  Proof.
    intros HX. unfold sentence. apply (derives_rename [NT X] w).
    simpl. intros a [<-|[]]. exact HX.
  Qed.

  Theorem trees_rename X :
    D X ->
    (forall t, tree_of G tok tmatch (NT X) t ->
               tree_of G' tok tmatch (NT (rho X)) (rename_dtree rho t) /\ yield (rename_dtree rho t) = yield t) /\
    (forall t', tree_of G' tok tmatch (NT (rho X)) t' ->
                exists t, tree_of G tok tmatch (NT X) t /\ t' = rename_dtree rho t /\ yield t' = yield t).
  Proof.
    intros HX. split.
    - intros t Ht. split. apply (proj1 rename_fwd (NT X) t Ht). apply yield_rename.
    - intros t' Ht'. destruct (proj1 rename_bwd _ _ Ht' (NT X) eq_refl) as (t & Ht & ->).
      { intros a Ha. now inversion Ha; subst. }
      exists t. repeat split; auto. apply yield_rename.
  Qed.
End Rename.
