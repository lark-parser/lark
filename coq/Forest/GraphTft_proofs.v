(* ForestToParseTree / TreeForestTransformer on graph forests (Forest/GraphTft.v), cyclic forests included:
   the coded walk [tw] terminates within its fuel, returns what the plain function [gta] computes, every tree it
   produces is a finite unfolding stored by the forest, and with resolve_ambiguity=False the trees are exactly the
   unfoldings in which no node occurs below itself. *)
From Coq Require Import List Arith Bool ZArith Lia.
From LV Require Import Base.Prelude Forest.Sppf Forest.Sppf_proofs Forest.Tft Forest.Prio_proofs Forest.Tft_perm_proofs
  Forest.Tft_proofs Cfg.Grammar
  Forest.ExplicitBuild Forest.GraphResolve Forest.GraphResolve_proofs Gen.ForestWalk Forest.GraphTft.
Import ListNotations.

Fixpoint nonempties {A} (l : list (list A)) : list (list A) :=
  match l with [] => [] | [] :: r => nonempties r | x :: r => x :: nonempties r end.

Lemma concat_nonempties {A} (l : list (list A)) : List.concat (nonempties l) = List.concat l.
Proof. induction l as [|[|a x] l IH]; cbn; congruence. Qed.

Lemma first_nonempty_sub {A} (l : list (list A)) :
  first_nonempty l = match nonempties l with [] => [] | x :: _ => [x] end.
Proof. induction l as [|[|a x] l IH]; cbn; auto. Qed.

Lemma if_same {A} (b : bool) (x : A) : (if b then x else x) = x.
Proof. destruct b; reflexivity. Qed.

Lemma NoDup_snoc {A} (l : list A) x : NoDup l -> ~ In x l -> NoDup (l ++ [x]).
Proof.
  induction l as [|y l IH]; cbn; intros Hnd Hx; [repeat constructor; intros []|].
  inversion Hnd; subst. constructor.
  - intros Hin. apply in_app_or in Hin. destruct Hin as [Hin|[<-|[]]]; tauto.
  - apply IH; tauto.
Qed.

Section Proofs.
  Variable tok : Type.
  Variable teqb : tok -> tok -> bool.
  Hypothesis teqb_spec : forall a b, teqb a b = true <-> a = b.
  Variable fams : list (nlabel tok * family tok).
  Variable order : nlabel tok -> list (family tok) -> list (family tok).
  Hypothesis order_perm : forall l fs f, In f (order l fs) <-> In f fs.
  Variable resolve : bool.

  Notation label := (nlabel tok).
  Notation leqb := (nlabel_eqb tok teqb).
  Notation F := (in_forest tok fams).
  Notation fams_of := (fams_of tok teqb fams).
  Notation tw := (tw tok teqb fams order resolve).
  Notation gta := (gta tok teqb fams order resolve).
  Notation on_path := (on_path tok teqb).
  Notation is_tok := (is_tok tok).

  Lemma leqb_spec (a b : label) : leqb a b = true <-> a = b.
  Proof. apply nlabel_eqb_spec. exact teqb_spec. Qed.
  Lemma leqb_refl (a : label) : leqb a a = true.
  Proof. apply leqb_spec. reflexivity. Qed.
  Lemma leqb_sym (a b : label) : leqb a b = leqb b a.
  Proof. apply eq_true_iff_eq. rewrite !leqb_spec. split; congruence. Qed.

  Fixpoint plabels (path : list (tnode tok)) : list label :=
    match path with
    | [] => []
    | TS l :: r => l :: plabels r
    | TP _ _ :: r => plabels r
    end.

  Lemma plabels_app p q : plabels (p ++ q) = plabels p ++ plabels q.
  Proof. induction p as [|[l|l fm] p IH]; cbn; congruence. Qed.

  Lemma on_path_in c path : on_path c path = true <-> In c (plabels path).
  Proof.
    induction path as [|[l|l fm] p IH]; cbn.
    - split; [discriminate|tauto].
    - rewrite orb_true_iff, IH, leqb_spec. tauto.
    - exact IH.
  Qed.

  Lemma on_path_app c p q : on_path c (p ++ q) = on_path c p || on_path c q.
  Proof. induction p as [|[l|l fm] p IH]; cbn; [reflexivity| |exact IH]. rewrite IH. apply orb_assoc. Qed.

  Lemma on_path_lmem c path : on_path c path = lmem tok teqb c (plabels path).
  Proof. apply eq_true_iff_eq. rewrite on_path_in, (lmem_in tok teqb teqb_spec). reflexivity. Qed.

  Definition is_ok {A} (r : res A) : Prop := exists v, r = Ok v.

  Lemma is_ok_bind {A B} (x : res A) (g : A -> res B) : is_ok x -> (forall a, is_ok (g a)) -> is_ok (rbind x g).
  Proof. intros [a ->] Hg. cbn. apply Hg. Qed.

  Lemma fold_ok {A B} (f : res A -> B -> res A) l :
    (forall a b, In b l -> is_ok (f (Ok a) b)) -> forall acc, is_ok acc -> is_ok (fold_left f l acc).
  Proof.
    induction l as [|b l IH]; intros Hf acc Hacc; cbn [fold_left]; [exact Hacc|].
    apply IH; [intros a b' Hb; apply Hf; right; exact Hb|]. destruct Hacc as [a ->]. apply Hf. left. reflexivity.
  Qed.

  Lemma tw_S f path st lbl : is_tok lbl = false ->
    tw (S f) path st lbl = tw_symbol tok teqb fams order resolve (tw f) path st lbl.
  Proof. destruct lbl; cbn; [reflexivity|reflexivity|discriminate]. Qed.

  Lemma path_ok_snoc lp f lbl fm :
    path_ok tok fams lp (S f) -> ~ In lbl lp -> F lbl fm -> path_ok tok fams (lp ++ [lbl]) f.
  Proof.
    intros [Hnd [Hincl Hf]] Hn HF. split; [apply NoDup_snoc; assumption|]. split.
    - intros q Hq. apply in_app_or in Hq. destruct Hq as [Hq|[<-|[]]]; [exact (Hincl q Hq)|exact (in_map fst _ _ HF)].
    - rewrite app_length. cbn [List.length]. lia.
  Qed.

  Lemma tw_is_ok : forall fuel path st lbl,
    path_ok tok fams (plabels path) fuel -> ~ In lbl (plabels path) -> is_ok (tw fuel path st lbl).
  Proof.
    induction fuel as [|f IH]; intros path st lbl Hpo Hnp; [destruct (path_ok_fuel tok fams _ _ Hpo eq_refl)|].
    destruct (is_tok lbl) eqn:Et.
    { destruct lbl; try discriminate. cbn. eexists; reflexivity. }
    rewrite (tw_S _ _ _ _ Et). unfold tw_symbol.
    set (kids := if ftpt_sym_in_nothing (t_retreat st) then [] else order lbl (fams_of lbl)).
    assert (Hkids : forall fm, In fm kids -> F lbl fm).
    { intros fm Hfm. subst kids. destruct (ftpt_sym_in_nothing _); [destruct Hfm|].
      apply order_perm in Hfm. apply (fams_of_in tok teqb teqb_spec) in Hfm. exact Hfm. }
    assert (Hpl : forall fm, plabels ((path ++ [TS lbl]) ++ [TP lbl fm]) = plabels path ++ [lbl]).
    { intros fm. rewrite !plabels_app. cbn. rewrite app_nil_r. reflexivity. }
    apply is_ok_bind.
    + apply fold_ok; [|eexists; reflexivity].
      intros [[st1 succ] pdata] [[r l] rt] Hfm. unfold tw_packed. cbn [rbind].
      apply is_ok_bind.
      * apply fold_ok; [|eexists; reflexivity].
        intros [st2 data] c Hc. unfold tw_child. cbn [rbind].
        destruct (vl_iter_cycle _) eqn:Ecyc; [eexists; reflexivity|].
        apply is_ok_bind; [|intros [st3 v]; eexists; reflexivity].
        apply IH; rewrite Hpl.
        -- exact (path_ok_snoc _ _ _ _ Hpo Hnp (Hkids _ Hfm)).
        -- intros Hin. rewrite <- (Hpl (r, l, rt)) in Hin. apply on_path_in in Hin.
           unfold vl_iter_cycle in Ecyc. congruence.
      * intros [st2 data]. destruct (check_cycle _ _ _ _). eexists; reflexivity.
    + intros [[st1 succ] data].
      match goal with |- is_ok (let '(_, _) := ?e in _) => destruct e end. eexists; reflexivity.
  Qed.

  (* the walk of transform(root) never exhausts its fuel, on any finite forest, cyclic or not, in both modes *)
  Theorem tft_walk_terminates root : exists r, tft_walk tok teqb fams order resolve root = Ok r.
  Proof.
    unfold tft_walk.
    destruct (tw_is_ok (tw_fuel tok fams) [] (mkT ftpt_visit_retreat0 None []) root) as [[st v] ->].
    - apply path_ok_nil. unfold tw_fuel. lia.
    - intros [].
    - cbn [rbind]. eexists. reflexivity.
  Qed.

  Definition wrap1 (a : aalts tok) : list (aalts tok) := match a with [] => [] | _ => [a] end.
  Definition isnil {A} (l : list A) : bool := match l with [] => true | _ => false end.

  Lemma cross_nil_l {A} (R : list (list A)) : cross [] R = [].
  Proof. reflexivity. Qed.
  Lemma isnil_cross {A} (L R : list (list A)) : isnil (cross L R) = isnil L || isnil R.
  Proof.
    destruct L as [|l L]; [reflexivity|]. destruct R as [|r R]; cbn.
    - clear l. induction L as [|l' L IH]; cbn; [reflexivity|exact IH].
    - reflexivity.
  Qed.
  Lemma isnil_map {A B} (f : A -> B) l : isnil (map f l) = isnil l.
  Proof. destruct l; reflexivity. Qed.

  Definition gsub (f : nat) (lp : list label) (o : option label) : aalts tok :=
    match o with None => [[]] | Some l => gta f lp l end.
  Definition fam_kids (f : nat) (lp : list label) (lbl : label) (fm : family tok) : aalts tok :=
    let '(r, l, rt) := fm in cross (gsub f (lbl :: lp) l) (gsub f (lbl :: lp) rt).
  Definition fam_val (f : nat) (lp : list label) (lbl : label) (fm : family tok) : aalts tok :=
    let '(r, l, rt) := fm in
    if is_inter tok lbl then fam_kids f lp lbl (r, l, rt) else map (fun a => [ANode r a]) (fam_kids f lp lbl (r, l, rt)).

  Lemma isnil_fam_val f lp lbl fm : isnil (fam_val f lp lbl fm) = isnil (fam_kids f lp lbl fm).
  Proof. destruct fm as [[r l] rt]. unfold fam_val. destruct (is_inter tok lbl); [reflexivity|apply isnil_map]. Qed.

  Lemma fam_val_single f lp lbl fm a : is_inter tok lbl = false -> In a (fam_val f lp lbl fm) -> exists t, a = [t].
  Proof.
    destruct fm as [[r l] rt]. unfold fam_val. intros -> Ha. apply in_map_iff in Ha. destruct Ha as [a0 [<- _]]. eauto.
  Qed.

  Lemma gta_S f lp lbl : is_tok lbl = false ->
    gta (S f) lp lbl =
    if lmem tok teqb lbl lp then []
    else let per_fam := map (fam_val f lp lbl) (order lbl (fams_of lbl)) in
         let kept := if resolve then first_nonempty per_fam else per_fam in
         if is_inter tok lbl then List.concat kept else awrap tok (List.concat (List.concat kept)).
  Proof.
    destruct lbl; [reflexivity|reflexivity|discriminate].
  Qed.

  (* what the loop over the packed children accumulates: membership in _successful_visits and the data list *)
  Definition step_pure (vals_of : family tok -> aalts tok) (acc : bool * list (aalts tok)) (fm : family tok)
    : bool * list (aalts tok) :=
    let '(succ, pdata) := acc in
    if resolve && succ then acc
    else if isnil (vals_of fm) then acc else (true, pdata ++ [vals_of fm]).

  (* the values of the packed children that reach the symbol node: those that are not empty, and under
     resolve_ambiguity the first of them only *)
  Definition kept_data (vals : list (aalts tok)) : list (aalts tok) :=
    if resolve then match nonempties vals with [] => [] | x :: _ => [x] end else nonempties vals.

  Lemma fold_step_pure vals_of ks : forall succ pdata,
    fold_left (step_pure vals_of) ks (succ, pdata) =
    if resolve && succ then (succ, pdata)
    else (succ || negb (isnil (nonempties (map vals_of ks))), pdata ++ kept_data (map vals_of ks)).
  Proof.
    unfold kept_data. induction ks as [|fm ks IH]; intros succ pdata; cbn [fold_left map nonempties].
    - destruct resolve, succ; cbn; rewrite ?app_nil_r; reflexivity.
    - unfold step_pure at 2. destruct (resolve && succ) eqn:Esk.
      + rewrite IH, Esk. reflexivity.
      + destruct (vals_of fm) as [|a x]; cbn [isnil]; rewrite IH.
        * rewrite Esk. reflexivity.
        * rewrite andb_true_r. cbn [isnil negb]. rewrite orb_true_r, <- app_assoc. destruct resolve; reflexivity.
  Qed.

  Definition node_value (lbl : label) (data : list (aalts tok)) : aalts tok :=
    if is_inter tok lbl then List.concat data else awrap tok (List.concat (List.concat data)).

  Lemma gta_S_kept f lp lbl : is_tok lbl = false -> lmem tok teqb lbl lp = false ->
    gta (S f) lp lbl = node_value lbl (kept_data (map (fam_val f lp lbl) (order lbl (fams_of lbl)))).
  Proof.
    intros Et El. rewrite (gta_S _ _ _ Et), El. unfold node_value, kept_data. cbv zeta.
    destruct resolve; [rewrite first_nonempty_sub|rewrite concat_nonempties]; reflexivity.
  Qed.

  Lemma awrap_nil ts : isnil (awrap tok ts) = isnil ts.
  Proof. destruct ts as [|t [|t2 r]]; reflexivity. Qed.

  Lemma node_value_nil f lp lbl ks :
    isnil (node_value lbl (kept_data (map (fam_val f lp lbl) ks))) = isnil (nonempties (map (fam_val f lp lbl) ks)).
  Proof.
    unfold node_value, kept_data. induction ks as [|fm ks IH]; cbn [map nonempties].
    - destruct (is_inter tok lbl), resolve; reflexivity.
    - pose proof (fam_val_single f lp lbl fm) as Hs. destruct (fam_val f lp lbl fm) as [|a x]; [exact IH|].
      destruct (is_inter tok lbl); [destruct resolve; reflexivity|]. rewrite awrap_nil.
      destruct (Hs a eq_refl (or_introl eq_refl)) as [t ->]. destruct resolve; reflexivity.
  Qed.

  Lemma many_spec n : Z.gtb (Z.of_nat n) 1 = Nat.ltb 1 n.
  Proof.
    destruct (Nat.ltb_spec 1 n); destruct (Z.gtb_spec (Z.of_nat n) 1); try reflexivity; lia.
  Qed.

  Lemma symbol_value_awrap (data : list (aalts tok)) :
    olist (symbol_value tok data) = wrap1 (awrap tok (List.concat (List.concat data))).
  Proof.
    unfold symbol_value. cbv [ftpt_ambig_many]. rewrite many_spec.
    destruct (List.concat (List.concat data)) as [|t [|t2 ts]]; reflexivity.
  Qed.

  Lemma inter_value_concat (data : list (aalts tok)) : inter_value tok data = List.concat data.
  Proof.
    unfold inter_value. cbv [ftpt_inter_many]. rewrite many_spec.
    destruct data as [|d [|d2 ds]]; cbn; rewrite ?app_nil_r; reflexivity.
  Qed.

  Lemma wrap1_nonempty (a : aalts tok) : isnil a = false -> wrap1 a = [a].
  Proof. destruct a; [discriminate|reflexivity]. Qed.

  (* transform_symbol_node / transform_intermediate_node once the node is not discarded *)
  Lemma out_value lbl data : isnil (node_value lbl data) = false ->
    olist (if is_inter tok lbl then Some (inter_value tok data) else symbol_value tok data) = wrap1 (node_value lbl data).
  Proof.
    unfold node_value. destruct (is_inter tok lbl); [|intros _; apply symbol_value_awrap].
    intros H. rewrite inter_value_concat, (wrap1_nonempty _ H). reflexivity.
  Qed.

  Hypothesis closed : forall lbl r l rt c, F lbl (r, l, rt) -> In c (olist l ++ olist rt) ->
    is_tok c = false -> fams_of c <> [].

  (* [path], kept by the walk, and [lp], kept by [gta], hold the same symbol nodes, none of them a token *)
  Definition agrees (path : list (tnode tok)) (lp : list label) : Prop :=
    forall c, on_path c path = negb (is_tok c) && lmem tok teqb c lp.

  Lemma agrees_TP path lp lbl fm : agrees path lp -> agrees (path ++ [TP lbl fm]) lp.
  Proof. intros H c. rewrite on_path_app. cbn. rewrite orb_false_r. apply H. Qed.

  Lemma agrees_TS path lp lbl : agrees path lp -> is_tok lbl = false -> agrees (path ++ [TS lbl]) (lbl :: lp).
  Proof.
    intros H Et c. rewrite on_path_app, H. cbn. rewrite orb_false_r, (leqb_sym lbl c).
    destruct (leqb c lbl) eqn:E; [|rewrite orb_false_r; reflexivity].
    apply leqb_spec in E. subst c. rewrite Et, orb_true_r. reflexivity.
  Qed.

  (* What visiting a node whose alternatives are [g] does to the retreat flag and to the data of the node above:
     nothing counts any more once the walk retreats; otherwise an empty [g] starts the retreat. *)
  Definition visits (st : tst tok) (g : aalts tok) (st' : tst tok) (v : list (aalts tok)) : Prop :=
    if t_retreat st then t_retreat st' = true else t_retreat st' = isnil g /\ v = wrap1 g.

  Definition tw_ok (f : nat) : Prop := forall path lp st lbl st' v,
    agrees path lp -> on_path lbl path = false -> (is_tok lbl = false -> fams_of lbl <> []) ->
    tw f path st lbl = Ok (st', v) -> visits st (gta f lp lbl) st' v.

  Ltac gen_unfold :=
    cbv [ftpt_on_cycle_retreat ftpt_packed_in_retreat ftpt_check_outer ftpt_check_inner ftpt_sym_in_nothing
         ftpt_packed_in_descends ftpt_packed_out_marks ftpt_sym_out_fails ftpt_inter_out_fails
         ftpt_packed_out_skips ftpt_packed_out_cached ft_token_kept ft_out_kept vl_iter_cycle] in *.

  (* _check_cycle at a node one of whose packed children succeeded: a retreat ends here *)
  Lemma check_cycle_succ st b : exists st2, check_cycle tok st b true = (false, st2) /\ t_retreat st2 = false.
  Proof. unfold check_cycle. gen_unfold. rewrite orb_true_r. destruct (t_retreat st) eqn:E; eauto. Qed.

  Lemma olist_kept {A} (o : option A) : (if negb (negb (is_some' o)) then olist o else []) = olist o.
  Proof. destruct o; reflexivity. Qed.

  Lemma child_step f path lp st data c st' data' : tw_ok f -> agrees path lp ->
    (is_tok c = false -> fams_of c <> []) ->
    tw_child tok teqb (tw f) path (Ok (st, data)) c = Ok (st', data') ->
    exists v, data' = data ++ v /\ visits st (gta f lp c) st' v.
  Proof.
    intros IH Hlp Hc H. unfold tw_child in H. cbn [rbind] in H. gen_unfold.
    destruct (on_path c path) eqn:Ep.
    - injection H as <- <-. exists []. split; [symmetry; apply app_nil_r|].
      rewrite Hlp in Ep. apply andb_true_iff in Ep. destruct Ep as [Et El]. apply negb_true_iff in Et.
      assert (Eg : gta f lp c = []) by (destruct f; [reflexivity|rewrite (gta_S _ _ _ Et), El; reflexivity]).
      unfold visits. rewrite Eg. cbn. destruct (t_retreat st); auto.
    - destruct (tw f path st c) as [[st1 v]| |] eqn:E; cbn [rbind] in H; try discriminate.
      injection H as <- <-. exists v. split; [reflexivity|]. exact (IH _ _ _ _ _ _ Hlp Ep Hc E).
  Qed.

  Lemma children_fold f path lp : tw_ok f -> agrees path lp -> forall cs st data st' data',
    (forall c, In c cs -> is_tok c = false -> fams_of c <> []) ->
    fold_left (tw_child tok teqb (tw f) path) cs (Ok (st, data)) = Ok (st', data') ->
    t_retreat st' = t_retreat st || existsb (fun c => isnil (gta f lp c)) cs /\
    (t_retreat st' = false -> data' = data ++ map (gta f lp) cs).
  Proof.
    intros IH Hlp. induction cs as [|c cs IHc] using rev_ind; intros st data st' data' Hcl H.
    - injection H as <- <-. cbn. rewrite orb_false_r, app_nil_r. auto.
    - rewrite fold_left_app in H. cbn [fold_left] in H.
      destruct (fold_left _ cs _) as [[st1 d1]| |] eqn:E; [|discriminate H..].
      destruct (IHc _ _ _ _ (fun c' Hc' => Hcl c' (in_or_app _ _ _ (or_introl Hc'))) E) as [Hr Hd].
      destruct (child_step _ _ _ _ _ _ _ _ IH Hlp (Hcl c (in_elt c cs [])) H) as [v [-> Hv]].
      rewrite existsb_app, map_app, orb_assoc, <- Hr. cbn [existsb map]. rewrite orb_false_r. unfold visits in Hv.
      destruct (t_retreat st1).
      + split; [exact Hv|congruence].
      + destruct Hv as [Hv ->]. split; [exact Hv|]. intros Hn. rewrite Hn in Hv.
        rewrite (Hd eq_refl), (wrap1_nonempty _ (eq_sym Hv)), app_assoc. reflexivity.
  Qed.

  Lemma kids_nil f lp l rt :
    existsb (fun c => isnil (gta f lp c)) (olist l ++ olist rt) = isnil (cross (gsub f lp l) (gsub f lp rt)).
  Proof. rewrite isnil_cross. destruct l, rt; cbn; rewrite ?orb_false_r; reflexivity. Qed.

  Lemma packed_kids_cross f lp l rt :
    packed_kids tok (is_some' l) (map (gta f lp) (olist l ++ olist rt)) = cross (gsub f lp l) (gsub f lp rt).
  Proof. destruct l, rt; cbn [olist app map packed_kids is_some' gsub]; rewrite ?cross_unit_l, ?cross_unit_r; reflexivity. Qed.

  (* a packed node: what it adds to the data of its symbol node, and that on the way out the symbol node is in
     _successful_visits or the walk retreats *)
  Lemma packed_step f path lp lbl st succ pdata fm st' succ' pdata' : tw_ok f -> agrees path (lbl :: lp) -> F lbl fm ->
    tw_packed tok teqb resolve (tw f) path lbl (Ok (st, succ, pdata)) fm = Ok (st', succ', pdata') ->
    (succ', pdata') = step_pure (fam_val f lp lbl) (succ, pdata) fm /\ succ' || t_retreat st' = true.
  Proof.
    intros IH Hlp HF H. destruct fm as [[r l] rt]. unfold tw_packed in H. cbn [rbind] in H.
    unfold step_pure. gen_unfold. rewrite !orb_true_r, andb_true_r, <- negb_andb in H.
    destruct (resolve && succ) eqn:Esk; cbn [negb] in H.
    - (* another alternative was kept: not entered *)
      cbn [fold_left rbind] in H. unfold check_cycle in H. gen_unfold. cbn [t_retreat is_some' negb push] in H.
      injection H as <- <- <-. apply andb_true_iff in Esk. destruct Esk as [_ ->]. auto.
    - destruct (fold_left _ _ _) as [[st1 data]| |] eqn:Ef; cbn [rbind] in H; try discriminate.
      destruct (children_fold f _ _ IH (agrees_TP _ _ lbl (r, l, rt) Hlp) _ _ _ _ _
                  (fun c => closed lbl r l rt c HF) Ef) as [Hr Hd].
      cbn [t_retreat orb] in Hr. rewrite kids_nil in Hr. rewrite isnil_fam_val.
      unfold check_cycle in H. gen_unfold. cbn [orb] in H.
      change (fam_kids f lp lbl (r, l, rt)) with (cross (gsub f (lbl :: lp) l) (gsub f (lbl :: lp) rt)). rewrite <- Hr.
      destruct (t_retreat st1) eqn:Er1; cbn [is_some' negb push t_retreat olist] in H; injection H as <- <- <-;
        cbn [push t_retreat]; rewrite Er1; cbn [negb].
      + rewrite orb_false_r. split; [reflexivity|apply orb_true_r].
      + rewrite (Hd eq_refl), orb_true_r. unfold packed_value. cbn [app]. rewrite packed_kids_cross. split; reflexivity.
  Qed.

  Lemma packed_fold f path lp lbl : tw_ok f -> agrees path (lbl :: lp) -> forall ks st succ pdata st' succ' pdata',
    (forall fm, In fm ks -> F lbl fm) ->
    fold_left (tw_packed tok teqb resolve (tw f) path lbl) ks (Ok (st, succ, pdata)) = Ok (st', succ', pdata') ->
    (succ', pdata') = fold_left (step_pure (fam_val f lp lbl)) ks (succ, pdata) /\
    (ks <> [] -> succ' || t_retreat st' = true).
  Proof.
    intros IH Hlp. induction ks as [|fm ks IHk] using rev_ind; intros st succ pdata st' succ' pdata' HF H.
    - injection H as <- <- <-. split; [reflexivity|congruence].
    - rewrite fold_left_app in *. cbn [fold_left] in *.
      destruct (fold_left _ ks (Ok _)) as [[[st1 succ1] pdata1]| |] eqn:E; [|discriminate H..].
      destruct (IHk _ _ _ _ _ _ (fun fm' Hin => HF fm' (in_or_app _ _ _ (or_introl Hin))) E) as [<- _].
      destruct (packed_step _ _ _ _ _ _ _ _ _ _ _ IH Hlp (HF fm (in_elt fm ks [])) H) as [E1 Hr]. auto.
  Qed.

  (* the walk below a node hands up the alternatives [gta] computes for it, and retreats exactly when there are none *)
  Theorem tw_correct : forall fuel, tw_ok fuel.
  Proof.
    induction fuel as [|f IH]; intros path lp st lbl st' v Hlp Hnp Hne H; [discriminate|].
    destruct (is_tok lbl) eqn:Et.
    { destruct lbl; try discriminate. cbn in H. gen_unfold. cbn in H. injection H as <- <-. unfold visits. cbn.
      destruct (t_retreat st); auto. }
    rewrite (tw_S _ _ _ _ Et) in H. unfold tw_symbol in H.
    pose proof (packed_fold f _ lp lbl IH (agrees_TS _ _ _ Hlp Et)) as Hfold.
    gen_unfold. unfold visits.
    destruct (t_retreat st) eqn:Er.
    - (* entered while retreating: no children, Discard *)
      cbn [fold_left rbind negb] in H. rewrite if_same in H. cbn in H. injection H as <- _. exact Er.
    - set (ks := order lbl (fams_of lbl)) in *.
      assert (Hks : ks <> []).
      { specialize (Hne eq_refl). destruct (fams_of lbl) as [|f0 fs] eqn:Ef; [congruence|].
        intros E. apply (in_nil (a := f0)). rewrite <- E. apply order_perm. left. reflexivity. }
      assert (HF : forall fm, In fm ks -> F lbl fm).
      { intros fm Hfm. apply order_perm in Hfm. apply (fams_of_in tok teqb teqb_spec) in Hfm. exact Hfm. }
      destruct (fold_left _ ks _) as [[[st1 succ] data]| |] eqn:Ef; cbn [rbind] in H; try discriminate.
      destruct (Hfold _ _ _ _ _ _ _ HF Ef) as [Ep Hr]. specialize (Hr Hks).
      rewrite fold_step_pure, andb_false_r in Ep. cbn [orb app] in Ep. injection Ep as -> ->.
      rewrite Hlp, Et in Hnp. rewrite (gta_S_kept _ _ _ Et Hnp). fold ks.
      rewrite if_same in H. pose proof (node_value_nil f lp lbl ks) as Hn. rewrite Hn.
      destruct (isnil (nonempties _)); cbn [negb] in H.
      + (* every alternative was abandoned *)
        cbn [is_some' negb olist] in H. injection H as <- <-.
        destruct (node_value lbl _); [split; [exact Hr|reflexivity]|discriminate Hn].
      + destruct (check_cycle_succ st1 (olabel_eqb' tok teqb (t_cycle st1) lbl)) as [st2 [Ecc Hr2]].
        rewrite Ecc, olist_kept in H. injection H as <- <-. split; [exact Hr2|]. apply out_value, Hn.
  Qed.

  (* the unfoldings in which no node occurs below itself ([lp]: the nodes above) *)
  Inductive sden : list label -> label -> list (dt tok) -> Prop :=
  | sden_tok lp t x i j : sden lp (NTok tok t x i j) [DL tok t x]
  | sden_fam lp lbl r l rt ds1 ds2 :
      is_tok lbl = false -> ~ In lbl lp -> F lbl (r, l, rt) ->
      sden_opt (lbl :: lp) l ds1 -> sden_opt (lbl :: lp) rt ds2 -> sden lp lbl (pack tok lbl r (ds1 ++ ds2))
  with sden_opt : list label -> option label -> list (dt tok) -> Prop :=
  | sdeno_none lp : sden_opt lp None []
  | sdeno_some lp l ds : sden lp l ds -> sden_opt lp (Some l) ds.

  Scheme sden_mind := Minimality for sden Sort Prop
    with sden_opt_mind := Minimality for sden_opt Sort Prop.
  Combined Scheme sden_mutind from sden_mind, sden_opt_mind.

  Lemma sden_den : (forall lp l ds, sden lp l ds -> den tok F l ds) /\
                   (forall lp o ds, sden_opt lp o ds -> den_opt tok F o ds).
  Proof.
    apply sden_mutind; intros.
    - constructor.
    - eapply den_fam; eassumption.
    - constructor.
    - constructor. assumption.
  Qed.

  Definition aex (x : list (dt tok)) (a : list (atree tok)) : Prop := Forall2 (fun xi ai => In xi (aexpand tok ai)) x a.

  Lemma in_lprod_aexpand x a : In x (lprod (map (aexpand tok) a)) <-> aex x a.
  Proof.
    rewrite in_lprod. unfold aex. revert x. induction a as [|t a IH]; intros x; cbn [map]; split; intros H;
      inversion H; subst; constructor; try assumption; apply IH; assumption.
  Qed.
  Lemma in_axalts x A : In x (axalts tok A) <-> exists a, In a A /\ aex x a.
  Proof.
    unfold axalts. rewrite in_flat_map. split; intros [a [Ha H]]; exists a; (split; [exact Ha|]);
      apply in_lprod_aexpand; exact H.
  Qed.
  Lemma axalts_cross x A B :
    In x (axalts tok (cross A B)) <-> exists x1 x2, x = x1 ++ x2 /\ In x1 (axalts tok A) /\ In x2 (axalts tok B).
  Proof.
    rewrite in_axalts. split.
    - intros [a [Ha He]]. apply in_cross_inv in Ha. destruct Ha as [l [r [-> [Hl Hr]]]].
      apply Forall2_app_inv_r in He. destruct He as [x1 [x2 [H1 [H2 ->]]]].
      exists x1, x2. split; [reflexivity|]. split; apply in_axalts; eauto.
    - intros [x1 [x2 [-> [H1 H2]]]]. apply in_axalts in H1. apply in_axalts in H2.
      destruct H1 as [a1 [Ha1 He1]]. destruct H2 as [a2 [Ha2 He2]].
      exists (a1 ++ a2). split; [apply in_cross; assumption|apply Forall2_app; assumption].
  Qed.
  Lemma axalts_unit x : In x (axalts tok [[]]) <-> x = [].
  Proof. cbn. intuition. Qed.
  Lemma axalts_awrap x ts :
    In x (axalts tok (awrap tok ts)) <-> exists t d, In t ts /\ In d (aexpand tok t) /\ x = [d].
  Proof.
    destruct ts as [|t [|t2 r]]; cbn [awrap axalts flat_map map lprod].
    - split; [intros []|intros [t [d [[] _]]]].
    - rewrite app_nil_r, in_flat_map. split.
      + intros [d [Hd [<-|[]]]]. exists t, d. auto using in_eq.
      + intros [t' [d [[<-|[]] [Hd ->]]]]. exists d. split; [exact Hd|left; reflexivity].
    - rewrite app_nil_r, in_flat_map. split.
      + intros [d [Hd [<-|[]]]]. cbn [aexpand] in Hd. apply in_flat_map in Hd. destruct Hd as [t' [Ht' Hd]].
        exists t', d. auto.
      + intros [t' [d [Ht' [Hd ->]]]]. exists d. split; [|left; reflexivity].
        cbn [aexpand]. apply in_flat_map. eauto.
  Qed.

  Lemma axalts_concat x (L : list (aalts tok)) :
    In x (axalts tok (List.concat L)) <-> exists v, In v L /\ In x (axalts tok v).
  Proof.
    rewrite in_axalts. split.
    - intros [a [Ha He]]. apply in_concat in Ha. destruct Ha as [v [Hv Ha]]. exists v. split; [exact Hv|].
      apply in_axalts. eauto.
    - intros [v [Hv Hx]]. apply in_axalts in Hx. destruct Hx as [a [Ha He]]. exists a. split; [|exact He].
      apply in_concat. eauto.
  Qed.

  Lemma pack_inter lbl r cs : is_tok lbl = false -> pack tok lbl r cs = if is_inter tok lbl then cs else [DN tok r cs].
  Proof. destruct lbl; [reflexivity|reflexivity|discriminate]. Qed.

  Lemma axalts_fam_val f lp lbl r l rt ds : is_tok lbl = false ->
    (In ds (axalts tok (fam_val f lp lbl (r, l, rt))) <->
     exists cs, In cs (axalts tok (fam_kids f lp lbl (r, l, rt))) /\ ds = pack tok lbl r cs).
  Proof.
    intros Et. unfold fam_val. setoid_rewrite (pack_inter lbl r _ Et). destruct (is_inter tok lbl).
    - split; [eauto|intros [cs [H ->]]; exact H].
    - rewrite in_axalts. split.
      + intros [a [Ha He]]. apply in_map_iff in Ha. destruct Ha as [a0 [<- Ha0]].
        inversion He as [|d t x a' Hd Hx]; subst. inversion Hx; subst. cbn [aexpand] in Hd.
        apply in_map_iff in Hd. destruct Hd as [cs [<- Hcs]]. exists cs. split; [|reflexivity].
        apply in_axalts. exists a0. split; [exact Ha0|]. apply in_lprod_aexpand, Hcs.
      + intros [cs [Hcs ->]]. apply in_axalts in Hcs. destruct Hcs as [a [Ha He]].
        exists [ANode r a]. split; [exact (in_map (fun a => [ANode r a]) _ _ Ha)|]. constructor; [|constructor].
        cbn [aexpand]. apply in_map, in_lprod_aexpand, He.
  Qed.

  Lemma axalts_node_value lbl data ds :
    (is_inter tok lbl = false -> forall v a, In v data -> In a v -> exists t, a = [t]) ->
    (In ds (axalts tok (node_value lbl data)) <-> exists v, In v data /\ In ds (axalts tok v)).
  Proof.
    unfold node_value. destruct (is_inter tok lbl); intros Hs; [apply axalts_concat|].
    specialize (Hs eq_refl). rewrite axalts_awrap. split.
    - intros [t [d [Ht [Hd ->]]]]. apply in_concat in Ht. destruct Ht as [a [Ha Ht]].
      apply in_concat in Ha. destruct Ha as [v [Hv Ha]]. exists v. split; [exact Hv|].
      apply in_axalts. exists a. split; [exact Ha|]. destruct (Hs v a Hv Ha) as [t' ->].
      destruct Ht as [<-|[]]. repeat constructor. exact Hd.
    - intros [v [Hv Hds]]. apply in_axalts in Hds. destruct Hds as [a [Ha He]]. destruct (Hs v a Hv Ha) as [t ->].
      inversion He as [|d ? ? ? Hd Hx]; subst. inversion Hx; subst. exists t, d. split; [|auto].
      apply in_concat. exists [t]. split; [|left; reflexivity]. apply in_concat. eauto.
  Qed.

  Lemma first_nonempty_incl {A} (l : list (list A)) x : In x (first_nonempty l) -> In x l.
  Proof. induction l as [|[|a y] l IH]; cbn; [tauto| |]; intros H; [right; auto|destruct H as [<-|[]]; left; reflexivity]. Qed.

  Lemma kept_fam f lp lbl ks v :
    In v (let vals := map (fam_val f lp lbl) ks in if resolve then first_nonempty vals else vals) ->
    exists fm, In fm ks /\ v = fam_val f lp lbl fm.
  Proof.
    cbv zeta. intros H. assert (Hv : In v (map (fam_val f lp lbl) ks)) by (destruct resolve; [apply first_nonempty_incl|]; exact H).
    apply in_map_iff in Hv. destruct Hv as [fm [<- Hfm]]. eauto.
  Qed.

  Lemma kept_single f lp lbl ks v a : is_inter tok lbl = false ->
    In v (let vals := map (fam_val f lp lbl) ks in if resolve then first_nonempty vals else vals) -> In a v ->
    exists t, a = [t].
  Proof. intros Ei Hv Ha. apply kept_fam in Hv. destruct Hv as [fm [_ ->]]. exact (fam_val_single _ _ _ _ _ Ei Ha). Qed.

  Lemma gsub_sound f lp o :
    (forall l ds, In ds (axalts tok (gta f lp l)) -> sden lp l ds) ->
    forall ds, In ds (axalts tok (gsub f lp o)) -> sden_opt lp o ds.
  Proof.
    intros IH ds H. destruct o as [l|]; cbn [gsub] in H.
    - constructor. apply IH. exact H.
    - apply axalts_unit in H. subst. constructor.
  Qed.

  (* both modes: whatever the walk produces is an unfolding in which no node occurs below itself *)
  Theorem gta_sound : forall fuel lp lbl ds, In ds (axalts tok (gta fuel lp lbl)) -> sden lp lbl ds.
  Proof.
    induction fuel as [|f IH]; intros lp lbl ds H; [destruct H|].
    destruct (is_tok lbl) eqn:Et.
    { destruct lbl; try discriminate. cbn in H. destruct H as [<-|[]]. constructor. }
    rewrite (gta_S _ _ _ Et) in H. destruct (lmem tok teqb lbl lp) eqn:El; [destruct H|].
    apply (lmem_not_in tok teqb teqb_spec) in El.
    apply (axalts_node_value lbl _ _ (fun Ei v a => kept_single f lp lbl _ v a Ei)) in H.
    destruct H as [v [Hv Hds]]. apply kept_fam in Hv. destruct Hv as [[[r l] rt] [Hin ->]].
    apply order_perm, (fams_of_in tok teqb teqb_spec) in Hin.
    apply (axalts_fam_val _ _ _ _ _ _ _ Et) in Hds. destruct Hds as [cs [Hcs ->]].
    unfold fam_kids in Hcs. apply axalts_cross in Hcs. destruct Hcs as [x1 [x2 [-> [H1 H2]]]].
    apply (sden_fam lp lbl r l rt x1 x2); try assumption; eapply gsub_sound; eauto.
  Qed.

  (* resolve_ambiguity=False: every such unfolding is produced *)
  Lemma gta_complete_aux : resolve = false ->
    (forall lp lbl ds, sden lp lbl ds -> forall fuel, path_ok tok fams lp fuel -> In ds (axalts tok (gta fuel lp lbl))) /\
    (forall lp o ds, sden_opt lp o ds -> forall f, path_ok tok fams lp f -> In ds (axalts tok (gsub f lp o))).
  Proof.
    intros ambig_mode. apply sden_mutind.
    - intros lp t x i j fuel Hpo. destruct fuel as [|f]; [destruct (path_ok_fuel tok fams _ _ Hpo eq_refl)|]. cbn. auto.
    - intros lp lbl r l rt ds1 ds2 Et Hnp HF _ IH1 _ IH2 fuel Hpo.
      destruct fuel as [|f]; [destruct (path_ok_fuel tok fams _ _ Hpo eq_refl)|]. rewrite (gta_S _ _ _ Et).
      rewrite (proj2 (lmem_not_in tok teqb teqb_spec _ _) Hnp).
      pose proof (path_ok_cons tok fams _ _ _ _ Hpo Hnp HF) as Hpo'.
      apply (axalts_node_value lbl _ _ (fun Ei v a => kept_single f lp lbl _ v a Ei)).
      exists (fam_val f lp lbl (r, l, rt)). cbv zeta. rewrite ambig_mode. split.
      + apply in_map, order_perm, (fams_of_in tok teqb teqb_spec), HF.
      + apply (axalts_fam_val _ _ _ _ _ _ _ Et). exists (ds1 ++ ds2). split; [|reflexivity].
        unfold fam_kids. apply axalts_cross. exists ds1, ds2. auto.
    - intros lp f _. cbn. auto.
    - intros lp l ds _ IH f Hpo. cbn [gsub]. apply IH. exact Hpo.
  Qed.

  (* TreeForestTransformer(resolve_ambiguity=False) on any graph forest, cyclic or not: the trees denoted by the
     result are exactly the unfoldings in which no node occurs below itself *)
  Theorem gta_exact root ds : resolve = false ->
    (In ds (axalts tok (gta (tw_fuel tok fams) [] root)) <-> sden [] root ds).
  Proof.
    intros Hm. split; [apply gta_sound|].
    intros H. apply (proj1 (gta_complete_aux Hm) _ _ _ H). apply path_ok_nil. unfold tw_fuel. lia.
  Qed.

  (* the resolve walk of Forest/GraphResolve.v returns such an unfolding, hence (graph_resolve_total) one exists
     whenever the forest stores any unfolding at all *)
  Lemma gres_simple : forall fuel path lbl ds,
    gres tok teqb fams order fuel path lbl = Some ds -> sden path lbl ds.
  Proof.
    induction fuel as [|f IH]; intros path lbl ds; [discriminate|].
    destruct (is_tok lbl) eqn:Et.
    - destruct lbl; try discriminate. cbn. intros [= <-]. constructor.
    - intros H. destruct (gres_inv tok teqb teqb_spec fams order order_perm _ _ _ _ Et H)
        as [Hnp [r [l [rt [d1 [d2 [HF [E1 [E2 ->]]]]]]]]].
      apply (sden_fam path lbl r l rt d1 d2); [exact Et|exact Hnp|exact HF| |].
      + destruct l as [l0|]; cbn [GraphResolve_proofs.sub] in E1; [constructor; apply (IH _ _ _ E1)|].
        injection E1 as <-. constructor.
      + destruct rt as [l0|]; cbn [GraphResolve_proofs.sub] in E2; [constructor; apply (IH _ _ _ E2)|].
        injection E2 as <-. constructor.
  Qed.

  Theorem den_has_simple lbl ds : den tok F lbl ds -> exists ds', sden [] lbl ds'.
  Proof.
    intros H. pose proof (gres_total tok teqb teqb_spec fams order order_perm _ _ H) as Hne.
    destruct (gres tok teqb fams order (S (List.length fams)) [] lbl) as [ds'|] eqn:E; [|congruence].
    exists ds'. exact (gres_simple _ _ _ _ E).
  Qed.

  (* on an acyclic forest every stored unfolding is of that kind *)
  Section Acyclic.
    Variable rk : label -> nat.
    Hypothesis ranked : forall lbl r l rt c, F lbl (r, l, rt) -> In c (olist l ++ olist rt) -> rk c < rk lbl.
    Hypothesis tok_no_family : forall t x i j f, ~ F (NTok tok t x i j) f.

    Lemma den_sden :
      (forall l ds, den tok F l ds -> forall lp, (forall q, In q lp -> rk l < rk q) -> sden lp l ds) /\
      (forall o ds, den_opt tok F o ds -> forall lp, (forall q c, In q lp -> o = Some c -> rk c < rk q) -> sden_opt lp o ds).
    Proof.
      apply (den_mutind tok F).
      - intros. constructor.
      - intros lbl r l rt ds1 ds2 HF _ IH1 _ IH2 lp Hlp.
        assert (Et : is_tok lbl = false).
        { destruct lbl; try reflexivity. exfalso. exact (tok_no_family _ _ _ _ _ HF). }
        assert (Hk : forall o, (o = l \/ o = rt) -> forall q c, In q (lbl :: lp) -> o = Some c -> rk c < rk q).
        { intros o Ho q c Hq ->.
          assert (Hc : rk c < rk lbl).
          { apply (ranked lbl r l rt c HF). destruct Ho as [<-|<-]; cbn [olist]; apply in_or_app; [left|right]; left; reflexivity. }
          destruct Hq as [<-|Hq]; [exact Hc|]. specialize (Hlp q Hq). lia. }
        apply (sden_fam lp lbl r l rt ds1 ds2); [exact Et| |exact HF| |].
        + intros Hin. specialize (Hlp lbl Hin). lia.
        + apply IH1. apply Hk. left. reflexivity.
        + apply IH2. apply Hk. right. reflexivity.
      - intros. constructor.
      - intros l ds _ IH lp Hlp. constructor. apply IH. intros q Hq. apply (Hlp q l Hq eq_refl).
    Qed.

    Theorem sden_iff_den lbl ds : sden [] lbl ds <-> den tok F lbl ds.
    Proof.
      split; [apply (proj1 sden_den)|]. intros H. apply (proj1 den_sden _ _ H). intros q [].
    Qed.
  End Acyclic.

  Lemma gta_sym_shape fuel a i j : gta fuel [] (NSym tok a i j) = [] \/ exists t, gta fuel [] (NSym tok a i j) = [[t]].
  Proof.
    destruct fuel as [|f]; [left; reflexivity|]. rewrite gta_S by reflexivity. cbn [lmem is_inter]. cbv zeta.
    destruct (List.concat (List.concat _)) as [|t [|t2 r]]; cbn [awrap]; eauto.
  Qed.

  Lemma axalts_single (t : atree tok) ds : In ds (axalts tok [[t]]) <-> exists d, ds = [d] /\ In d (aexpand tok t).
  Proof.
    cbn [axalts flat_map map lprod]. rewrite app_nil_r, in_flat_map. split.
    - intros [d [Hd [<-|[]]]]. eauto.
    - intros [d [-> Hd]]. exists d. split; [exact Hd|left; reflexivity].
  Qed.

  Lemma gta_inhabited : forall fuel lp lbl a, In a (gta fuel lp lbl) -> exists x, aex x a.
  Proof.
    induction fuel as [|f IH]; intros lp lbl a H; [destruct H|].
    destruct (is_tok lbl) eqn:Et.
    { destruct lbl; try discriminate. cbn in H. destruct H as [<-|[]]. exists [DL tok t x]. repeat constructor. }
    rewrite (gta_S _ _ _ Et) in H. destruct (lmem tok teqb lbl lp); [destruct H|]. cbv zeta in H.
    set (vals := map (fam_val f lp lbl) (order lbl (fams_of lbl))) in *.
    assert (Hkids : forall fm c, In c (fam_kids f lp lbl fm) -> exists x, aex x c).
    { intros [[r l] rt] c Hc. unfold fam_kids in Hc. apply in_cross_inv in Hc. destruct Hc as [c1 [c2 [-> [H1 H2]]]].
      assert (Hs : forall o c', In c' (gsub f (lbl :: lp) o) -> exists x, aex x c').
      { intros [l0|] c' Hc'; cbn [gsub] in Hc'; [eapply IH; eassumption|]. destruct Hc' as [<-|[]]. exists []. constructor. }
      destruct (Hs _ _ H1) as [x1 Hx1]. destruct (Hs _ _ H2) as [x2 Hx2]. exists (x1 ++ x2). apply Forall2_app; assumption. }
    destruct (is_inter tok lbl) eqn:Ei.
    - apply in_concat in H. destruct H as [v [Hv Ha]]. apply kept_fam in Hv.
      destruct Hv as [[[r l] rt] [_ ->]]. unfold fam_val in Ha. rewrite Ei in Ha. eapply Hkids; eassumption.
    - assert (Htrees : forall t, In t (List.concat (List.concat (if resolve then first_nonempty vals else vals))) ->
                                 exists d, In d (aexpand tok t)).
      { intros t Ht. apply in_concat in Ht. destruct Ht as [w [Hw Ht]]. apply in_concat in Hw. destruct Hw as [v [Hv Hw]].
        apply kept_fam in Hv. destruct Hv as [[[r l] rt] [_ ->]].
        unfold fam_val in Hw. rewrite Ei in Hw. apply in_map_iff in Hw. destruct Hw as [c [<- Hc]]. destruct Ht as [<-|[]].
        destruct (Hkids _ _ Hc) as [x Hx]. exists (DN tok r x). cbn [aexpand]. apply in_map. apply in_lprod_aexpand. exact Hx. }
      destruct (List.concat (List.concat _)) as [|t [|t2 ts]] eqn:Ec; cbn [awrap] in H; [destruct H| |]; destruct H as [<-|[]].
      + destruct (Htrees t (or_introl eq_refl)) as [d Hd]. exists [d]. repeat constructor. exact Hd.
      + destruct (Htrees t (or_introl eq_refl)) as [d Hd]. exists [d]. repeat constructor. cbn [aexpand flat_map].
        apply in_or_app. left. exact Hd.
  Qed.

  (* both modes, every forest: each tree the result stands for is a finite unfolding stored by the forest, and the
     result stands for at least one *)
  Theorem graph_tft_sound a i j t :
    graph_tft tok teqb fams order resolve (NSym tok a i j) = Some t ->
    (forall d, In d (aexpand tok t) -> den tok F (NSym tok a i j) [d]) /\ aexpand tok t <> [].
  Proof.
    unfold graph_tft. intros H. destruct (gta_sym_shape (tw_fuel tok fams) a i j) as [E|[t0 E]]; rewrite E in H;
      [discriminate|]. injection H as <-. split.
    - intros d Hd. apply (proj1 sden_den []). apply gta_sound with (fuel := tw_fuel tok fams).
      rewrite E. apply axalts_single. eauto.
    - destruct (gta_inhabited (tw_fuel tok fams) [] (NSym tok a i j) [t0]) as [x Hx]; [rewrite E; left; reflexivity|].
      inversion Hx as [|d0 t1 x' a' Hd _]; subst. intros Hnil. rewrite Hnil in Hd. destruct Hd.
  Qed.

  (* resolve_ambiguity=False: exactly the unfoldings in which no node occurs below itself, and a tree is returned
     exactly when the forest stores some finite unfolding below the root (retreating from cycles loses none) *)
  Theorem graph_tft_exact a i j : resolve = false ->
    (forall t, graph_tft tok teqb fams order resolve (NSym tok a i j) = Some t ->
               forall d, In d (aexpand tok t) <-> sden [] (NSym tok a i j) [d]) /\
    (graph_tft tok teqb fams order resolve (NSym tok a i j) <> None <-> exists d, den tok F (NSym tok a i j) [d]).
  Proof.
    intros Hm. unfold graph_tft. split.
    - intros t H d. destruct (gta_sym_shape (tw_fuel tok fams) a i j) as [E|[t0 E]]; rewrite E in H; [discriminate|].
      injection H as <-. rewrite <- (gta_exact _ _ Hm), E, axalts_single. split.
      + intros Hd. eauto.
      + intros [d' [[= <-] Hd]]. exact Hd.
    - split.
      + intros H. destruct (graph_tft tok teqb fams order resolve (NSym tok a i j)) as [t|] eqn:Eg.
        * destruct (graph_tft_sound _ _ _ _ Eg) as [Hs Hne]. destruct (aexpand tok t) as [|d r] eqn:Ed; [congruence|].
          exists d. apply Hs. left. reflexivity.
        * exfalso. apply H. exact Eg.
      + intros [d Hd]. destruct (den_has_simple _ _ Hd) as [ds' Hs].
        apply (gta_exact _ _ Hm) in Hs. destruct (gta_sym_shape (tw_fuel tok fams) a i j) as [E|[t0 E]]; rewrite E in *.
        * destruct Hs.
        * discriminate.
  Qed.

  (* the coded walk (Gen/ForestWalk.v conditions, retreat flag, cycle node, successful visits, data lists) returns what
     [gta] computes, on every closed forest *)
  Theorem tft_walk_computes root tr res :
    (is_tok root = false -> fams_of root <> []) ->
    tft_walk tok teqb fams order resolve root = Ok (tr, res) ->
    res = match gta (tw_fuel tok fams) [] root with [] => None | v => Some v end.
  Proof.
    intros Hroot H. unfold tft_walk in H.
    destruct (GraphTft.tw tok teqb fams order resolve (tw_fuel tok fams) [] _ root) as [[st v]| |] eqn:E; cbn [rbind] in H;
      try discriminate. injection H as _ <-. cbn [snd].
    destruct (tw_correct _ [] [] _ _ _ _ (fun c => eq_sym (andb_false_r _)) eq_refl Hroot E) as [_ ->].
    destruct (gta _ _ _); reflexivity.
  Qed.
End Proofs.
