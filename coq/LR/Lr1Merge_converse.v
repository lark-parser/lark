(* The converse of Lr1Merge_proofs.v: for grammars whose rule bodies are productive,
   every look-ahead the model of lalr_analysis.py computes (DeRemer-Pennello: lookback + Follow,
   Follow the least solution over includes from Read, Read the least solution over reads from DR)
   is the look-ahead of a canonical LR(1) item, valid for a symbol string leading to the same
   LR(0) state. *)
From Coq Require Import List Arith Bool ZArith Lia.
From LV Require Import Cfg.Grammar LR.Driver LR.Driver_proofs LR.Automaton LR.Automaton_proofs
     LR.Automaton_wf LR.Automaton_la LR.Automaton_complete LR.La_complete LR.Lr1Merge LR.Lr1Merge_proofs.
Import ListNotations.

Section Conv1.
  Variable rules : list rule.
  Variable r0 tEND : nat.
  Notation tm := (tmatch nat (fun k : nat => k)).
  Notation rule_at := (rule_at rules).
  Notation first_sym := (first_sym rules).
  Notation first_str := (first_str rules).
  Notation lr1_valid := (lr1_valid rules r0 tEND).
  Hypothesis Hprod : forall r d, In r rules -> exists u, derives rules nat tm (skipn d (rhs r)) u.

  Lemma derives_first ss w : derives rules nat tm ss w -> forall b u, w = b :: u -> first_str ss b.
  Proof.
    induction 1 as [| t k ss w Hm Hd IH | a r ss w1 w2 Hin Hl Hd1 IH1 Hd2 IH2]; intros b u E.
    - discriminate.
    - inversion E; subst. unfold tmatch in Hm. apply Nat.eqb_eq in Hm. subst t.
      apply first_str_head. constructor.
    - destruct w1 as [|b' w1']; simpl in E.
      + apply first_str_skip; [|exact (IH2 b u E)].
        rewrite <- Hl. apply (nullable_complete_nt rules nat tm), derives_rule; auto.
      + inversion E; subst b'. apply first_str_head. rewrite <- Hl.
        apply first_sym_rule; [exact Hin|exact (IH1 b w1' eq_refl)].
  Qed.

  (* a look-ahead for the closure step always exists (productivity) *)
  Lemma la_exists i d a B : i < length rules -> nth_error (rhs (rule_at i)) d = Some (NT B) ->
    exists b, first_str (skipn (S d) (rhs (rule_at i))) b \/
              (forallb (nullable rules) (skipn (S d) (rhs (rule_at i))) = true /\ b = a).
  Proof.
    intros Hi Hn. destruct (Hprod (rule_at i) (S d) (rule_at_In rules i Hi)) as (u & Hu).
    destruct u as [|b u].
    - exists a. right. split; auto. exact (nullable_complete rules nat tm _ _ Hu eq_refl).
    - exists b. left. eapply derives_first; eauto.
  Qed.

  Lemma closure_valid g K :
    (forall it, In it K -> exists a, lr1_valid g (fst it) (snd it) a) ->
    forall it, In it (closure rules K) -> exists a, lr1_valid g (fst it) (snd it) a.
  Proof.
    intros HK. apply closure_ind; auto.
    intros it b i (a & Ha) Hn Hi Hl. destruct (next_sym_valid rules it _ Hn) as (Hv & _).
    destruct (la_exists (fst it) (snd it) a b Hv Hn) as (t & Hla). exists t. eapply v_clos; eauto.
  Qed.
End Conv1.

Section Conv2.
  Variable rules : list rule.
  Variable tEND fuel : nat.
  Variable A : lr0.
  Variable r0 rootnt start : nat.
  Hypothesis HB : build_lr0 rules [r0] fuel = Some A.
  Hypothesis Hv : r0 < length rules.
  Hypothesis Hr0 : rule_at rules r0 = mkRule rootnt [NT start].
  Notation tm := (tmatch nat (fun k : nat => k)).
  Hypothesis Hprod : forall r d, In r rules -> exists u, derives rules nat tm (skipn d (rhs r)) u.

  Notation rule_at := (rule_at rules).
  Notation next_sym := (next_sym rules).
  Notation nts := (nt_transitions rules A).
  Notation rel := (compute_relations rules [r0] tEND A).
  Notation first_sym := (first_sym rules).
  Notation first_str := (first_str rules).
  Notation lr1_valid := (lr1_valid rules r0 tEND).
  Notation goto_star := (goto_star A).
  Let ND := NoDup_one r0.

  Lemma kernel0 : nth_error (kernels A) 0 = Some [(r0, 0)].
  Proof. now apply (root_kernel_at HB ND 0 r0). Qed.

  Notation closure_of_kernel := (closure_of_kernel HB ND).

  Theorem valid_exists g : forall q, goto_star 0 g = Some q ->
    forall it, In it (closure_of A q) -> exists a, lr1_valid g (fst it) (snd it) a.
  Proof.
    induction g as [|X g IH] using rev_ind; intros q Hg it Hit.
    - simpl in Hg. inversion Hg; subst q. rewrite (closure_of_kernel 0 _ kernel0) in Hit.
      apply (closure_valid rules r0 tEND Hprod [] [(r0, 0)]); auto.
      intros it' [<-|[]]. exists tEND. constructor.
    - rewrite goto_star_app in Hg. destruct (goto_star 0 g) as [q1|] eqn:Eg; [|discriminate].
      simpl in Hg. destruct (trans A q1 X) as [q'|] eqn:Et; [|discriminate]. inversion Hg; subst q'.
      destruct (trans_spec HB ND _ _ _ Et) as (_ & _ & Hk).
      rewrite (closure_of_kernel q _ Hk) in Hit.
      apply (closure_valid rules r0 tEND Hprod (g ++ [X]) (goto_kernel rules (closure_of A q1) X)); auto.
      intros kit Hkit. apply goto_kernel_In in Hkit. destruct Hkit as (d' & Hd & Hc & Hn).
      destruct (IH q1 eq_refl _ Hc) as (a & Ha). simpl in Ha. exists a. rewrite Hd.
      eapply v_goto; eauto.
  Qed.

  Lemma rk_path K : rk rules [r0] (kernels A) K -> In K (kernels A) ->
    exists q g, nth_error (kernels A) q = Some K /\ goto_star 0 g = Some q.
  Proof.
    induction 1 as [r [<-|[]]|K0 X Hrk IH HK0 HX]; intros HK.
    - exists 0, []. split; [apply kernel0|reflexivity].
    - destruct (IH HK0) as (q0 & g & Hq0 & Hg).
      assert (Hlt : q0 < nstates A) by (unfold nstates; apply nth_error_Some; rewrite Hq0; discriminate).
      rewrite <- (closure_of_kernel q0 _ Hq0) in *.
      destruct (trans_total rules [r0] fuel A HB ND q0 X Hlt HX) as (q' & Hq').
      destruct (trans_spec HB ND _ _ _ Hq') as (_ & _ & Hk).
      exists q', (g ++ [X]). split; auto. rewrite goto_star_app, Hg. simpl. now rewrite Hq'.
  Qed.

  Theorem state_path q : q < nstates A -> exists g, goto_star 0 g = Some q.
  Proof.
    intros Hq. destruct (built_shape HB ND) as (_ & _ & _ & Hrk & _).
    assert (HK : In (nth q (kernels A) []) (kernels A)) by (apply nth_In; exact Hq).
    destruct (rk_path _ (Hrk _ HK) HK) as (q' & g & Hq' & Hg). exists g.
    now rewrite <- (kernel_inj HB ND _ _ _ Hq' (nth_error_nth' _ _ Hq)).
  Qed.

  Definition R0 (x : ntrans) (t : nat) : Prop :=
    exists i d, In (i, d) (closure_of A (fst x)) /\ nth_error (rhs (rule_at i)) d = Some (NT (snd x)) /\
                first_str (skipn (S d) (rhs (rule_at i))) t.
  Definition R0' (x : ntrans) (t : nat) : Prop := R0 x t \/ (x = (0, start) /\ t = tEND).

  Definition W (x : ntrans) (t : nat) : Prop :=
    exists g i d a, goto_star 0 g = Some (fst x) /\ lr1_valid g i d a /\
                    nth_error (rhs (rule_at i)) d = Some (NT (snd x)) /\
                    (first_str (skipn (S d) (rhs (rule_at i))) t \/
                     (forallb (nullable rules) (skipn (S d) (rhs (rule_at i))) = true /\ t = a)).

  Lemma R0_of_goto p a p1 it1 t :
    trans A p (NT a) = Some p1 -> In it1 (closure_of A p1) ->
    first_str (skipn (snd it1) (rhs (rule_at (fst it1)))) t -> R0 (p, a) t.
  Proof.
    intros Ht Hit. destruct (trans_spec HB ND _ _ _ Ht) as (_ & _ & Hk).
    rewrite (closure_of_kernel p1 _ Hk) in Hit. revert it1 Hit.
    apply (closure_ind rules _ (fun it => first_str (skipn (snd it) (rhs (rule_at (fst it)))) t -> R0 (p, a) t)).
    - intros it Hit Hf. apply goto_kernel_In in Hit. destruct Hit as (d' & Hd & Hc & Hn).
      exists (fst it), d'. cbn [fst snd]. rewrite <- Hd. auto.
    - (* a predicted item: what starts its rule starts the non-terminal the predicting item expects *)
      intros it b i IH Hn Hi Hl Hf. apply IH. unfold Automaton.next_sym in Hn. rewrite (skipn_nth' _ _ _ Hn).
      apply first_str_head. rewrite <- Hl. apply first_sym_rule; auto using rule_at_In.
  Qed.

  Theorem read_witness k t : M (read_sets rel) k t -> forall x, nth_error nts k = Some x -> R0' x t.
  Proof using HB Hv Hr0.
    apply (sol_ind nts _ _ _ (LSr rules tEND A r0)).
    - intros i x t' Hx Ht. rewrite (nth_map_error _ nts i x [] Hx) in Ht.
      destruct x as (p, a). apply directly_reads_In in Ht.
      destruct Ht as [(Er & ->)|(p1 & it1 & Et & Hit1 & Hn1)].
      + right. split; auto. apply is_root_trans_spec in Er. simpl in Er. destruct Er as (-> & Er).
        rewrite (root_next_sym rules _ _ _ Hr0) in Er. now inversion Er.
      + left. apply (R0_of_goto p a p1 it1 t' Et Hit1). unfold Automaton.next_sym in Hn1.
        rewrite (skipn_nth' _ _ _ Hn1). apply first_str_head. constructor.
    - intros x y t' Hy Hphi. destruct x as (p, a), y as (p1, c). left.
      apply reads_In in Hy. simpl in Hy. destruct Hy as (Et & Hnul & _).
      destruct Hphi as [(i1 & d1 & Hit1 & Hn1 & Hf1)|(E & _)].
      + simpl in Hit1, Hn1. apply (R0_of_goto p a p1 (i1, d1) t' Et Hit1). simpl.
        rewrite (skipn_nth' _ _ _ Hn1). now apply first_str_skip.
      + exfalso. inversion E; subst. eapply (trans_not_root HB ND _ _ 0 r0); eauto.
  Qed.

  Lemma valid_along i a : forall pre rest g d, lr1_valid g i d a ->
    skipn d (rhs (rule_at i)) = pre ++ rest -> lr1_valid (g ++ pre) i (d + length pre) a.
  Proof.
    induction pre as [|X pre IH]; intros rest g d Hval Hp; simpl in *.
    - now rewrite app_nil_r, Nat.add_0_r.
    - destruct (skipn_cons_inv _ _ _ _ Hp) as (Hnth & Hrest).
      rewrite <- Nat.add_succ_comm. change (g ++ X :: pre) with (g ++ [X] ++ pre). rewrite app_assoc.
      apply (IH rest); [eapply v_goto; eauto|exact Hrest].
  Qed.

  Lemma W_start x t r : W x t -> In r (start_items rules A x) ->
    exists g, goto_star 0 g = Some (fst x) /\ lr1_valid g r 0 t.
  Proof.
    intros (g & i & d & a & Hg & Hval & Hn & Hla) Hr. apply start_items_In in Hr. destruct Hr as (Hit & Hl).
    exists g. split; auto. eapply v_clos; eauto.
    apply (closure_of_dot0_valid HB ND _ _) in Hit; auto. now intros r' [<-|[]].
  Qed.

  Theorem follow_witness k t : M (follow_sets rel) k t -> forall x, nth_error nts k = Some x -> W x t.
  Proof.
    apply (sol_ind nts _ _ _ (LSf rules tEND A r0)).
    - intros i x t' Hx Ht. destruct (read_witness i t' Ht x Hx) as [(i1 & d1 & Hit & Hn & Hf)|(E & ->)].
      + destruct (state_path (fst x)) as (g & Hg).
        { eapply (item_state_lt HB ND); eauto. }
        destruct (valid_exists g _ Hg _ Hit) as (a & Ha). simpl in Ha.
        exists g, i1, d1, a. auto.
      + rewrite E. exists [], r0, 0, tEND. simpl. split; auto. split; [constructor|].
        rewrite Hr0. simpl. split; auto.
    - intros x y t' Hy Hphi. apply (includes_In rules A x y) in Hy.
      destruct Hy as (_ & r & pre & rest & Hr & Er & Hgp & Hnu). destruct x as (q2, c). simpl in *.
      destruct (W_start y t' r Hphi Hr) as (g & Hg & Hval).
      exists (g ++ pre), r, (length pre), t'. cbn [fst snd].
      split; [rewrite goto_star_app, Hg; exact Hgp|]. split; [exact (valid_along r t' pre _ g 0 Hval Er)|].
      rewrite Er, skipn_middle. split; [apply nth_error_middle|auto].
  Qed.

  Theorem la_subset_lr1 q t i :
    In (q, t, i) (la_triples rel) ->
    exists g, goto_star 0 g = Some q /\ lr1_valid g i (length (rhs (rule_at i))) t.
  Proof.
    intros H. apply (proj1 (proj2 (proj2 (la_closure rules [r0] tEND A)) _ _ _)) in H.
    destruct H as (k & Hk & Hlb & Hm). simpl in Hlb.
    destruct (nth_error nts k) as [x|] eqn:Ex; [|apply nth_error_None in Ex; simpl in Hk; lia].
    rewrite (nth_map_error _ nts k x [] Ex) in Hlb.
    apply lookback_In in Hlb. destruct Hlb as (Hr & Eg & _). rewrite walk_snd in Eg.
    destruct (W_start x t i (follow_witness k t Hm x Ex) Hr) as (g & Hg & Hval).
    exists (g ++ rhs (rule_at i)). split; [rewrite goto_star_app, Hg; exact Eg|].
    exact (valid_along i t _ [] g 0 Hval (eq_sym (app_nil_r _))).
  Qed.
End Conv2.

(* the model's look-ahead sets ARE the LALR(1) look-ahead sets (productive rule bodies) *)
Theorem la_is_lalr1 rules tEND fuel A r0 rootnt start q a i :
  build_lr0 rules [r0] fuel = Some A ->
  rule_at rules r0 = mkRule rootnt [NT start] ->
  (forall r d, In r rules -> exists u, derives rules nat (tmatch nat (fun k => k)) (skipn d (rhs r)) u) ->
  i <> r0 ->
  (In (q, a, i) (la_triples (compute_relations rules [r0] tEND A)) <->
   exists g, goto_star A 0 g = Some q /\ lr1_valid rules r0 tEND g i (length (rhs (rule_at rules i))) a).
Proof.
  intros HB Hr0 Hprod Hne. pose proof (root_index_valid rules r0 rootnt start Hr0) as Hv. split.
  - apply (la_subset_lr1 rules tEND fuel A r0 rootnt start HB Hv Hr0 Hprod).
  - intros (g & Hg & Hval). eapply lr1_subset_la; eauto.
Qed.
