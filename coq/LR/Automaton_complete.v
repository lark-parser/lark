(* Completeness facts about the model of lalr_analysis.py that the
   completeness half of C02 needs: NULLABLE contains every non-terminal that derives
   the empty string, item-set closures are closed under prediction, and a finished BFS has a
   transition for every symbol an item expects (goto is total on the automaton). *)
From Coq Require Import List Arith Bool ZArith Lia.
From LV Require Import Cfg.Grammar LR.Driver LR.Driver_proofs LR.Automaton LR.Automaton_proofs LR.Automaton_wf.
Import ListNotations.

Section IterClosed.
  Variable f : list nat -> list nat.
  Variable Closed : list nat -> Prop.
  Variable U : list nat.
  Hypothesis f_keeps : forall S, NoDup S -> incl S U -> NoDup (f S) /\ incl (f S) U.
  Hypothesis f_stable : forall S, NoDup S -> length (f S) <= length S -> Closed S.
  Hypothesis f_closed : forall S, Closed S -> Closed (f S).

  Lemma iter_keeps_closed n : forall S, Closed S -> Closed (iter n f S).
  Proof. induction n; simpl; auto. Qed.

  (* each round either grows the set, which stays within U, or finds it closed *)
  Lemma iter_closed n : forall S, NoDup S -> incl S U -> length U < length S + n -> Closed (iter n f S).
  Proof.
    induction n; intros S ND HI HL; simpl.
    - pose proof (NoDup_incl_length ND HI). lia.
    - destruct (le_lt_dec (length (f S)) (length S)) as [C|C].
      + apply iter_keeps_closed. now apply f_closed, f_stable.
      + destruct (f_keeps S ND HI) as (ND' & HI'). apply IHn; auto. lia.
  Qed.
End IterClosed.

Section Complete.
  Variable rules : list rule.

  Notation rule_at := (rule_at rules).
  Notation next_sym := (next_sym rules).
  Notation closure := (closure rules).
  Notation goto_kernel := (goto_kernel rules).
  Notation next_syms := (next_syms rules).

  Definition null_closed (N : list nat) : Prop :=
    forall r, In r rules -> forallb (sym_nullable N) (rhs r) = true -> In (lhs r) N.

  Definition nstep (N : list nat) (r : rule) : list nat :=
    if forallb (sym_nullable N) (rhs r) && negb (mem_nat (lhs r) N) then lhs r :: N else N.

  Lemma nullable_step_fold N : nullable_step rules N = fold_left nstep rules N.
  Proof. reflexivity. Qed.

  Lemma sym_nullable_mono N N' X : incl N N' -> sym_nullable N X = true -> sym_nullable N' X = true.
  Proof.
    destruct X; simpl; auto. intros HI H. apply mem_nat_In. apply HI. now apply mem_nat_In.
  Qed.

  Lemma forallb_nullable_mono N N' l : incl N N' ->
    forallb (sym_nullable N) l = true -> forallb (sym_nullable N') l = true.
  Proof.
    intros HI. rewrite !forallb_forall. intros H x Hx. eapply sym_nullable_mono; eauto.
  Qed.

  Lemma nstep_cases N r :
    (nstep N r = N /\ (forallb (sym_nullable N) (rhs r) = true -> In (lhs r) N)) \/
    (nstep N r = lhs r :: N /\ ~ In (lhs r) N /\ forallb (sym_nullable N) (rhs r) = true).
  Proof.
    unfold nstep. destruct (forallb (sym_nullable N) (rhs r)); simpl; [|left; split; [auto|discriminate]].
    destruct (mem_nat (lhs r) N) eqn:Em; simpl; [left|right].
    - split; auto. intros _. now apply mem_nat_In.
    - split; auto. split; auto. intros H. apply mem_nat_In in H. congruence.
  Qed.

  Lemma fold_nstep_props l : forall N,
    let N' := fold_left nstep l N in
    length N <= length N' /\
    (NoDup N -> NoDup N') /\
    (forall x, In x N' -> In x N \/ exists r, In r l /\ lhs r = x) /\
    (length N' = length N -> N' = N /\ forall r, In r l -> forallb (sym_nullable N) (rhs r) = true -> In (lhs r) N).
  Proof.
    induction l as [|r l IH]; intros N; simpl.
    - repeat split; auto. intros r [].
    - destruct (IH (nstep N r)) as (I2 & I3 & I4 & I5).
      destruct (nstep_cases N r) as [(E & Hc)|(E & Hn & _)]; rewrite E in *.
      + split; auto. split; auto. split.
        * intros x Hx. destruct (I4 x Hx) as [Hx'|(r' & Hr' & El)]; eauto.
        * intros HL. destruct (I5 HL) as (E2 & H2). split; auto. intros r' [<-|Hr']; auto.
      + simpl in I2. split; [lia|]. split; [intros ND; apply I3; now constructor|]. split; [|lia].
        intros x Hx. destruct (I4 x Hx) as [[<-|Hx']|(r' & Hr' & El)]; eauto.
  Qed.

  Definition lhss : list nat := map lhs rules.

  Lemma null_closed_fix N : null_closed N -> nullable_step rules N = N.
  Proof.
    intros C. rewrite nullable_step_fold.
    assert (G : forall l, incl l rules -> fold_left nstep l N = N).
    { induction l as [|r l IH]; intros HI; simpl; auto.
      destruct (nstep_cases N r) as [(-> & _)|(_ & Hn & Hf)].
      - apply IH. intros x Hx. apply HI. now right.
      - exfalso. apply Hn, C; auto. apply HI. now left. }
    apply G, incl_refl.
  Qed.

  Theorem nullable_set_closed : null_closed (nullable_set rules).
  Proof.
    unfold nullable_set.
    apply (iter_closed (nullable_step rules) null_closed lhss).
    - intros S ND HI. rewrite nullable_step_fold.
      destruct (fold_nstep_props rules S) as (I2 & I3 & I4 & I5). split; auto.
      intros x Hx. destruct (I4 x Hx) as [Hx'|(r & Hr & <-)]; auto.
      unfold lhss. now apply in_map.
    - intros S ND HL. rewrite nullable_step_fold in HL.
      destruct (fold_nstep_props rules S) as (I2 & I3 & I4 & I5). refine (proj2 (I5 _)). lia.
    - intros S C. now rewrite null_closed_fix.
    - constructor.
    - intros x [].
    - unfold lhss. rewrite map_length. simpl. lia.
  Qed.

  Theorem nullable_complete (tok : Type) (tm : nat -> tok -> bool) ss w :
    derives rules tok tm ss w -> w = [] -> forallb (nullable rules) ss = true.
  Proof.
    induction 1 as [| |a r ss w1 w2 Hin Hl Hd1 IH1 Hd2 IH2]; intros E; auto; try discriminate.
    apply app_eq_nil in E. destruct E as (-> & ->). simpl. rewrite (IH2 eq_refl), andb_true_r.
    unfold nullable. simpl. apply mem_nat_In. rewrite <- Hl.
    apply nullable_set_closed; [exact Hin | exact (IH1 eq_refl)].
  Qed.

  Corollary nullable_complete_nt (tok : Type) (tm : nat -> tok -> bool) a :
    derives rules tok tm [NT a] [] -> nullable rules (NT a) = true.
  Proof.
    intros H. pose proof (nullable_complete tok tm _ _ H eq_refl) as Hn. simpl in Hn.
    now rewrite andb_true_r in Hn.
  Qed.
End Complete.

Section Complete2.
  Variable rules : list rule.
  Notation rule_at := (rule_at rules).
  Notation next_sym := (next_sym rules).
  Notation closure := (closure rules).
  Notation goto_kernel := (goto_kernel rules).
  Notation next_syms := (next_syms rules).

  Definition reach_closed (S0 : list nat) : Prop := incl (first_nts_of rules S0) S0.

  Lemma first_nts_ext S0 S1 : (forall x, In x S0 <-> In x S1) -> first_nts_of rules S0 = first_nts_of rules S1.
  Proof.
    intros H. unfold first_nts_of. apply flat_map_ext. intros r.
    assert (E : mem_nat (lhs r) S0 = mem_nat (lhs r) S1).
    { destruct (mem_nat (lhs r) S0) eqn:E0, (mem_nat (lhs r) S1) eqn:E1; auto.
      - apply mem_nat_In, H, mem_nat_In in E0. congruence.
      - apply mem_nat_In, H, mem_nat_In in E1. congruence. }
    now rewrite E.
  Qed.

  Lemma reach_step_In S0 x : In x (reach_step rules S0) <-> In x S0 \/ In x (first_nts_of rules S0).
  Proof. unfold reach_step. rewrite dedup_nat_In, in_app_iff. tauto. Qed.

  Definition all_firsts : list nat :=
    flat_map (fun r => match rhs r with NT b :: _ => [b] | _ => [] end) rules.

  Lemma first_nts_incl S0 : incl (first_nts_of rules S0) all_firsts.
  Proof.
    intros x Hx. unfold first_nts_of in Hx. apply in_flat_map in Hx. destruct Hx as (r & Hr & Hx).
    destruct (mem_nat (lhs r) S0); [|contradiction].
    unfold all_firsts. apply in_flat_map. exists r. auto.
  Qed.

  Lemma all_firsts_length : length all_firsts <= length rules.
  Proof.
    unfold all_firsts. induction rules as [|r l IH]; simpl; auto.
    rewrite app_length. destruct (rhs r) as [|[t|b] rest]; simpl; lia.
  Qed.

  Theorem reach_is_closed a : reach_closed (reach rules a) /\ In a (reach rules a).
  Proof.
    split.
    - unfold reach.
      apply (iter_closed (reach_step rules) reach_closed (a :: all_firsts)).
      + intros S ND HI. split; [apply dedup_nat_NoDup|].
        intros x Hx. apply reach_step_In in Hx. destruct Hx as [Hx|Hx]; auto.
        right. exact (first_nts_incl S x Hx).
      + intros S ND Hle x Hx.
        assert (HI : incl S (reach_step rules S)) by (intros y Hy; apply reach_step_In; auto).
        apply (NoDup_length_incl ND Hle HI). apply reach_step_In. auto.
      + intros S C. unfold reach_closed in *.
        assert (E : first_nts_of rules (reach_step rules S) = first_nts_of rules S).
        { apply first_nts_ext. intros x. rewrite reach_step_In. split; auto. intros [H|H]; auto. }
        rewrite E. intros x Hx. apply reach_step_In. auto.
      + repeat constructor. intros [].
      + intros x [<-|[]]. now left.
      + simpl. pose proof all_firsts_length. lia.
    - unfold reach.
      assert (G : forall n S, In a S -> In a (iter n (reach_step rules) S)).
      { induction n; simpl; auto. intros S H. apply IHn. apply reach_step_In. auto. }
      apply G. now left.
  Qed.

  Theorem closure_predicts K it b i :
    In it (closure K) -> next_sym it = Some (NT b) -> i < length rules -> lhs (rule_at i) = b ->
    In (i, 0) (closure K).
  Proof.
    intros Hit Hn Hi Hl.
    assert (Hexp : forall kit a, In kit K -> next_sym kit = Some (NT a) -> In b (reach rules a) -> In (i, 0) (closure K)).
    { intros kit a Hk Hna Hb. apply closure_In. right. simpl. rewrite Hl. eauto 8. }
    apply closure_In in Hit. destruct Hit as [Hk|(H0 & Hv & kit & a & Hk & Hna & Hr)].
    - apply (Hexp it b Hk Hn). apply reach_is_closed.
    - apply (Hexp kit a Hk Hna). destruct (reach_is_closed a) as (C & _). apply C.
      apply first_nts_In. exists (rule_at (fst it)).
      unfold Automaton.next_sym in Hn. rewrite H0 in Hn.
      destruct (rhs (rule_at (fst it))) as [|X rest]; simpl in Hn; [discriminate|].
      inversion Hn; subst X. exists rest. auto using rule_at_In.
  Qed.

  Lemma add_new_complete ks : forall seen K, In K ks -> In K seen \/ In K (add_new ks seen).
  Proof.
    induction ks as [|K0 ks IH]; intros seen K H; [contradiction|]. simpl.
    destruct (existsb (kernel_eqb K0) seen) eqn:E.
    - destruct H as [<-|H]; auto. left. apply existsb_exists in E. destruct E as (y & Hy & Ey).
      apply kernel_eqb_eq in Ey. now subst.
    - destruct H as [<-|H]; [right; now left|].
      destruct (IH (seen ++ [K0]) K H) as [H1|H1].
      + apply in_app_iff in H1. destruct H1 as [H1|[<-|[]]]; auto. right; now left.
      + right; now right.
  Qed.

  Definition goto_closed (seen : list (list item)) (K : list item) : Prop :=
    forall X, In X (next_syms (closure K)) -> In (goto_kernel (closure K) X) seen.

  Lemma bfs_complete fuel : forall work seen ks,
    bfs rules fuel work seen = Some ks ->
    (forall K, In K seen -> In K work \/ goto_closed seen K) ->
    forall K, In K ks -> goto_closed ks K.
  Proof.
    induction fuel; intros work seen ks H Inv K HK; simpl in H.
    - destruct work; [|discriminate]. inversion H; subst. destruct (Inv K HK) as [[]|]; auto.
    - destruct work as [|K0 work'].
      + inversion H; subst. destruct (Inv K HK) as [[]|]; auto.
      + set (C := closure K0) in *.
        set (new := add_new (map (goto_kernel C) (next_syms C)) seen) in *.
        apply (IHfuel _ _ _ H); auto.
        intros K1 HK1. apply in_app_iff in HK1.
        assert (Hmono : forall K2, goto_closed seen K2 -> goto_closed (seen ++ new) K2).
        { intros K2 HC X HX. apply in_app_iff. left. now apply HC. }
        destruct HK1 as [HK1|HK1].
        * destruct (Inv K1 HK1) as [[<-|Hw]|Hc].
          -- right. intros X HX.
             destruct (add_new_complete (map (goto_kernel C) (next_syms C)) seen (goto_kernel C X)) as [H1|H1].
             ++ apply in_map. exact HX.
             ++ apply in_app_iff. now left.
             ++ apply in_app_iff. now right.
          -- left. apply in_app_iff. now left.
          -- right. now apply Hmono.
        * left. apply in_app_iff. now right.
  Qed.

  Section Built.
    Variable roots : list nat.
    Variable fuel : nat.
    Variable A : lr0.
    Hypothesis HA : build_lr0 rules roots fuel = Some A.
    Hypothesis ND_roots : NoDup roots.

    Theorem trans_total q X :
      q < nstates A -> In X (next_syms (closure_of A q)) -> exists q', trans A q X = Some q'.
    Proof.
      intros Hq HX. rewrite (trans_eq HA ND_roots).
      apply mem_sym_In in HX as Hm. rewrite Hm. apply (index_of_In _ kernel_eqb_eq).
      pose proof HA as HA'. unfold build_lr0 in HA'.
      destruct (bfs rules fuel (root_kernels roots) (root_kernels roots)) as [ks|] eqn:E; [|discriminate].
      assert (Ek : kernels A = ks) by (inversion HA'; reflexivity).
      rewrite (closure_of_nth HA ND_roots) in *. unfold nstates in Hq. rewrite Ek in *.
      apply (bfs_complete _ _ _ _ E); [now left|now apply nth_In|exact HX].
    Qed.
  End Built.
End Complete2.
