(* C04 layer A for the dynamic lexers: every family the instrumented model ExplicitDynBuild.idparse logs has the local
   form ExplicitDynSound.dfam_ok over the position graph of the run (token edges = Dyn.ends_of, ignore edges =
   Dyn_proofs.ign_edge), as an invariant of the run; hence the model's forest stores only trees that spell the input.
   Conversely the log holds the family of every completion between chart items, for every column the run builds. *)
From Coq Require Import List Arith Bool Lia.
From LV Require Import Cfg.Grammar Cfg.Analysis Cfg.Analysis_proofs Earley.Spec Earley.Alg Earley.Alg_proofs
  Earley.Dyn Earley.Dyn_proofs
  Forest.ExplicitBuild Forest.ExplicitBuild_proofs Forest.ExplicitAlgBuild Forest.ExplicitAlgBuild_proofs
  Forest.ExplicitDynBuild Forest.ExplicitDynSound Forest.ExplicitDynBuild_proofs.
Import ListNotations.

Lemma label_eqb_refl (a : nlabel nat) : label_eqb a a = true.
Proof. destruct a; simpl; rewrite ?Nat.eqb_refl, ?(proj2 (rule_eqb_spec r r) eq_refl); reflexivity. Qed.

Lemma label_eqb_eq (a b : nlabel nat) : label_eqb a b = true -> a = b.
Proof.
  destruct a, b; simpl; try discriminate; rewrite !andb_true_iff, !Nat.eqb_eq.
  - intros ((-> & ->) & ->). reflexivity.
  - intros (((Hr & ->) & ->) & ->). apply rule_eqb_spec in Hr. subst. reflexivity.
  - intros (((-> & ->) & ->) & ->). reflexivity.
Qed.

Definition set_end {tok} (l : nlabel tok) (j : nat) : nlabel tok :=
  match l with
  | NSym _ a i _ => NSym tok a i j
  | NInter _ r d i _ => NInter tok r d i j
  | NTok _ t x i _ => NTok tok t x i j
  end.
Definition lend {tok} (l : nlabel tok) : nat :=
  match l with NSym _ _ _ j => j | NInter _ _ _ _ j => j | NTok _ _ _ _ j => j end.

Lemma set_end_ilabel {tok} r d i e j : set_end (ilabel tok r d i e) j = ilabel tok r d i j.
Proof. unfold ilabel. destruct (Nat.eqb d (length (rhs r))); reflexivity. Qed.
Lemma lend_ilabel {tok} r d i e : lend (ilabel tok r d i e) = e.
Proof. unfold ilabel. destruct (Nat.eqb d (length (rhs r))); reflexivity. Qed.

Section Local.
  Variable G : grammar.
  Variable tokedge : nat -> nat -> nat -> Prop.
  Variable ign : nat -> nat -> Prop.
  Notation gap := (gap ign).
  Notation dfam_ok := (dfam_ok G tokedge ign).

  Lemma gap_snoc i m j : gap i m -> ign m j -> gap i j.
  Proof. intros H E. eapply gap_trans; eauto. econstructor; eauto. constructor. Qed.

  (* copying the children of a node to the node with a later end position reached through ignored text *)
  Lemma dfam_ok_extend lbl f j : dfam_ok lbl f -> gap (lend lbl) j -> dfam_ok (set_end lbl j) f.
  Proof.
    intros H Hg. destruct H as [r k e Hin Hr Hk|r s rn i m e e' Hin Hn Hg1 Hc Hg2|r d s rn i m e e' Hin Hd Hn Hc Hg2].
    - simpl in *. apply dok_empty; auto. eapply gap_trans; eauto.
    - rewrite lend_ilabel in Hg. rewrite set_end_ilabel. eapply dok_first; eauto. eapply gap_trans; eauto.
    - rewrite lend_ilabel in Hg. rewrite set_end_ilabel. eapply dok_next; eauto. eapply gap_trans; eauto.
  Qed.
End Local.

(* node.children is a sub-list of the calls with that label *)
Lemma dedup_children_in l : forall seen f, In f (dedup_children l seen) -> In f l.
Proof.
  induction l as [|g l IH]; simpl; intros seen f H; auto.
  destruct (existsb (same_children g) seen).
  - right. eapply IH; eauto.
  - destruct H as [<- |H]; auto. right. eapply IH; eauto.
Qed.

Lemma node_children_in acc lbl f : In f (node_children acc lbl) -> In f acc /\ fst f = lbl.
Proof.
  unfold node_children. intros H. apply dedup_children_in in H. apply filter_In in H. destruct H as (H1 & H2).
  split; auto. apply label_eqb_eq; auto.
Qed.

(* the loop over the text: an invariant I of its state gives R of the result if R holds of a run that stops in
   a state satisfying I, or at the end of the text after one more column *)
Section DynLoop.
  Variable G : grammar.
  Variable predictions : nat -> list rule.
  Variable start : nat.
  Variable rmatch : nat -> nat -> option nat.
  Variable rtrunc : nat -> nat -> nat -> option nat.
  Variable complete_lex : bool.
  Variable ignore : list nat.

  Notation idloop := (idloop G predictions start rmatch rtrunc complete_lex ignore).
  Notation column := (ipredict_and_complete predictions nat).

  Variable I : nat -> list (list item) -> list (list item) -> list item -> list item -> idmap -> list dfam -> Prop.
  Variable R : dresult * list dfam -> Prop.
  Hypothesis I_stop : forall i cols scans keys col scanq dm acc o,
    I i cols scans col scanq dm acc -> R (mkDRes o cols scans keys, acc).
  Hypothesis I_eof : forall i cols scans keys col scanq dm acc st acc1 o,
    I i cols scans col scanq dm acc -> column (pc_fuel G i) i cols col scanq acc = Some (st, acc1) ->
    R (mkDRes o (cols ++ [pc_col st]) (scans ++ [pc_scan st]) keys, acc1).
  Hypothesis I_next : forall i cols scans col scanq dm acc st acc1,
    I i cols scans col scanq dm acc -> column (pc_fuel G i) i cols col scanq acc = Some (st, acc1) ->
    let r := idscan start rmatch rtrunc complete_lex ignore i (pc_scan st) (pc_col st) dm acc1 in
    I (S i) (cols ++ [pc_col st]) (scans ++ [pc_scan st]) (fst (fst (fst r))) (snd (fst (fst r))) (snd (fst r)) (snd r).

  Lemma idloop_inv : forall rem i cols scans keys col scanq dm acc,
    I i cols scans col scanq dm acc -> R (idloop rem i cols scans keys col scanq dm acc).
  Proof.
    induction rem as [|rem IH]; intros i cols scans keys col scanq dm acc HI; cbn [ExplicitDynBuild.idloop];
      destruct (column (pc_fuel G i) i cols col scanq acc) as [[st acc1]|] eqn:E; try (eapply I_stop; eauto; fail).
    - eapply I_eof; eauto.
    - pose proof (I_next _ _ _ _ _ _ _ _ _ HI E) as HN. revert HN. cbv zeta.
      destruct (idscan start rmatch rtrunc complete_lex ignore i (pc_scan st) (pc_col st) dm acc1) as [[[nc nq] dm'] acc2].
      cbn [fst snd]. intros HN.
      destruct nc as [|z nc']; [destruct dm' as [|p dm'']; [destruct nq as [|z nq']|]|]; try (apply IH; exact HN).
      eapply I_stop; eauto.
  Qed.
End DynLoop.

Section DynFamilies.
  Variable G : grammar.
  Variable predictions : nat -> list rule.
  Variable start : nat.
  Variable n : nat.
  Variable rmatch : nat -> nat -> option nat.
  Variable rtrunc : nat -> nat -> nat -> option nat.
  Variable complete_lex : bool.
  Variable ignore : list nat.
  Hypothesis pred_sound : forall a r, In r (predictions a) -> In r G /\ lc_reach G a (lhs r).

  Notation ends := (ends_of rmatch rtrunc complete_lex).
  Notation gchart := (gchart G start rmatch rtrunc complete_lex ignore).
  Notation ign_edge := (ign_edge rmatch ignore).

  Definition run_tokedge (t i j : nat) : Prop := In j (ends t i).
  Notation gap := (gap ign_edge).
  Notation dfam_ok := (dfam_ok G run_tokedge ign_edge).

  Definition Pf (f : dfam) : Prop := dfam_ok (fst (span_fam f)) (snd (span_fam f)).

  (* an item with the dot at the start was predicted where it starts and then only carried over ignored text *)
  Lemma gchart_dot0 k x : gchart k x -> dot x = 0 -> gap (orig x) k.
  Proof.
    induction 1 as [r Hr Hl | k x a r Hc IH He Hr Hl | i k y x a Hy IHy Hey Hx IHx Hex Ho Hl
                   | k x t j Hc IH He Hj | k x t j Hc IH He Hj | k x j Hc IH Hs Hj]; cbn [dot orig advance]; intros Hd;
      try discriminate; try constructor.
    - eapply gap_snoc; eauto.
    - eapply gap_snoc; eauto.
  Qed.

  Lemma advance_ok m o s rn e :
    gchart m o -> expect o = Some s -> dchild_ok run_tokedge s (span_label rn) m e ->
    Pf (ilabel nat (irule o) (S (dot o)) (orig o) e, (irule o, inode nat (irule o) (dot o) (orig o) m, Some rn)).
  Proof.
    intros Ho He Hc. pose proof (gchart_rule _ _ _ _ _ _ _ _ Ho) as Hin. unfold expect in He.
    unfold Pf, span_fam. cbn [fst snd option_map]. rewrite span_label_ilabel, span_inode.
    destruct (dot o) as [|d'] eqn:Ed.
    - apply dok_first with (s := s) (m := m) (e := e); auto; [apply gchart_dot0; auto | constructor].
    - apply dok_next with (s := s) (e := e); auto; [lia | constructor].
  Qed.

  (* one add_family call of the completer / of the predictor's shortcut: originator o in column m, symbol a over m..i *)
  Lemma comp_fam_ok i m a o :
    gchart m o -> expect o = Some (NT a) -> Pf (comp_fam nat i m a o).
  Proof.
    intros Ho He. apply advance_ok with (s := NT a); auto. reflexivity.
  Qed.

  Lemma empty_fam_ok i x : gchart i x -> expect x = None -> dot x = 0 ->
    Pf (NSym nat (lhs (irule x)) (orig x) i, (irule x, None, None)).
  Proof.
    intros Hx E Ed. unfold Pf, span_fam. cbn [fst snd span_label option_map]. apply dok_empty.
    - apply (gchart_rule _ _ _ _ _ _ _ _ Hx).
    - unfold expect in E. rewrite Ed in E. destruct (rhs (irule x)); auto; discriminate.
    - apply gchart_dot0; auto.
  Qed.

  Definition scan_term (st : pc_state) : Prop := forall x, In x (pc_scan st) -> is_term_item x = true.

  Lemma ipc_loop_scan_term fuel i cols st acc st' acc' :
    scan_term st -> ipc_loop predictions nat fuel i cols st acc = Some (st', acc') -> scan_term st'.
  Proof.
    intros S H. apply (ipc_loop_inv predictions nat (fun st _ => scan_term st) i cols) in H; [tauto| |auto].
    intros col x work scan held _ S0. rewrite pc_step_eq.
    set (st0 := mkPC col work scan held).
    pose proof (ext_fold (step_items predictions i cols x st0) (step_base i x st0)) as E.
    destruct (step_base_same i x st0) as (_ & _ & B3 & _).
    intros y Hy. destruct (ext_scan_inv _ _ _ E y Hy) as [Hy'|(_ & Ht)]; auto.
    rewrite B3 in Hy'. apply S0. exact Hy'.
  Qed.

  (* one predict_and_complete call on sound inputs *)
  Lemma column_ok i cols col scanq acc st acc1 :
    (forall j x, In x (nth j cols []) -> gchart j x) -> (forall x, In x col -> gchart i x) ->
    (forall x, In x scanq -> gchart i x /\ is_term_item x = true) -> Forall Pf acc ->
    ipredict_and_complete predictions nat (pc_fuel G i) i cols col scanq acc = Some (st, acc1) ->
    (forall x, In x (pc_col st) -> gchart i x) /\
    (forall x, In x (pc_scan st) -> gchart i x /\ is_term_item x = true) /\ Forall Pf acc1.
  Proof.
    intros Hcols Hcol Hq Ha E.
    assert (T1 : scan_term st).
    { apply (ipc_loop_scan_term _ _ _ _ _ _ _) with (2 := E). intros x Hx. apply Hq; auto. }
    destruct (column_all G predictions nat pred_sound gchart
                (g_pred G start rmatch rtrunc complete_lex ignore) (g_comp G start rmatch rtrunc complete_lex ignore)
                Pf i cols Hcols (empty_fam_ok i) (fun m a o x Ho He _ _ _ _ => comp_fam_ok i m a o Ho He)
                col scanq acc st acc1) as ((S1 & S2 & _) & Ha1); auto.
    intros x Hx. apply Hq; auto.
  Qed.

  (* entries of delayed_matches *)
  Definition entry_ok (k : nat) (e : ientry) : Prop :=
    let '(x, i0, tk) := e in
    gchart i0 x /\
    match tk with
    | Some t => expect x = Some (T t) /\ In k (ends t i0)
    | None => ign_edge i0 k /\ (is_term_item x = true \/ is_solution start x = true)
    end.

  Lemma entry_realise k e : entry_ok k e -> gchart k (realise (erase_entry e)).
  Proof.
    destruct e as [[x i0] [t|]]; unfold entry_ok, realise, erase_entry; cbn [fst snd].
    - intros (Hc & He & Hk). eapply g_scan; eauto.
    - intros (Hc & He & Hk). eapply gchart_carry; eauto.
  Qed.

  Lemma entry_fams_ok i acc e : entry_ok (S i) e -> Forall Pf acc -> Forall Pf (entry_fams i acc e).
  Proof.
    destruct e as [[x i0] [t|]]; unfold entry_ok, entry_fams.
    - intros (Hc & He & Hk) _. constructor; [|constructor]. apply advance_ok with (s := T t); auto. split; auto.
    - intros (Hc & He & _) HP.
      assert (Hcopy : Forall Pf (map (fun f => (node_label x (S i), snd f)) (node_children acc (node_label x i0)))).
      { apply Forall_forall. intros f Hf. apply in_map_iff in Hf. destruct Hf as (f0 & <- & Hf0).
        apply node_children_in in Hf0. destruct Hf0 as (Hin & Hl).
        rewrite Forall_forall in HP. specialize (HP f0 Hin).
        unfold Pf in *. destruct f0 as [l0 [[r0 a0] b0]]. cbn [fst snd span_fam] in *. subst l0.
        unfold node_label in *. rewrite span_label_ilabel in *.
        rewrite <- (set_end_ilabel (irule x) (dot x) (orig x) i0 (S i)).
        apply dfam_ok_extend; auto. rewrite lend_ilabel. econstructor; eauto. constructor. }
      destruct (dot x); [destruct (expect x)|]; auto.
  Qed.

  Definition dm_ok (dm : idmap) : Prop := forall k e, In e (idm_get k dm) -> entry_ok k e.

  Lemma iemits_ok i Q C j e :
    (forall y, In y Q -> gchart i y /\ is_term_item y = true) -> (forall y, In y C -> gchart i y) ->
    iemits start rmatch rtrunc complete_lex ignore Q C i j e -> entry_ok j e.
  Proof.
    intros HQ HC [(x & t & Hx & He & Hj & ->)|(ig & Hig & Hm & [(x & Hx & ->)|(x & Hx & Hs & ->)])]; simpl.
    - repeat split; auto. apply HQ; auto.
    - destruct (HQ x Hx). repeat split; auto. exists ig; auto.
    - repeat split; auto. exists ig; auto.
  Qed.

  Lemma fold_dplace_in (f : ientry -> item) es acc :
    let r := fold_left (fun a e => dplace a (f e)) es acc in
    (forall y, In y (fst r) -> In y (fst acc) \/ (is_term_item y = false /\ exists e, In e es /\ y = f e)) /\
    (forall y, In y (snd r) -> In y (snd acc) \/ (is_term_item y = true /\ exists e, In e es /\ y = f e)).
  Proof.
    destruct acc as [c q]. cbn zeta. destruct (fold_left _ es (c, q)) as [c' q'] eqn:E.
    destruct (places_spec _ (fun e => Some (f e)) (fun a e => dplace_place a (f e)) _ _ _ _ _ E) as (_ & _ & _ & A4 & A5 & _).
    split; intros y Hy; [destruct (A4 y Hy) as [|(Ht & e & He & Hf)] | destruct (A5 y Hy) as [|(Ht & e & He & Hf)]]; auto;
      right; split; auto; exists e; inversion Hf; auto.
  Qed.

  Lemma idscan_ok i ts col dm acc :
    dm_ok dm -> (forall y, In y ts -> gchart i y /\ is_term_item y = true) -> (forall y, In y col -> gchart i y) -> Forall Pf acc ->
    let r := idscan start rmatch rtrunc complete_lex ignore i ts col dm acc in
    (forall y, In y (fst (fst (fst r))) -> gchart (S i) y) /\
    (forall y, In y (snd (fst (fst r))) -> gchart (S i) y /\ is_term_item y = true) /\
    dm_ok (snd (fst r)) /\ Forall Pf (snd r).
  Proof.
    intros Hd Hts Hcol Ha. unfold idscan. cbn zeta. cbn [fst snd].
    set (dm2 := fold_left (iscan_ignore start rmatch i ts col) ignore
                          (fold_left (iscan_item rmatch rtrunc complete_lex i) ts dm)).
    assert (Hd2 : dm_ok dm2).
    { intros j e He. apply idscan_dm_spec in He. destruct He as [He|He]; [apply Hd; auto | apply (iemits_ok i ts col); auto]. }
    destruct (fold_dplace_in (fun e => realise (erase_entry e)) (idm_get (S i) dm2) ([], [])) as (Pc & Pq).
    split; [|split; [|split]].
    - intros y Hy. destruct (Pc y Hy) as [[]|(_ & e & He & ->)]. apply entry_realise; auto.
    - intros y Hy. destruct (Pq y Hy) as [[]|(Ht & e & He & ->)]. split; auto. apply entry_realise; auto.
    - intros j e. rewrite idm_get_remove. destruct (Nat.eqb j (S i)); [intros []|apply Hd2].
    - apply fold_left_inv; auto. intros a e He Ha'. apply Forall_app. split; auto. apply entry_fams_ok; auto.
  Qed.

  Lemma initial_ok c0 q0 : initial predictions start = (c0, q0) ->
    (forall z, In z c0 -> gchart 0 z /\ is_term_item z = false) /\ (forall z, In z q0 -> gchart 0 z /\ is_term_item z = true).
  Proof.
    unfold initial. intros E.
    destruct (places_spec init_step (fun r => Some (mkItem r 0 0)) init_step_eq _ _ _ _ _ E) as (_ & _ & _ & A4 & A5 & _).
    assert (Hsrc : forall z, (exists r, In r (predictions start) /\ Some (mkItem r 0 0) = Some z) -> gchart 0 z).
    { intros z (r & Hr & Hz). inversion Hz; subst z. destruct (pred_sound _ _ Hr) as (Hg & Hreach).
      eapply gchart_init_lc; eauto. }
    split; intros z Hz; [destruct (A4 z Hz) as [[]|(Ht & Hex)] | destruct (A5 z Hz) as [[]|(Ht & Hex)]]; auto.
  Qed.

  Notation idloop := (idloop G predictions start rmatch rtrunc complete_lex ignore).

  Definition ok_inv (i : nat) (cols scans : list (list item)) (col scanq : list item) (dm : idmap) (acc : list dfam) : Prop :=
    length cols = i /\ (forall j x, In x (nth j cols []) -> gchart j x) /\
    (forall x, In x col -> gchart i x) /\ (forall x, In x scanq -> gchart i x /\ is_term_item x = true) /\
    dm_ok dm /\ Forall Pf acc.

  Lemma idloop_ok rem i cols scans keys col scanq dm acc :
    ok_inv i cols scans col scanq dm acc -> Forall Pf (snd (idloop rem i cols scans keys col scanq dm acc)).
  Proof.
    apply (idloop_inv G predictions start rmatch rtrunc complete_lex ignore ok_inv (fun r => Forall Pf (snd r))).
    - intros ? ? ? ? ? ? ? ? ? H. apply H.
    - intros j cs ss ? c q d a st a1 ? (_ & Hcols & Hcol & Hq & _ & Ha) E. apply (column_ok _ _ _ _ _ _ _ Hcols Hcol Hq Ha E).
    - intros j cs ss c q d a st a1 (Hlen & Hcols & Hcol & Hq & Hd & Ha) E.
      destruct (column_ok _ _ _ _ _ _ _ Hcols Hcol Hq Ha E) as (S1 & Hq1 & Ha1).
      destruct (idscan_ok j (pc_scan st) (pc_col st) d a1 Hd Hq1 S1 Ha1) as (R1 & R2 & R3 & R4).
      repeat split; auto; try apply R2; auto.
      + rewrite app_length. simpl. lia.
      + apply cols_sound_snoc; auto. rewrite Hlen. auto.
  Qed.

  Theorem dyn_families_sound :
    forall f, In f (snd (idparse G predictions start n rmatch rtrunc complete_lex ignore)) -> Pf f.
  Proof.
    apply Forall_forall. unfold idparse. cbn zeta. destruct (initial predictions start) as [c0 q0] eqn:E. cbn [fst snd].
    destruct (initial_ok _ _ E) as (Hc & Hq).
    apply idloop_ok. split; [reflexivity|]. split; [intros j x Hx; destruct j; destruct Hx|].
    split; [intros x Hx; apply Hc; auto|]. split; [exact Hq|]. split; [intros k e []|constructor].
  Qed.

End DynFamilies.

(* lark's configuration (prediction table = expand_rule) *)
Section DynModel.
  Variable G : grammar.
  Variable start n : nat.
  Variable rmatch : nat -> nat -> option nat.
  Variable rtrunc : nat -> nat -> nat -> option nat.
  Variable complete_lex : bool.
  Variable ignore : list nat.

  Notation tokedge := (run_tokedge rmatch rtrunc complete_lex).
  Notation ign := (ign_edge rmatch ignore).
  Notation log := (snd (idyn_parse G start n rmatch rtrunc complete_lex ignore)).

  Theorem idyn_families_sound f : In f log -> dfam_ok G tokedge ign (fst (span_fam f)) (snd (span_fam f)).
  Proof. apply (dyn_families_sound G (pred_lookup G (pred_table G)) start n rmatch rtrunc complete_lex ignore (pred_lookup_sound G)). Qed.

  (* every tree stored below a node of the model's forest spells the text of the node's span *)
  Theorem idyn_model_sound lbl ds :
    den span (in_forest span (map span_fam log)) lbl ds -> dsound G tokedge ign lbl ds.
  Proof.
    apply dyn_log_sound. apply idyn_families_sound.
  Qed.

  Corollary idyn_model_sound_root a i j ds :
    den span (in_forest span (map span_fam log)) (NSym span a i j) ds ->
    exists d, ds = [d] /\ dwfd G tokedge d (NT a) /\ gtiles tokedge ign i j (yield span d).
  Proof. intros H. exact (idyn_model_sound _ _ H). Qed.
End DynModel.

(* completeness, partial: the families of predict_and_complete.  Every completion between chart items of the
   position graph (and every empty completion) has its family in the log, for every column the run builds. *)
Section DynComplete.
  Variable G : grammar.
  Variable predictions : nat -> list rule.
  Variable start : nat.
  Variable n : nat.
  Variable rmatch : nat -> nat -> option nat.
  Variable rtrunc : nat -> nat -> nat -> option nat.
  Variable complete_lex : bool.
  Variable ignore : list nat.
  Hypothesis pred_sound : forall a r, In r (predictions a) -> In r G /\ lc_reach G a (lhs r).
  Hypothesis pred_direct : forall a r, In r G -> lhs r = a -> In r (predictions a).
  Hypothesis H_fwd : fwd rmatch rtrunc.

  Notation gchart := (gchart G start rmatch rtrunc complete_lex ignore).
  Notation idloop := (idloop G predictions start rmatch rtrunc complete_lex ignore).

  Lemma fold_entry_incl i es acc : incl acc (fold_left (fun a e => a ++ entry_fams i a e) es acc).
  Proof. apply fold_left_inv; [intros a e _ Ha; apply incl_appl, Ha | apply incl_refl]. Qed.

  Definition complete_inv (i : nat) (cols scans : list (list item)) (col scanq : list item) (dm : idmap)
             (acc : list dfam) : Prop :=
    length cols = i /\ (forall x, In x col -> is_term_item x = false) /\ (forall x, In x scanq -> is_term_item x = true) /\
    (forall k, k < i -> col_done nat (colf cols) acc k).

  Lemma idloop_complete rem i cols scans keys col scanq dm acc :
    complete_inv i cols scans col scanq dm acc ->
    let r := idloop rem i cols scans keys col scanq dm acc in
    forall k, k < length (d_cols (fst r)) -> col_done nat (colf (d_cols (fst r))) (snd r) k.
  Proof.
    apply (idloop_inv G predictions start rmatch rtrunc complete_lex ignore complete_inv
             (fun r => forall k, k < length (d_cols (fst r)) -> col_done nat (colf (d_cols (fst r))) (snd r) k)).
    - intros j ? ? ? ? ? ? ? ? (Hlc & _ & _ & Hold) k Hk. cbn [fst snd d_cols] in *. apply Hold. lia.
    - intros j cs ss ? c q d a st a1 ? (Hlc & Dc & Dq & Hold) E k Hk. cbn [fst snd d_cols] in *.
      apply (column_done G predictions nat pred_direct _ _ _ _ _ _ _ Hlc Dc Dq Hold E).
      rewrite app_length in Hk. simpl in Hk. lia.
    - intros j cs ss c q d a st a1 (Hlc & Dc & Dq & Hold) E.
      destruct (column_done G predictions nat pred_direct _ _ _ _ _ _ _ Hlc Dc Dq Hold E) as (_ & HC). unfold idscan. cbn zeta. cbn [fst snd].
      set (es := idm_get (S j) _).
      destruct (fold_dplace_in (fun e => realise (erase_entry e)) es ([], [])) as (Pc & Pq).
      split; [rewrite app_length; simpl; lia|]. split; [|split].
      + intros y Hy. destruct (Pc y Hy) as [[]|(Ht & _)]; auto.
      + intros y Hy. destruct (Pq y Hy) as [[]|(Ht & _)]; auto.
      + intros k Hk. apply (col_done_mono nat _ a1 _ _ k (fun m _ => eq_refl)); auto. apply fold_entry_incl.
  Qed.

  Notation ires := (idparse G predictions start n rmatch rtrunc complete_lex ignore).

  Lemma ires_gclosed : exists N, length (d_cols (fst ires)) = N /\
    gclosed G start rmatch rtrunc complete_lex ignore (colf (d_cols (fst ires))) (colf (d_scans (fst ires))) N.
  Proof.
    rewrite dyn_erasure.
    destruct (dparse_ok G predictions start n rmatch rtrunc complete_lex ignore pred_sound pred_direct H_fwd)
      as (N & L1 & _ & Cl & _). exists N; auto.
  Qed.

  Lemma ires_col_done k : k < length (d_cols (fst ires)) -> col_done nat (colf (d_cols (fst ires))) (snd ires) k.
  Proof.
    unfold idparse. cbn zeta. destruct (initial predictions start) as [c0 q0] eqn:E. cbn [fst snd].
    destruct (initial_ok G predictions start rmatch rtrunc complete_lex ignore pred_sound _ _ E) as (Hc & Hq).
    apply idloop_complete. split; auto.
    split; [intros z Hz; apply Hc; auto|]. split; [intros z Hz; apply Hq; auto | intros k0 Hk0; lia].
  Qed.

  Lemma ires_in_C k x : k < length (d_cols (fst ires)) -> gchart k x -> is_term_item x = false ->
    In x (colf (d_cols (fst ires)) k).
  Proof.
    intros Hk Hx Ht. destruct ires_gclosed as (N & HN & Cl).
    eapply ginT_C; [exact Cl | lia | eapply gclosed_complete; [exact H_fwd | exact Cl | exact Hx | lia] | exact Ht].
  Qed.
  Lemma ires_in_Q k x : k < length (d_cols (fst ires)) -> gchart k x -> is_term_item x = true ->
    In x (colf (d_scans (fst ires)) k).
  Proof.
    intros Hk Hx Ht. destruct ires_gclosed as (N & HN & Cl).
    eapply ginT_Q; [exact Cl | lia | eapply gclosed_complete; [exact H_fwd | exact Cl | exact Hx | lia] | exact Ht].
  Qed.

  Theorem dyn_completion_families i k y x a :
    gchart i y -> expect y = Some (NT a) -> gchart k x -> expect x = None -> orig x = i -> lhs (irule x) = a ->
    k < length (d_cols (fst ires)) -> In (comp_fam nat k i a y) (snd ires).
  Proof.
    intros Hy Hey Hx Hex Ho Hl Hk.
    assert (Hik : i <= k) by (apply gchart_wf' in Hx; auto; lia).
    assert (Hxc : In x (colf (d_cols (fst ires)) k)) by (apply ires_in_C; auto using term_item_None).
    assert (Hyc : In y (colf (d_cols (fst ires)) i)).
    { apply ires_in_C; [lia | auto | apply (term_item_NT _ _ Hey)]. }
    destruct (ires_col_done k Hk) as (_ & F2). specialize (F2 x y Hxc Hex). rewrite Ho, Hl in F2. apply F2; auto.
  Qed.

  Theorem dyn_empty_families k x :
    gchart k x -> expect x = None -> dot x = 0 -> k < length (d_cols (fst ires)) ->
    In (NSym nat (lhs (irule x)) (orig x) k, (irule x, None, None)) (snd ires).
  Proof.
    intros Hx Hex Hd Hk. destruct (ires_col_done k Hk) as (F1 & _). apply F1; auto.
    apply ires_in_C; auto using term_item_None.
  Qed.
End DynComplete.

Section DynModelComplete.
  Variable G : grammar.
  Variable start n : nat.
  Variable rmatch : nat -> nat -> option nat.
  Variable rtrunc : nat -> nat -> nat -> option nat.
  Variable complete_lex : bool.
  Variable ignore : list nat.
  Hypothesis H_fwd : fwd rmatch rtrunc.


  Notation gchart := (gchart G start rmatch rtrunc complete_lex ignore).
  Notation ires := (idyn_parse G start n rmatch rtrunc complete_lex ignore).

  Theorem idyn_completion_families i k y x a :
    gchart i y -> expect y = Some (NT a) -> gchart k x -> expect x = None -> orig x = i -> lhs (irule x) = a ->
    k < length (d_cols (fst ires)) -> In (comp_fam nat k i a y) (snd ires).
  Proof. apply (dyn_completion_families G (pred_lookup G (pred_table G)) start n rmatch rtrunc complete_lex ignore (pred_lookup_sound G) (pred_lookup_direct G) H_fwd). Qed.

  Theorem idyn_empty_families k x :
    gchart k x -> expect x = None -> dot x = 0 -> k < length (d_cols (fst ires)) ->
    In (NSym nat (lhs (irule x)) (orig x) k, (irule x, None, None)) (snd ires).
  Proof. apply (dyn_empty_families G (pred_lookup G (pred_table G)) start n rmatch rtrunc complete_lex ignore (pred_lookup_sound G) (pred_lookup_direct G) H_fwd). Qed.
End DynModelComplete.
