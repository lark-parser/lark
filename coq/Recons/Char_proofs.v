(* C19, character level: the token-level round trip (Earley tree matcher, graph resolve) composed with the lexer model.
   parse(reconstruct(t)) = t for the char-level parser "BasicLexer model, then the parser specification", under the
   decidable boundary condition bc_b on the written tokens (H_relex made explicit; F12 is a grammar where it fails). *)
From Coq Require Import ZArith String Ascii List Arith Bool.
From LV Require Import Base.Prelude Cfg.Grammar Lex.LexerBase Lex.Lexer Forest.ExplicitBuild Forest.ExplicitAlgBuild
     Recons.Recons Recons.ReconsCheck Recons.Recons_proofs Recons.Complete_proofs Recons.Roundtrip_proofs
     Recons.Text_proofs Recons.EarleyM Recons.EarleyM_proofs Recons.EarleyM_sel Recons.Relex Recons.Relex_proofs.
Import ListNotations.

Lemma lookup_lit_app a b n : lookup_lit (a ++ b) n = lit_subs (lookup_lit a) (lookup_lit b) n.
Proof.
  unfold lit_subs. induction a as [|[k v] a IH]; simpl; auto.
  destruct (Nat.eqb k n); auto.
Qed.

Section Char.
  Variable us : nat -> bool.
  Variable P : list prule.
  Hypothesis Hc : cls us P.
  Hypothesis Hx : cls_extra us P.
  Hypothesis Hplain : plain_roots us P.
  Variable order : nlabel stree -> list (family stree) -> list (family stree).
  Hypothesis order_perm : forall l fs f, In f (order l fs) <-> In f fs.
  Variable lit : nat -> option string.
  Hypothesis Hlit : forall r n, In r P -> In (Tm n true) (p_exp r) -> lit n <> None.
  Hypothesis Hdisj : forall r n fo, In r P -> In (Tm n fo) (p_exp r) ->
                     forall r', In r' P -> p_origin r' <> n /\ p_alias r' <> Some n.
  (* the lexer: regex oracle, re.compile oracle, name table, terminals, ignored names *)
  Variable m : term -> string -> nat -> option nat.
  Variable cok : list term -> bool.
  Variable names : list string.
  Variable terms : list term.
  Variable ign : list string.
  Variable L : blexer.
  Hypothesis HL : make_lexer m cok terms ign = Some L.

  Notation M := (M_earley us P (sel_graph order)).
  Notation lexm := (lex_model m cok names terms ign).

  Theorem char_roundtrip_earley start pr0 ds0 :
    wf P (DNode pr0 ds0) -> p_origin pr0 = start -> ~ In start (expand1s P) -> us start = false ->
    exists fuel toks,
      recon lit M fuel (shape us (DNode pr0 ds0)) = Ok toks /\
      (bc_b m names L (reconstruct_text toks) 0 EmptyString toks = true ->
       lexm (reconstruct_text toks) = Some toks /\
       parses_text us P lexm start (reconstruct_text toks) (shape us (DNode pr0 ds0)) /\
       (unambiguous P start ->
        forall t', parses_text us P lexm start (reconstruct_text toks) t' -> t' = shape us (DNode pr0 ds0))).
  Proof.
    intros Hwf Hs Hne Hus.
    destruct (recons_token_roundtrip_earley_graph order order_perm us P Hc Hx Hplain lit Hlit Hdisj
                start pr0 ds0 Hwf Hs Hne Hus) as (fuel & toks & Hr & Hp & Hu).
    exists fuel, toks. split; auto. intros Hb.
    pose proof (relex_model m cok names terms ign L toks HL Hb) as Hlex.
    split; auto. apply (parses_text_of_tokens us P lexm _ _ toks _ Hlex). auto.
  Qed.
End Char.
