(* Expected-terminal set of the executable Earley model = the `expects` set of the
   specification chart (ties C08's theorems over Earley/Spec.v to the model that is compared
   with lark's parser column by column). *)
From Coq Require Import List Arith Bool.
From LV Require Import Cfg.Grammar Earley.Spec Earley.Prefix Earley.Alg Earley.Alg_proofs.
Import ListNotations.

Definition items_at (res : result) (k : nat) : list item :=
  nth k (r_cols res) [] ++ nth k (r_scans res) [].

Definition expected_at (res : result) (k : nat) : list nat :=
  flat_map (fun x => match expect x with Some (T t) => [t] | _ => [] end) (items_at res k).

Theorem expected_at_exact G start toks k t :
  k < length (r_cols (earley_parse G start toks)) ->
  (In t (expected_at (earley_parse G start toks) k) <-> expects G nat Nat.eqb start toks k t).
Proof.
  intros Hk. unfold expected_at, items_at. rewrite expected_In. split.
  - intros (x & Hin & He). apply in_app_or in Hin.
    assert (Hc : chart G nat Nat.eqb toks start k x).
    { apply (earley_trace_is_chart G start toks k x Hk). unfold colf. tauto. }
    destruct x as [r d j]. exists r, d, j. split; auto.
  - intros (r & d & j & Hc & Hn).
    apply (earley_trace_is_chart G start toks k (mkItem r d j) Hk) in Hc.
    exists (mkItem r d j). split; [apply in_or_app; unfold colf in Hc; tauto|exact Hn].
Qed.

(* comparison used by the C08 harness: (rules, start, consumed tokens, observed expected set) *)
Definition exp_case := (list (nat * list symbol) * nat * list nat * list nat)%type.

Definition mk_grammar (l : list (nat * list symbol)) : grammar := map (fun p => mkRule (fst p) (snd p)) l.

Definition nat_subset (a b : list nat) : bool := forallb (fun x => existsb (Nat.eqb x) b) a.

Definition expected_check (c : exp_case) : bool :=
  let '(rules, start, toks, obs) := c in
  let res := earley_parse (mk_grammar rules) start toks in
  let k := length toks in
  Nat.ltb k (length (r_cols res)) &&
  nat_subset (expected_at res k) obs && nat_subset obs (expected_at res k).
