(* Forest/Sppf.v: the induction principle for forests (a symbol node from its packed children, a packed node from
   its two optional children), what [derivs_p] and [wfb] are at a node, and the product [cross]. *)
From Coq Require Import ZArith List Bool String Lia.
From LV Require Import Forest.Sppf.
Import ListNotations.

Section SymInd.
  Variable P : sym -> Prop.
  Variable Q : packed -> Prop.
  Hypothesis HTok : forall a b c, P (TokLeaf a b c).
  Hypothesis HSym : forall l fams, Forall Q fams -> P (Sym l fams).
  Hypothesis HPack : forall r lft rgt,
      (forall s, lft = Some s -> P s) -> (forall s, rgt = Some s -> P s) -> Q (Pack r lft rgt).

  Fixpoint sym_ind2 (s : sym) : P s :=
    match s with
    | TokLeaf a b c => HTok a b c
    | Sym l fams =>
        HSym l fams ((fix go (fs : list packed) : Forall Q fs :=
                        match fs with
                        | [] => Forall_nil Q
                        | p :: r => Forall_cons p (packed_ind2 p) (go r)
                        end) fams)
    end
  with packed_ind2 (p : packed) : Q p :=
    match p with
    | Pack r lft rgt =>
        HPack r lft rgt
          (match lft as o return forall s, o = Some s -> P s with
           | None => fun s H => match H with eq_refl => I end
           | Some s0 => fun s H => match H in _ = y return match y with Some s' => P s' | None => True end
                                   with eq_refl => sym_ind2 s0 end
           end)
          (match rgt as o return forall s, o = Some s -> P s with
           | None => fun s H => match H with eq_refl => I end
           | Some s0 => fun s H => match H in _ = y return match y with Some s' => P s' | None => True end
                                   with eq_refl => sym_ind2 s0 end
           end)
    end.

  Lemma sym_packed_ind : (forall s, P s) /\ (forall p, Q p).
  Proof. split; [exact sym_ind2 | exact packed_ind2]. Qed.
End SymInd.

Lemma derivs_pack r lft rgt : derivs_p (Pack r lft rgt) = cross (derivs_o lft) (derivs_o rgt).
Proof. reflexivity. Qed.

Lemma wfb_sym l fams : wfb (Sym l fams) = true -> fams <> [] /\ Forall (fun p => wfb_p p = true) fams.
Proof.
  cbn [wfb]. intros H. apply andb_true_iff in H. destruct H as [H1 H2]. split.
  - destruct fams; [discriminate|congruence].
  - apply Forall_forall. apply forallb_forall. exact H2.
Qed.

Lemma wfb_pack r lft rgt : wfb_p (Pack r lft rgt) = true ->
  (forall s, lft = Some s -> wfb s = true) /\ (forall s, rgt = Some s -> wfb s = true).
Proof.
  cbn [wfb_p]. intros H. apply andb_true_iff in H. destruct H as [H1 H2].
  split; intros s ->; assumption.
Qed.

Lemma in_cross {A} (l r : list A) L R : In l L -> In r R -> In (l ++ r) (cross L R).
Proof.
  intros Hl Hr. unfold cross. apply in_flat_map. exists l. split; [exact Hl|]. apply in_map. exact Hr.
Qed.

Lemma in_cross_inv {A} (x : list A) L R :
  In x (cross L R) -> exists l r, x = l ++ r /\ In l L /\ In r R.
Proof.
  unfold cross. intros H. apply in_flat_map in H. destruct H as [l [Hl H]].
  apply in_map_iff in H. destruct H as [r [<- Hr]]. exists l, r. auto.
Qed.

Lemma map_cross {A B} (h : A -> B) L R :
  cross (map (map h) L) (map (map h) R) = map (map h) (cross L R).
Proof.
  unfold cross. induction L as [|l L IH]; [reflexivity|].
  cbn [map flat_map]. rewrite map_app, IH. f_equal.
  rewrite !map_map. apply map_ext. intros r. rewrite map_app. reflexivity.
Qed.

Lemma cross_app_l {A} (L1 L2 R : list (list A)) : cross (L1 ++ L2) R = cross L1 R ++ cross L2 R.
Proof. unfold cross. apply flat_map_app. Qed.

Lemma cross_nil_r {A} (L : list (list A)) : cross L [] = [].
Proof. unfold cross. induction L as [|l L IH]; [reflexivity|]. cbn. exact IH. Qed.

Lemma cross_map_cons {A} (x : A) L R : cross (map (cons x) L) R = map (cons x) (cross L R).
Proof.
  unfold cross. induction L as [|l L IH]; [reflexivity|]. cbn [map flat_map]. rewrite map_app, IH. f_equal.
  rewrite map_map. reflexivity.
Qed.

Lemma cross_unit_l {A} (R : list (list A)) : cross [[]] R = R.
Proof. unfold cross. cbn. rewrite app_nil_r. apply map_id. Qed.

Lemma cross_unit_r {A} (L : list (list A)) : cross L [[]] = L.
Proof.
  unfold cross. induction L as [|l L IH]; cbn; [reflexivity|]. rewrite app_nil_r. f_equal. exact IH.
Qed.
