(* C04 layer A for the dynamic lexers - tree-level exactness of the instrumented model ExplicitDynBuild.idyn_parse:
   every derivation tree of the start symbol over the run's position graph (leaves = token edges, leaf spans joined by
   ignore paths tile 0..n) is stored below the root (start, 0, n), and nothing else is.
   Assembly of the family-level facts:
     idyn_families_sound        every logged family has the local form            (soundness, ExplicitDynFamilies_proofs)
     idyn_completion_families / idyn_empty_families                               (ExplicitDynFamilies_proofs)
     idyn_token_families / idyn_carry_copies                                      (ExplicitDynComplete_proofs)
   plus packed_dedup_safe: two families of one node with equal (left, right) have the same rule, so the copy the
   carry-over makes of "the first family per (left, right)" (PackedNode equality ignores the rule) loses nothing.
   A tree is walked left to right along the chart: an item waiting for a terminal is carried along the ignore path in
   front of the token (g_carry; the node's families are copied at every step), the token family advances it; a
   non-terminal child is predicted where the item stands, built recursively and completed; the finished start item is
   carried over the trailing ignore path (g_carry_start). *)
From Coq Require Import List Arith Bool Lia.
From LV Require Import Cfg.Grammar Cfg.Analysis Cfg.Analysis_proofs Earley.Spec Earley.Alg Earley.Alg_proofs
  Earley.Dyn Earley.Dyn_proofs
  Forest.ExplicitBuild Forest.ExplicitBuild_proofs Forest.ExplicitAlgBuild Forest.ExplicitAlgBuild_proofs
  Forest.ExplicitDynBuild Forest.ExplicitDynSound Forest.ExplicitDynBuild_proofs Forest.ExplicitDynFamilies_proofs
  Forest.ExplicitDynComplete_proofs.
Import ListNotations.

Lemma olabel_eqb_eq (a b : option (nlabel nat)) : olabel_eqb a b = true -> a = b.
Proof.
  destruct a as [x|], b as [y|]; simpl; try discriminate; auto.
  intros H. apply label_eqb_eq in H. subst. reflexivity.
Qed.

Lemma span_label_ilabel_inv l r d i k : span_label l = ilabel span r d i k -> l = ilabel nat r d i k.
Proof.
  unfold ilabel. destruct l as [a i0 j0|r0 d0 i0 j0|t x i0 j0]; destruct (Nat.eqb d (length (rhs r))); simpl;
    intros E; inversion E; subst; reflexivity.
Qed.

Lemma pack_ilabel {tok} r d i k j r' (ds : list (dt tok)) :
  pack tok (ilabel tok r d i k) r' ds = pack tok (ilabel tok r d i j) r' ds.
Proof. unfold ilabel. destruct (Nat.eqb d (length (rhs r))); reflexivity. Qed.

Lemma rule_ext (r1 r2 : rule) : lhs r1 = lhs r2 -> rhs r1 = rhs r2 -> r1 = r2.
Proof. destruct r1, r2; simpl; intros -> ->; reflexivity. Qed.

Lemma dwfd_node_inv G te r ks s : dwfd G te (DN span r ks) s -> s = NT (lhs r) /\ In r G /\ Forall2 (dwfd G te) ks (rhs r).
Proof. inversion 1; auto. Qed.
Lemma dwfd_leaf_inv G te t x s : dwfd G te (DL span t x) s -> s = T t /\ te t (fst x) (snd x).
Proof. inversion 1; auto. Qed.

Section Unique.
  Variable G : grammar.
  Variable tokedge : nat -> nat -> nat -> Prop.
  Variable ign : nat -> nat -> Prop.
  Notation dfam_ok := (dfam_ok G tokedge ign).

  Lemma dchild_sym s1 s2 rn m1 e1 m2 e2 :
    dchild_ok tokedge s1 rn m1 e1 -> dchild_ok tokedge s2 rn m2 e2 -> s1 = s2.
  Proof.
    destruct s1 as [t1|a1], s2 as [t2|a2]; simpl.
    - intros (-> & _) (E & _). inversion E; reflexivity.
    - intros (-> & _) E. discriminate.
    - intros -> (E & _). discriminate.
    - intros -> E. inversion E; reflexivity.
  Qed.

  Lemma ilabel_first_inj r1 r2 s i j i' j' :
    nth_error (rhs r1) 0 = Some s -> nth_error (rhs r2) 0 = Some s ->
    ilabel span r1 1 i j = ilabel span r2 1 i' j' -> r1 = r2.
  Proof.
    intros H1 H2. unfold ilabel.
    destruct (Nat.eqb_spec 1 (length (rhs r1))) as [L1|L1], (Nat.eqb_spec 1 (length (rhs r2))) as [L2|L2];
      intros E; inversion E; auto.
    apply rule_ext; auto.
    destruct (rhs r1) as [|x1 [|y1 l1]], (rhs r2) as [|x2 [|y2 l2]]; simpl in *; try discriminate. congruence.
  Qed.

  Theorem packed_dedup_safe lbl r1 r2 l rt : dfam_ok lbl (r1, l, rt) -> dfam_ok lbl (r2, l, rt) -> r1 = r2.
  Proof.
    intros H1 H2.
    inversion H1 as [ra ka ja Hina Hra Hga|ra sa rna ia ma ea ja Hina Hna Hga Hca Hga2|ra da sa rna ia ma ea ja Hina Hda Hna Hca Hga2];
      inversion H2 as [rb kb jb Hinb Hrb Hgb|rb sb rnb ib mb eb jb Hinb Hnb Hgb Hcb Hgb2|rb db sb rnb ib mb eb jb Hinb Hdb Hnb Hcb Hgb2];
      subst; try discriminate.
    - match goal with E : NSym _ _ _ _ = NSym _ _ _ _ |- _ => inversion E end. apply rule_ext; congruence.
    - match goal with E : Some _ = Some _ |- _ => inversion E; subst end.
      assert (sa = sb) by (eapply dchild_sym; eauto). subst sb.
      eapply ilabel_first_inj; eauto.
    - match goal with E : Some (NInter _ _ _ _ _) = Some _ |- _ => inversion E; subst end. reflexivity.
  Qed.
End Unique.

Section DynExact.
  Variable G : grammar.
  Variable start n : nat.
  Variable rmatch : nat -> nat -> option nat.
  Variable rtrunc : nat -> nat -> nat -> option nat.
  Variable complete_lex : bool.
  Variable ignore : list nat.
  Hypothesis H_fwd : fwd rmatch rtrunc.

  Notation tokedge := (run_tokedge rmatch rtrunc complete_lex).
  Notation ign := (ign_edge rmatch ignore).
  Notation gap := (gap ign).
  Notation gtiles := (gtiles tokedge ign).
  Notation dwfd := (dwfd G tokedge).
  Notation gchart := (gchart G start rmatch rtrunc complete_lex ignore).
  Notation ires := (idyn_parse G start n rmatch rtrunc complete_lex ignore).
  Notation log := (snd ires).
  Notation F := (in_forest span (map span_fam log)).
  Notation den := (den span F).
  Notation den_opt := (den_opt span F).

  Lemma F_in l r a b : In (l, (r, a, b)) log -> F (span_label l) (r, option_map span_label a, option_map span_label b).
  Proof. intros H. unfold in_forest. apply in_map_iff. exists (l, (r, a, b)). split; auto. Qed.

  Definition built : Prop := length (d_cols (fst ires)) = S n.

  Lemma expect_mk r d i : expect (mkItem r d i) = nth_error (rhs r) d.
  Proof. reflexivity. Qed.

  (* the three kinds of add_family call between items of the chart, as families of the forest of a run that built
     all columns *)
  Lemma F_empty r i : built -> i <= n -> gchart i (mkItem r 0 i) -> rhs r = [] ->
    F (NSym span (lhs r) i i) (r, None, None).
  Proof.
    intros Hb Hi Hc Hr.
    pose proof (idyn_empty_families G start n rmatch rtrunc complete_lex ignore H_fwd i (mkItem r 0 i) Hc) as Hf.
    rewrite expect_mk, Hr, Hb in Hf. apply F_in in Hf; auto. lia.
  Qed.

  Lemma F_token r d i p t e : built -> e <= n -> gchart p (mkItem r d i) -> nth_error (rhs r) d = Some (T t) ->
    tokedge t p e ->
    F (ilabel span r (S d) i e)
      (r, match d with 0 => None | S _ => Some (NInter span r d i p) end, Some (NTok span t (p, e) p e)).
  Proof.
    intros Hb He Hc Hn Ht.
    pose proof (idyn_token_families G start n rmatch rtrunc complete_lex ignore H_fwd p _ t e Hc Hn Ht) as Hf.
    rewrite Hb in Hf. apply F_in in Hf; [|lia]. rewrite span_label_ilabel, span_inode in Hf. exact Hf.
  Qed.

  Lemma F_comp r d i m r' e : built -> e <= n -> gchart m (mkItem r d i) -> nth_error (rhs r) d = Some (NT (lhs r')) ->
    gchart e (mkItem r' (length (rhs r')) m) ->
    F (ilabel span r (S d) i e)
      (r, match d with 0 => None | S _ => Some (NInter span r d i m) end, Some (NSym span (lhs r') m e)).
  Proof.
    intros Hb He Hc Hn Hc'.
    pose proof (idyn_completion_families G start n rmatch rtrunc complete_lex ignore H_fwd m e _ _ (lhs r')
                  Hc Hn Hc' (expect_complete r' m) eq_refl eq_refl) as Hf.
    rewrite Hb in Hf. apply F_in in Hf; [|lia]. rewrite span_label_ilabel, span_inode in Hf. exact Hf.
  Qed.

  Lemma gap_le i j : gap i j -> i <= j.
  Proof.
    induction 1 as [i|i m j He Hg IH]; auto.
    pose proof (ign_edge_fwd _ _ _ H_fwd _ _ He). lia.
  Qed.

  Lemma gtiles_le u : forall i j, gtiles i j u -> i <= j.
  Proof.
    induction u as [|[p e] u IH]; intros i j H; inversion H; subst.
    - apply gap_le; auto.
    - match goal with Hg : gap i p, He : exists t, tokedge t p e, Ht : gtiles e j u |- _ =>
        apply gap_le in Hg; apply IH in Ht; destruct He as (t & He); pose proof (ends_fwd _ _ _ H_fwd _ _ _ He) end.
      lia.
  Qed.

  Definition slabel (x : item) (k : nat) : nlabel span := ilabel span (irule x) (dot x) (orig x) k.

  Lemma slabel_node x k : span_label (node_label x k) = slabel x k.
  Proof. unfold node_label, slabel. apply span_label_ilabel. Qed.

  Definition carried (x : item) : Prop := is_term_item x = true \/ is_solution start x = true.

  Lemma gchart_gap k p x : gap k p -> gchart k x -> carried x -> gchart p x.
  Proof.
    induction 1 as [k|k m p He Hg IH]; auto. intros Hx Hc. apply IH; auto.
    exact (gchart_carry G start rmatch rtrunc complete_lex ignore k m x Hx He Hc).
  Qed.

  Lemma F_carry x k j r l rt :
    built -> gchart k x -> carried x -> ign k j -> j <= n -> has_node x ->
    F (slabel x k) (r, l, rt) -> F (slabel x j) (r, l, rt).
  Proof.
    intros Hcols Hx Hkind He Hj Hn HF. unfold in_forest in HF. apply in_map_iff in HF.
    destruct HF as ([l0 [[r0 a0] b0]] & E & Hf0). cbn [span_fam] in E. inversion E as [[E1 E2 E3 E4]]. subst r0.
    rewrite <- slabel_node in E1. unfold node_label in E1. rewrite span_label_ilabel in E1.
    apply span_label_ilabel_inv in E1. fold (node_label x k) in E1. subst l0.
    destruct (idyn_carry_copies G start n rmatch rtrunc complete_lex ignore H_fwd k x j _ Hx Hkind He
                ltac:(rewrite Hcols; lia) Hn Hf0 eq_refl) as ([lg [[rg ag] bg]] & Hlg & Hsame & Hcopy).
    cbn [fst snd] in Hlg, Hcopy. subst lg.
    unfold same_children in Hsame. apply andb_true_iff in Hsame. destruct Hsame as (Sa & Sb).
    apply olabel_eqb_eq in Sa. apply olabel_eqb_eq in Sb. subst ag bg.
    assert (Er : rg = r).
    { pose proof (idyn_families_sound G start n rmatch rtrunc complete_lex ignore _ Hcopy) as Hok1.
      pose proof (idyn_families_sound G start n rmatch rtrunc complete_lex ignore _ Hf0) as Hok0.
      cbn [span_fam fst snd] in Hok0, Hok1. rewrite slabel_node in Hok0, Hok1.
      apply (dfam_ok_extend G tokedge ign _ _ j) in Hok0.
      - unfold slabel in Hok0. rewrite set_end_ilabel in Hok0.
        eapply packed_dedup_safe; [exact Hok1|exact Hok0].
      - unfold slabel. rewrite lend_ilabel. econstructor; [exact He|constructor]. }
    subst rg.
    apply F_in in Hcopy. rewrite slabel_node in Hcopy. exact Hcopy.
  Qed.

  Lemma den_carry x k j ds :
    built -> gchart k x -> carried x -> ign k j -> j <= n -> has_node x ->
    den (slabel x k) ds -> den (slabel x j) ds.
  Proof.
    intros Hb Hx Hkind He Hj Hn Hd. remember (slabel x k) as lbl eqn:El.
    destruct Hd as [t y i0 j0|lbl r l rt ds1 ds2 HF H1 H2].
    - exfalso. unfold slabel, ilabel in El. destruct (Nat.eqb (dot x) (length (rhs (irule x)))); discriminate.
    - subst lbl. unfold slabel at 2. rewrite (pack_ilabel _ _ _ k j). fold (slabel x j).
      eapply den_fam; eauto. eapply F_carry; eauto.
  Qed.

  Lemma den_gap k p x : built -> gap k p -> p <= n -> gchart k x -> carried x -> has_node x ->
    forall ds, den (slabel x k) ds -> den (slabel x p) ds.
  Proof.
    intros Hb. induction 1 as [k|k m p He Hg IH]; auto. intros Hp Hx Hc Hn ds H.
    assert (Hm : m <= n) by (apply gap_le in Hg; lia).
    apply IH; auto.
    - apply (gchart_gap k m); auto. econstructor; [exact He|constructor].
    - apply (den_carry x k m ds); auto.
  Qed.

  Definition expects (i a : nat) : Prop :=
    (exists y, gchart i y /\ expect y = Some (NT a)) \/ (a = start /\ i = 0).

  Lemma expects_pred i a r : expects i a -> In r G -> lhs r = a -> gchart i (mkItem r 0 i).
  Proof.
    intros [(y & Hy & He)|(-> & ->)] Hin Hl.
    - eapply g_pred; eauto.
    - apply g_init; auto.
  Qed.

  (* what completeness says about one derivation tree: it occupies a prefix of the tiling *)
  Definition CT (j : nat) (d : dt span) : Prop :=
    forall a i v, dwfd d (NT a) -> gtiles i j (yield span d ++ v) -> expects i a ->
    exists r ks m, d = DN span r ks /\ gchart m (mkItem r (length (rhs r)) i) /\ gtiles m j v /\
                   (built -> den (NSym span a i m) [d]).

  Lemma steps j r i : j <= n -> In r G ->
    forall post pre m v,
      Forall (CT j) post ->
      Forall2 dwfd post (skipn (length pre) (rhs r)) ->
      gtiles m j (yields span post ++ v) ->
      gchart m (mkItem r (length pre) i) ->
      (length pre = 0 -> m = i) ->
      (built -> 1 <= length pre -> den (ilabel span r (length pre) i m) (pack span (ilabel span r (length pre) i m) r pre)) ->
      exists m', gchart m' (mkItem r (length (rhs r)) i) /\ gtiles m' j v /\
                 (built -> den (NSym span (lhs r) i m') [DN span r (pre ++ post)]).
  Proof.
    intros Hjn Hin post. induction post as [|k post IH]; intros pre m v HC HF Ht Hch H0 Hden.
    - (* all children consumed *)
      pose proof (Forall2_skipn_nil _ _ _ HF) as Hlen.
      pose proof (gchart_wf _ _ _ _ _ _ H_fwd _ _ Hch) as (_ & Hle & _). cbn [irule dot] in Hle.
      assert (Eq : length pre = length (rhs r)) by lia.
      exists m. rewrite <- Eq. split; auto. split; [exact Ht|]. intros Hb. rewrite app_nil_r.
      assert (Hmn : m <= n) by (apply gtiles_le in Ht; lia).
      destruct (length pre) as [|dd'] eqn:El.
      + destruct pre; [|discriminate]. rewrite (H0 eq_refl) in *.
        assert (Hr : rhs r = []) by (destruct (rhs r); auto; discriminate).
        change [DN span r []] with (pack span (NSym span (lhs r) i i) r ([] ++ [])).
        eapply den_fam; [apply F_empty; auto | constructor | constructor].
      + specialize (Hden Hb ltac:(lia)). unfold ilabel in Hden. rewrite Eq, Nat.eqb_refl in Hden. exact Hden.
    - (* one more child *)
      destruct (Forall2_skipn_cons _ _ _ _ _ HF) as (s & Hn & Hk & HF').
      pose proof (nth_error_lt _ _ _ Hn) as Hlt.
      assert (Elen : length (pre ++ [k]) = S (length pre)) by (rewrite app_length; simpl; lia).
      rewrite <- Elen in HF'.
      inversion HC as [|? ? HCk HC']; subst.
      unfold yields in Ht. simpl in Ht. fold (yields span post) in Ht. rewrite <- app_assoc in Ht.
      replace (pre ++ k :: post) with ((pre ++ [k]) ++ post) by (rewrite <- app_assoc; reflexivity).
      assert (Hex : expect (mkItem r (length pre) i) = Some s) by (rewrite expect_mk; auto).
      destruct s as [t|b].
      + (* terminal: carried along the ignore path in front of the token, then the scanner *)
        inversion Hk as [t0 p e Hte|]; subst. simpl in Ht.
        inversion Ht as [|? ? ? ? ? Hg _ Ht']; subst.
        assert (Hen : e <= n) by (apply gtiles_le in Ht'; lia).
        assert (Hpe : p < e) by (eapply ends_fwd; eauto).
        assert (Hcar : carried (mkItem r (length pre) i)) by (left; apply (term_item_T _ _ Hex)).
        pose proof (gchart_gap _ _ _ Hg Hch Hcar) as Hchp.
        apply (IH (pre ++ [DL span t (p, e)]) e v); auto.
        * rewrite Elen. exact (g_scan _ _ _ _ _ _ _ _ _ _ Hchp Hex Hte).
        * rewrite Elen. discriminate.
        * intros Hb _. rewrite Elen.
          assert (Hleft : 1 <= length pre -> den (ilabel span r (length pre) i p)
                                                 (pack span (ilabel span r (length pre) i p) r pre)).
          { intros H1. rewrite (pack_ilabel _ _ _ p m).
            apply (den_gap m p (mkItem r (length pre) i) Hb Hg); auto; [lia|]. unfold has_node. cbn [dot]. lia. }
          eapply den_fam; [apply (F_token r (length pre) i p t e); auto | apply den_opt_inode; auto | constructor; constructor].
      + (* non-terminal: predicted where the item stands, built recursively, completed *)
        inversion Hk as [|r' ks' Hin' HF'k]; subst.
        destruct (HCk (lhs r') m (yields span post ++ v) Hk Ht) as (r2 & ks2 & m' & E2 & Hc' & Ht2 & Hd').
        { left. eauto. }
        inversion E2; subst r2 ks2.
        assert (Hm'n : m' <= n) by (apply gtiles_le in Ht2; lia).
        apply (IH (pre ++ [DN span r' ks']) m' v); auto.
        * rewrite Elen. exact (g_comp _ _ _ _ _ _ _ _ _ _ _ Hch Hex Hc' (expect_complete r' m) eq_refl eq_refl).
        * rewrite Elen. discriminate.
        * intros Hb _. rewrite Elen.
          eapply den_fam; [apply (F_comp r (length pre) i m r' m'); auto | apply den_opt_inode; auto | constructor; apply Hd'; auto].
  Qed.

  Lemma CT_all j d : j <= n -> CT j d.
  Proof.
    intros Hj. induction d as [t x|r ks IH] using (dt_ind2 span); intros a i v Hw Ht Hex.
    - inversion Hw.
    - inversion Hw as [|? ? Hin HF]; subst. exists r, ks.
      rewrite yield_DN in Ht.
      pose proof (expects_pred _ _ _ Hex Hin eq_refl) as Hc.
      destruct (steps j r i Hj Hin ks [] i v IH) as (m' & A & B & C); auto.
      + simpl. intros; lia.
      + exists m'. auto.
  Qed.

  Lemma tree_walk d : dwfd d (NT start) -> gtiles 0 n (yield span d) ->
    gaccepts G start n rmatch rtrunc complete_lex ignore /\ (built -> den (NSym span start 0 n) [d]).
  Proof.
    intros Hw Ht. rewrite <- (app_nil_r (yield span d)) in Ht.
    destruct (CT_all n d (le_n n) start 0 [] Hw Ht) as (r & ks & m & -> & Hc & Hg & Hd); [right; auto|].
    inversion Hg as [? ? Hgap|]; subst.
    assert (Hl : lhs r = start) by (inversion Hw; auto).
    assert (Hs : is_solution start (mkItem r (length (rhs r)) 0) = true).
    { apply solution_spec. repeat split; auto. apply expect_complete. }
    split.
    - exists (mkItem r (length (rhs r)) 0). split; auto. apply (gchart_gap m n); auto. right; auto.
    - intros Hb.
      assert (Hn : has_node (mkItem r (length (rhs r)) 0)).
      { unfold has_node. rewrite expect_complete. intros (_ & F0). congruence. }
      pose proof (den_gap m n _ Hb Hgap (le_n n) Hc (or_intror Hs) Hn [DN span r ks]) as Hcarry.
      unfold slabel, ilabel in Hcarry. cbn [irule dot orig] in Hcarry.
      rewrite Nat.eqb_refl, Hl in Hcarry. apply Hcarry. apply Hd; auto.
  Qed.

  Lemma accept_built : d_out (fst ires) = DAccept -> built.
  Proof.
    intros Ha. unfold built, idyn_parse in *. rewrite dyn_erasure in *.
    destruct (dparse_ok G _ start n rmatch rtrunc complete_lex ignore (pred_lookup_sound G) (pred_lookup_direct G) H_fwd) as (N & L1 & _ & _ & Hout).
    rewrite Ha in Hout. destruct Hout as (-> & _). exact L1.
  Qed.

  Lemma gaccepts_accept : gaccepts G start n rmatch rtrunc complete_lex ignore -> d_out (fst ires) = DAccept.
  Proof.
    intros Hg. apply (daccepts_iff_gaccepts G _ start n rmatch rtrunc complete_lex ignore (pred_lookup_sound G) (pred_lookup_direct G) H_fwd) in Hg.
    unfold daccepts in Hg. unfold idyn_parse. rewrite dyn_erasure.
    destruct (d_out (dparse G (pred_lookup G (pred_table G)) start n rmatch rtrunc complete_lex ignore)); try discriminate.
    reflexivity.
  Qed.

  Theorem idyn_forest_complete d : dwfd d (NT start) -> gtiles 0 n (yield span d) ->
    d_out (fst ires) = DAccept /\ den (NSym span start 0 n) [d].
  Proof.
    intros Hw Ht. destruct (tree_walk d Hw Ht) as (Hacc & Hden).
    pose proof (gaccepts_accept Hacc) as Ha. split; auto. apply Hden. apply accept_built; auto.
  Qed.

  (* exactness, unconditionally in the outcome of the run *)
  Theorem idyn_forest_exact ds :
    den (NSym span start 0 n) ds
    <-> exists d, ds = [d] /\ dwfd d (NT start) /\ gtiles 0 n (yield span d).
  Proof.
    split.
    - apply idyn_model_sound_root.
    - intros (d & -> & Hw & Ht). apply idyn_forest_complete; auto.
  Qed.
End DynExact.

(* the hypothesis fwd is needed: with a zero-width match the position graph has a token edge i -> i that the
   scanner never follows (delayed_matches[i] is never read once column i exists), so a derivation over the graph is
   missing from the forest of an accepting run.
     start: E A | A        E matches the empty string at 0, A matches 0..1, text of length 1
   lark refuses zero-width terminals for the dynamic lexers when the parser is built. *)
Definition fx_r1 : rule := mkRule 0 [T 1; T 0].
Definition fx_r2 : rule := mkRule 0 [T 0].
Definition fx_rm (t i : nat) : option nat :=
  match t, i with 1, 0 => Some 0 | 0, 0 => Some 1 | _, _ => None end.
Definition fx_d : dt span := DN span fx_r1 [DL span 1 (0, 0); DL span 0 (0, 1)].

Theorem dyn_exact_fwd_refuted :
  let G := [fx_r1; fx_r2] in
  let rt := fun _ _ _ : nat => @None nat in
  let run := idyn_parse G 0 1 fx_rm rt false [] in
  ~ fwd fx_rm rt
  /\ d_out (fst run) = DAccept
  /\ dwfd G (run_tokedge fx_rm rt false) fx_d (NT 0)
  /\ gtiles (run_tokedge fx_rm rt false) (ign_edge fx_rm []) 0 1 (yield span fx_d)
  /\ ~ den span (in_forest span (map span_fam (snd run))) (NSym span 0 0 1) [fx_d].
Proof.
  cbv zeta. refine (conj _ (conj _ (conj _ (conj _ _)))).
  - intros (H & _). specialize (H 1 0 0 eq_refl). lia.
  - vm_compute. reflexivity.
  - apply (dwfd_node [fx_r1; fx_r2] _ fx_r1); [left; reflexivity|].
    repeat constructor; unfold run_tokedge; vm_compute; auto.
  - simpl. apply gt_cons with (m := 0) (e := 0); [constructor|exists 1; unfold run_tokedge; vm_compute; auto|].
    apply gt_cons with (m := 0) (e := 1); [constructor|exists 0; unfold run_tokedge; vm_compute; auto|].
    constructor. constructor.
  - intros H. inversion H as [|lbl r l rt0 ds1 ds2 HF H1 H2 E1 E2]; subst.
    unfold in_forest in HF. vm_compute in HF. destruct HF as [HF|[]].
    inversion HF.
Qed.
