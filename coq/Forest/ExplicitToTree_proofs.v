(* C04 layer B - proofs about Forest/ExplicitToTree.v: expanding the explicit tree of an acyclic, well-formed
   forest gives exactly the shaped derivations of the forest. *)
From Coq Require Import String Ascii Bool Arith List Lia.
From LV Require Import Base.Prelude Forest.ExplicitToTree Forest.ExplicitCheck.
Import ListNotations.
Local Open Scope string_scope.
Local Open Scope list_scope.

Lemma In_product {A} (ls : list (list A)) (x : list A) :
  In x (product ls) <-> Forall2 (fun a l => In a l) x ls.
Proof.
  revert x; induction ls as [|l ls IH]; intros x; simpl.
  - split; [intros [<-|[]]; constructor | intros H; inversion H; auto].
  - rewrite in_flat_map. split.
    + intros (a & Ha & Hx). apply in_map_iff in Hx. destruct Hx as (y & <- & Hy).
      constructor; auto. apply IH; auto.
    + intros H; inversion H; subst. eexists; split; eauto. apply in_map. apply IH; auto.
Qed.

Lemma In_app_product {A} (xs ys : list (list A)) z :
  In z (app_product xs ys) <-> exists x y, z = x ++ y /\ In x xs /\ In y ys.
Proof.
  unfold app_product. rewrite in_flat_map. split.
  - intros (x & Hx & Hz). apply in_map_iff in Hz. destruct Hz as (y & <- & Hy). eauto.
  - intros (x & y & -> & Hx & Hy). exists x; split; auto. apply in_map_iff; eauto.
Qed.

Lemma F2_length {A B} (R : A -> B -> Prop) l l' : Forall2 R l l' -> length l = length l'.
Proof. induction 1; simpl; auto. Qed.

Lemma Forall2_nth {A B} (R : A -> B -> Prop) l l' da db i :
  Forall2 R l l' -> R da db -> R (nth i l da) (nth i l' db).
Proof.
  intros H Hd; revert i; induction H; intros [|i]; simpl; auto.
Qed.

Lemma Forall2_refl_on {A} (R : A -> A -> Prop) l : (forall x, In x l -> R x x) -> Forall2 R l l.
Proof. induction l; simpl; constructor; auto. Qed.

Lemma product_nonempty {A} (ls : list (list A)) : Forall (fun l => l <> []) ls -> product ls <> [].
Proof.
  induction 1 as [|l ls Hl _ IH]; simpl. discriminate.
  destruct l as [|x l]; [congruence|]. simpl. destruct (product ls); [congruence|]. simpl. discriminate.
Qed.

Lemma app_product_nonempty {A} (xs ys : list (list A)) : xs <> [] -> ys <> [] -> app_product xs ys <> [].
Proof.
  destruct xs as [|x xs]; [congruence|]. destruct ys as [|y ys]; [congruence|]. intros _ _. simpl. discriminate.
Qed.

Lemma Forall_repeat {A} (P : A -> Prop) a n : P a -> Forall P (repeat a n).
Proof. intros H; induction n; simpl; constructor; auto. Qed.

Lemma list_eqb_eq {A} (f : A -> A -> bool) : (forall a b, f a b = true -> a = b) ->
  forall a b, list_eqb f a b = true -> a = b.
Proof.
  intros Hf a; induction a as [|x a IH]; intros [|y b] H; simpl in H; try discriminate; auto.
  apply andb_true_iff in H. destruct H as (H1 & H2). f_equal; auto.
Qed.

Fixpoint upd {A} (i : nat) (x : A) (l : list A) : list A :=
  match l, i with
  | [], _ => []
  | _ :: r, 0 => x :: r
  | y :: r, S i' => y :: upd i' x r
  end.

Lemma nth_upd_eq {A} i (x d : A) l : i < length l \/ x = d -> nth i (upd i x l) d = x.
Proof.
  revert i; induction l; intros [|i] H; simpl in *; try (destruct H; [lia|auto]); auto.
  apply IHl. destruct H; [left; lia | auto].
Qed.

Lemma nth_upd_neq {A} i j (x d : A) l : i <> j -> nth j (upd i x l) d = nth j l d.
Proof.
  revert i j; induction l; intros [|i] [|j] H; simpl; auto; try lia.
Qed.

Lemma F2_upd {A B} (R : A -> B -> Prop) l l' i x da :
  Forall2 R l l' -> R (nth i l da) x -> Forall2 R l (upd i x l').
Proof.
  intros H; revert i; induction H; intros [|i] Hx; simpl in *; constructor; auto.
Qed.

Section TreeInd.
  Variable P : tree -> Prop.
  Hypothesis HTk : forall ty v, P (Tk ty v).
  Hypothesis HNn : P Nn.
  Hypothesis HNd : forall d ks, Forall P ks -> P (Nd d ks).
  Fixpoint tree_ind2 (t : tree) : P t :=
    match t with
    | Tk ty v => HTk ty v
    | Nn => HNn
    | Nd d ks => HNd d ks ((fix go (ks : list tree) : Forall P ks :=
                              match ks with [] => Forall_nil _ | k :: r => Forall_cons _ (tree_ind2 k) (go r) end) ks)
    end.
End TreeInd.

Lemma expand_Nd d ks :
  expand (Nd d ks) = if String.eqb d AMBIG then List.concat (map expand ks) else map (Nd d) (product (map expand ks)).
Proof.
  simpl. replace ((fix go (ks0 : list tree) : list (list tree) :=
                     match ks0 with [] => [] | k :: r => expand k :: go r end) ks) with (map expand ks); auto.
Qed.

Definition X (t t' : tree) : Prop := In t' (expand t).
Definition XL := Forall2 X.

Lemma X_Tk ty v t' : X (Tk ty v) t' <-> t' = Tk ty v.
Proof. unfold X; simpl. intuition. Qed.
Lemma X_Nn t' : X Nn t' <-> t' = Nn.
Proof. unfold X; simpl. intuition. Qed.

Lemma In_product_expand ks ks' : In ks' (product (map expand ks)) <-> XL ks ks'.
Proof.
  rewrite In_product. unfold XL. split; intros H.
  - remember (map expand ks) as m. revert ks Heqm. induction H; intros [|k ks] E; simpl in *; try discriminate; constructor.
    + inversion E; subst; auto. + apply IHForall2. inversion E; auto.
  - induction H; simpl; constructor; auto.
Qed.

Lemma X_node d ks t' : String.eqb d AMBIG = false ->
  (X (Nd d ks) t' <-> exists ks', t' = Nd d ks' /\ XL ks ks').
Proof.
  intros Hd. unfold X. rewrite expand_Nd, Hd, in_map_iff. split.
  - intros (ks' & <- & H). exists ks'; split; auto. apply In_product_expand; auto.
  - intros (ks' & -> & H). exists ks'; split; auto. apply In_product_expand; auto.
Qed.

Lemma X_ambig ks t' : X (Nd AMBIG ks) t' <-> exists k, In k ks /\ X k t'.
Proof.
  unfold X. rewrite expand_Nd. simpl. rewrite in_concat. split.
  - intros (l & Hl & Ht). apply in_map_iff in Hl. destruct Hl as (k & <- & Hk). eauto.
  - intros (k & Hk & Ht). exists (expand k); split; auto. apply in_map; auto.
Qed.

Lemma is_ambig_Nd d ks : is_ambig (Nd d ks) = String.eqb d AMBIG.
Proof. reflexivity. Qed.

Lemma is_ambig_true t : is_ambig t = true -> exists ks, t = Nd AMBIG ks.
Proof.
  destruct t; simpl; try discriminate. unfold is_ambig; simpl. intros H. apply String.eqb_eq in H. subst. eauto.
Qed.

Lemma X_kids c c' : is_ambig c = false -> X c c' -> XL (kids c) (kids c') /\ is_ambig c' = false
                                                   /\ length (kids c') = length (kids c).
Proof.
  destruct c as [ty v| |d ks]; intros Ha H.
  - apply X_Tk in H; subst; simpl; repeat split; constructor.
  - apply X_Nn in H; subst; simpl; repeat split; constructor.
  - rewrite is_ambig_Nd in Ha. apply X_node in H; auto. destruct H as (ks' & -> & H). simpl. repeat split; auto.
    symmetry; eapply F2_length; eauto.
Qed.

(* splicing nested _ambig: _collapse_ambig (collapse_ambig) is also what Tree.expand_kids_by_data('_ambig') does to
   the children of an _ambig node *)
Lemma In_collapse_ambig k' ks : In k' (collapse_ambig ks) <-> exists k, In k ks /\ (if is_ambig k then In k' (kids k) else k' = k).
Proof.
  unfold collapse_ambig. rewrite in_flat_map. split; intros (k & Hk & H); exists k; split; auto; destruct (is_ambig k); auto.
  - destruct H as [<-|[]]; auto.
  - subst; left; auto.
Qed.

Lemma X_collapse_ambig ks t' : (exists k', In k' (collapse_ambig ks) /\ X k' t') <-> exists k, In k ks /\ X k t'.
Proof.
  split.
  - intros (k' & Hin & Hx). apply In_collapse_ambig in Hin. destruct Hin as (k & Hk & H). exists k; split; auto.
    destruct (is_ambig k) eqn:Ha; [|subst; auto]. apply is_ambig_true in Ha. destruct Ha as (ks2 & ->). apply X_ambig. eauto.
  - intros (k & Hk & Hx). destruct (is_ambig k) eqn:Ha.
    + destruct (is_ambig_true _ Ha) as (ks2 & ->). apply X_ambig in Hx. destruct Hx as (k' & Hk' & Hx).
      exists k'; split; auto. apply In_collapse_ambig. exists (Nd AMBIG ks2). rewrite Ha. auto.
    + exists k; split; auto. apply In_collapse_ambig. exists k. rewrite Ha. auto.
Qed.

Lemma Forall_collapse_ambig (P Q : tree -> Prop) ks :
  (forall k, P k -> if is_ambig k then Forall Q (kids k) else Q k) -> Forall P ks -> Forall Q (collapse_ambig ks).
Proof.
  intros H HP. apply Forall_forall. intros k' Hin. apply In_collapse_ambig in Hin. destruct Hin as (k & Hk & Hin).
  rewrite Forall_forall in HP. specialize (H k (HP k Hk)).
  destruct (is_ambig k); [rewrite Forall_forall in H; auto | subst; auto].
Qed.

Lemma collapse_ambig_nonempty ks : ks <> [] -> (forall k, In k ks -> is_ambig k = true -> kids k <> []) -> collapse_ambig ks <> [].
Proof.
  destruct ks as [|k ks]; [congruence|]. intros _ H E. unfold collapse_ambig in E. simpl in E.
  apply app_eq_nil in E. destruct E as (E & _).
  destruct (is_ambig k) eqn:Ha; [|discriminate]. apply (H k); simpl; auto.
Qed.

Definition inh (t : tree) : Prop := exists t', X t t'.

Lemma XL_inh cs : Forall inh cs -> exists cs', XL cs cs'.
Proof.
  induction 1 as [|c cs (c' & Hc) _ (cs' & IH)]. exists []; constructor. exists (c' :: cs'); constructor; auto.
Qed.

(* ChildFilter commutes with expansion *)
Lemma XL_repeat_Nn n l : XL (repeat Nn n) l <-> l = repeat Nn n.
Proof.
  revert l; induction n; simpl; intros l; split; intros H.
  - inversion H; auto. - subst; constructor.
  - inversion H; subst. apply X_Nn in H2. subst. f_equal. apply IHn; auto.
  - subst. constructor. apply X_Nn; auto. apply IHn; auto.
Qed.

Lemma XL_nth cs cs' i : XL cs cs' -> X (nth i cs Nn) (nth i cs' Nn).
Proof. intros H. apply Forall2_nth; auto. apply X_Nn; auto. Qed.

Definition inl_ok (ti : list (nat * bool * nat)) (cs : list tree) : Prop :=
  forall i n, In (i, true, n) ti -> is_ambig (nth i cs Nn) = false.

Lemma cf_piece_fwd cs cs' i ex nn :
  XL cs cs' -> (ex = true -> is_ambig (nth i cs Nn) = false) -> XL (cf_piece cs (i, ex, nn)) (cf_piece cs' (i, ex, nn)).
Proof.
  intros H Hex. unfold cf_piece. apply Forall2_app. apply XL_repeat_Nn; auto.
  destruct ex.
  - apply X_kids; auto. apply XL_nth; auto.
  - constructor; [apply XL_nth; auto | constructor].
Qed.

Lemma child_filter_fwd ti an cs cs' :
  XL cs cs' -> inl_ok ti cs -> XL (child_filter ti an cs) (child_filter ti an cs').
Proof.
  intros H Hok. unfold child_filter. apply Forall2_app; [|apply XL_repeat_Nn; auto].
  induction ti as [|[[i ex] nn] ti IH]; simpl. constructor.
  apply Forall2_app.
  - apply cf_piece_fwd; auto. intros ->. eapply Hok; left; eauto.
  - apply IH. intros j n Hj. eapply Hok; right; eauto.
Qed.

Definition idxs (ti : list (nat * bool * nat)) : list nat := map (fun x => fst (fst x)) ti.

Lemma flat_map_cf_upd ti cs i c' : ~ In i (idxs ti) ->
  flat_map (cf_piece (upd i c' cs)) ti = flat_map (cf_piece cs) ti.
Proof.
  induction ti as [|[[j ex] nn] ti IH]; simpl; intros H; auto.
  rewrite IH by tauto. f_equal. unfold cf_piece. rewrite nth_upd_neq; auto.
Qed.

Lemma X_refl_leaf c : (forall d ks, c <> Nd d ks) -> X c c.
Proof. destruct c; intros H; [apply X_Tk | apply X_Nn | exfalso; eapply H]; eauto. Qed.

Lemma cf_piece_bwd c ex Q' : (ex = true -> is_ambig c = false) -> XL (if ex then kids c else [c]) Q' ->
  exists c', X c c' /\ (if ex then kids c' else [c']) = Q'.
Proof.
  intros Ha HQ. destruct ex.
  - destruct c as [ty v| |d ks]; simpl in HQ.
    + inversion HQ; subst. exists (Tk ty v). split; auto. apply X_Tk; auto.
    + inversion HQ; subst. exists Nn. split; auto. apply X_Nn; auto.
    + exists (Nd d Q'). split; auto. apply X_node; eauto.
  - inversion HQ as [|? c' ? ? Hc HQ']; subst. inversion HQ'; subst. exists c'; auto.
Qed.

(* the pieces read distinct children (NoDup), so the expansion chosen for child i can be put (upd) into the
   list found for the remaining pieces without disturbing them *)
Lemma child_filter_bwd ti an cs F' :
  NoDup (idxs ti) -> inl_ok ti cs -> Forall inh cs -> XL (child_filter ti an cs) F' ->
  exists cs', XL cs cs' /\ child_filter ti an cs' = F'.
Proof.
  unfold child_filter. revert F'. induction ti as [|[[i ex] nn] ti IH]; simpl; intros F' Hnd Hok Hinh H.
  - apply XL_repeat_Nn in H. subst. destruct (XL_inh cs Hinh) as (cs' & Hcs). exists cs'; auto.
  - rewrite <- app_assoc in H. apply Forall2_app_inv_l in H. destruct H as (P' & R' & HP & HR & ->).
    inversion Hnd as [|? ? Hni Hnd']; subst.
    destruct (IH R' Hnd') as (cs'' & Hcs'' & Eq); auto.
    { intros j n Hj. eapply Hok; right; eauto. }
    unfold cf_piece in HP. apply Forall2_app_inv_l in HP. destruct HP as (N' & Q' & HN & HQ & ->).
    apply XL_repeat_Nn in HN. subst N'.
    assert (Hlen : length cs'' = length cs) by (symmetry; eapply F2_length; eauto).
    destruct (cf_piece_bwd (nth i cs Nn) ex Q') as (c' & Hc' & Hq); [intros ->; eapply Hok; left; eauto|exact HQ|].
    assert (Hr : i < length cs \/ c' = Nn).
    { destruct (Nat.lt_ge_cases i (length cs)); auto. right. rewrite nth_overflow in Hc' by lia. apply X_Nn; auto. }
    exists (upd i c' cs''). split.
    + eapply F2_upd; eauto.
    + rewrite <- app_assoc. simpl. rewrite flat_map_cf_upd by auto. rewrite Eq.
      unfold cf_piece. rewrite nth_upd_eq by (rewrite Hlen; auto). rewrite Hq. rewrite <- app_assoc. reflexivity.
Qed.

(* facts about maybe_create_child_filter *)
(* what an entry (i, to_expand, _) of to_include i0 exp says about exp and about amb_indices i0 exp *)
Definition ti_ok (i0 : nat) (exp : list esym) (keep : bool) (x : nat * bool * nat) : Prop :=
  let '(i, ex, _) := x in
  i0 <= i < i0 + length exp /\ ex = should_expand (nth (i - i0) exp dummy_sym)
  /\ (ex = true -> memn i (amb_indices i0 exp keep) = true).

Lemma ti_ok_tl i0 s exp keep x : ti_ok (S i0) exp keep x -> ti_ok i0 (s :: exp) keep x.
Proof.
  destruct x as [[i ex] n]. intros (Hb & He & Hm). unfold ti_ok. replace (i - i0) with (S (i - S i0)) by lia. simpl.
  repeat split; try lia; auto. intros Hex.
  destruct (keep || negb (e_term s && e_filter s) && should_expand s); simpl; auto.
  rewrite Hm; auto. apply orb_true_r.
Qed.

Lemma to_include_props exp : forall i0 ei nones keep l a,
  to_include i0 exp ei nones keep = (l, a) -> Forall (ti_ok i0 exp keep) l /\ NoDup (idxs l).
Proof.
  induction exp as [|s exp IH]; simpl; intros i0 ei nones keep l a H.
  - inversion H; subst. split; constructor.
  - destruct (keep || negb (e_term s && e_filter s)) eqn:Hk.
    + destruct (to_include (S i0) exp (tl ei) 0 keep) as [l' a'] eqn:E. inversion H; subst. clear H.
      destruct (IH _ _ _ _ _ _ E) as (H1 & H2). split.
      * constructor; [|eapply Forall_impl; [apply ti_ok_tl|exact H1]].
        unfold ti_ok. rewrite Nat.sub_diag. simpl. repeat split; try lia.
        intros Hex. rewrite Hex, andb_true_r, Hk. simpl. rewrite Nat.eqb_refl. auto.
      * simpl. constructor; auto. intros Hin. apply in_map_iff in Hin.
        destruct Hin as ([[j ex] n] & Hj & Hin). simpl in Hj. subst. rewrite Forall_forall in H1.
        apply H1 in Hin. unfold ti_ok in Hin. lia.
    + destruct (IH _ _ _ _ _ _ H) as (H1 & H2). split; auto. eapply Forall_impl; [apply ti_ok_tl|exact H1].
Qed.

Lemma cf_spec_props r :
  (forall i ex n, In (i, ex, n) (fst (cf_spec r)) ->
     i < length (x_exp r) /\ ex = should_expand (nth i (x_exp r) dummy_sym)
     /\ (ex = true -> memn i (ae_spec r) = true))
  /\ NoDup (idxs (fst (cf_spec r))).
Proof.
  unfold cf_spec, ae_spec. destruct (to_include 0 (x_exp r) (empty_counts r) 0 (x_keep r)) as [l a] eqn:E.
  destruct (to_include_props _ _ _ _ _ _ _ E) as (H1 & H2). split; auto. rewrite Forall_forall in H1.
  intros i ex n Hin. destruct (H1 _ Hin) as (Hb & He & Hm). rewrite Nat.sub_0_r in He. repeat split; auto; lia.
Qed.

(* the indices whose child is spliced by ChildFilter *)
Definition inlined (r : xrule) (i : nat) : Prop :=
  has_filter r = true /\ exists n, In (i, true, n) (fst (cf_spec r)).

Lemma inlined_props r i : inlined r i ->
  i < length (x_exp r) /\ should_expand (nth i (x_exp r) dummy_sym) = true /\ memn i (ae_spec r) = true.
Proof.
  intros (_ & n & Hin). destruct (cf_spec_props r) as (H & _). destruct (H _ _ _ Hin) as (? & ? & ?). auto.
Qed.

Definition name_ok (r : xrule) : Prop := String.eqb (x_name r) AMBIG = false.

Lemma filtered_fwd r cs cs' :
  XL cs cs' -> (forall i, inlined r i -> is_ambig (nth i cs Nn) = false) -> XL (filtered r cs) (filtered r cs').
Proof.
  intros H Hin. unfold filtered. destruct (has_filter r) eqn:Hf; auto.
  apply child_filter_fwd; auto. intros i n Hi. apply Hin. split; eauto.
Qed.

Lemma filtered_bwd r cs F' :
  (forall i, inlined r i -> is_ambig (nth i cs Nn) = false) -> Forall inh cs -> XL (filtered r cs) F' ->
  exists cs', XL cs cs' /\ filtered r cs' = F'.
Proof.
  intros Hin Hinh H. unfold filtered in *. destruct (has_filter r) eqn:Hf; eauto.
  apply child_filter_bwd; auto. apply cf_spec_props. intros i n Hi. apply Hin. split; eauto.
Qed.

(* ExpandSingleChild(Tree(name, .)), the part of the chain after ChildFilter *)
Definition esc_node (r : xrule) (F : list tree) : tree :=
  if esc_on r then match F with [x] => x | _ => Nd (x_name r) F end else Nd (x_name r) F.

Lemma plain_eq r cs : plain r cs = esc_node r (filtered r cs).
Proof. reflexivity. Qed.

Lemma esc_node_X r F t' : name_ok r -> (X (esc_node r F) t' <-> exists F', XL F F' /\ t' = esc_node r F').
Proof.
  intros Hn. unfold esc_node.
  assert (Hnode : forall F0, X (Nd (x_name r) F0) t' <-> exists F', XL F0 F' /\ t' = Nd (x_name r) F').
  { intros F0. rewrite X_node by exact Hn. split; intros (F' & H1 & H2); eauto. }
  destruct (esc_on r); [|apply Hnode]. destruct F as [|f [|f2 F]].
  - rewrite Hnode. split; intros (F' & HF & ->); exists F'; (split; [auto|]); inversion HF; auto.
  - split.
    + intros H. exists [t']. split; auto. constructor; [exact H|constructor].
    + intros (F' & HF & ->). inversion HF as [|? y ? ? Hy HF2]; subst. inversion HF2; subst. exact Hy.
  - rewrite Hnode. split; intros (F' & HF & ->); exists F'; (split; [auto|]);
      inversion HF as [|? ? ? ? ? HF2]; subst; inversion HF2; auto.
Qed.

Lemma plain_X r cs t' :
  name_ok r -> (forall i, inlined r i -> is_ambig (nth i cs Nn) = false) -> Forall inh cs ->
  (X (plain r cs) t' <-> exists cs', XL cs cs' /\ t' = plain r cs').
Proof.
  intros Hn Hin Hinh. rewrite plain_eq, esc_node_X by auto. split.
  - intros (F' & HF & ->). destruct (filtered_bwd r cs F' Hin Hinh HF) as (cs' & Hcs & <-). eauto.
  - intros (cs' & Hcs & ->). exists (filtered r cs'). split; auto. apply filtered_fwd; auto.
Qed.

Definition ne (t : tree) : Prop := noempty t = true.

Lemma noempty_Nd d ks :
  noempty (Nd d ks) = forallb noempty ks && (if String.eqb d AMBIG then nonnil ks else true).
Proof.
  simpl. f_equal.
Qed.

Lemma ne_kids d ks : ne (Nd d ks) -> Forall ne ks.
Proof.
  unfold ne. rewrite noempty_Nd. intros H. apply andb_true_iff in H. destruct H as (H & _).
  rewrite forallb_forall in H. apply Forall_forall; auto.
Qed.

Lemma ne_Nd d ks : Forall ne ks -> (String.eqb d AMBIG = true -> ks <> []) -> ne (Nd d ks).
Proof.
  intros H Hn. unfold ne. rewrite noempty_Nd. apply andb_true_iff. split.
  - apply forallb_forall. rewrite Forall_forall in H. auto.
  - destruct (String.eqb d AMBIG); auto. destruct ks; auto. exfalso; apply Hn; auto.
Qed.

Lemma ne_kids_t t : ne t -> Forall ne (kids t).
Proof. destruct t; simpl; auto. apply ne_kids. Qed.

Lemma ne_ambig t : ne t -> is_ambig t = true -> kids t <> [].
Proof.
  intros H Ha. destruct (is_ambig_true _ Ha) as (ks & ->). unfold ne in H. rewrite noempty_Nd in H.
  apply andb_true_iff in H. destruct H as (_ & H). destruct ks; [discriminate|]. simpl. discriminate.
Qed.

Lemma ne_inh t : ne t -> inh t.
Proof.
  induction t as [ty v| |d ks IH] using tree_ind2; intros H.
  - exists (Tk ty v); apply X_Tk; auto.
  - exists Nn; apply X_Nn; auto.
  - pose proof (ne_kids _ _ H) as Hk.
    assert (Hi : Forall inh ks).
    { clear H. induction IH; inversion Hk; subst; constructor; auto. }
    destruct (String.eqb d AMBIG) eqn:Hd.
    + apply String.eqb_eq in Hd. subst d. unfold ne in H. rewrite noempty_Nd in H. apply andb_true_iff in H.
      destruct H as (_ & H). simpl in H. destruct ks as [|k ks]; [discriminate|].
      inversion Hi as [|? ? (t' & Ht) _]; subst. exists t'. apply X_ambig. exists k; split; simpl; auto.
    + destruct (XL_inh ks Hi) as (ks' & Hks). exists (Nd d ks'). apply X_node; eauto.
Qed.

(* AmbiguousExpander *)
Definition A0 (t : tree) : Prop := is_ambig t = false.
Definition A1 (t : tree) : Prop := is_ambig t = true -> Forall A0 (kids t).
Definition A2 (t : tree) : Prop := is_ambig t = true -> Forall A1 (kids t).

Lemma A0_A1 t : A0 t -> A1 t.
Proof. unfold A0, A1. intros -> ?; discriminate. Qed.
Lemma A1_A2 t : A1 t -> A2 t.
Proof. unfold A1, A2. intros H Ha. eapply Forall_impl; [|apply H; auto]. apply A0_A1. Qed.

Lemma flatten_not_ambig c : is_ambig c = false -> flatten_ambig c = c.
Proof. destruct c; simpl; auto. unfold is_ambig; simpl. intros ->; auto. Qed.

Lemma is_ambig_flatten c : is_ambig (flatten_ambig c) = is_ambig c.
Proof.
  destruct c; simpl; auto. destruct (String.eqb d AMBIG) eqn:E; auto.
Qed.

Lemma flatten_ambig_Nd ks : flatten_ambig (Nd AMBIG ks) = Nd AMBIG (collapse_ambig ks).
Proof. reflexivity. Qed.

Lemma X_flatten c t' : X (flatten_ambig c) t' <-> X c t'.
Proof.
  destruct (is_ambig c) eqn:Ha; [|rewrite flatten_not_ambig; tauto].
  destruct (is_ambig_true _ Ha) as (ks & ->). rewrite flatten_ambig_Nd, !X_ambig. apply X_collapse_ambig.
Qed.

Lemma XL_flatten cs cs' : XL (map flatten_ambig cs) cs' <-> XL cs cs'.
Proof.
  revert cs'; induction cs; simpl; intros cs'; split; intros H; inversion H; subst; constructor;
    try (apply X_flatten; auto); try (apply IHcs; auto); auto.
Qed.

Lemma ne_flatten c : ne c -> ne (flatten_ambig c).
Proof.
  intros H. destruct (is_ambig c) eqn:Ha; [|rewrite flatten_not_ambig; auto].
  pose proof (ne_ambig _ H Ha) as Hne. destruct (is_ambig_true _ Ha) as (ks & ->). rewrite flatten_ambig_Nd.
  pose proof (ne_kids _ _ H) as Hk. apply ne_Nd.
  - apply (Forall_collapse_ambig ne ne); auto. intros k Hk1. destruct (is_ambig k); auto. apply ne_kids_t; auto.
  - intros _. apply collapse_ambig_nonempty; auto. intros k Hin. rewrite Forall_forall in Hk. apply ne_ambig; auto.
Qed.

Lemma A2_flatten c : A2 c -> A1 (flatten_ambig c).
Proof.
  intros H Ha. rewrite is_ambig_flatten in Ha. specialize (H Ha).
  destruct (is_ambig_true _ Ha) as (ks & ->). rewrite flatten_ambig_Nd. simpl in *.
  apply (Forall_collapse_ambig A1 A0); auto. intros k Hk. destruct (is_ambig k) eqn:Hak; auto.
Qed.

Definition lifted (te : list nat) (i : nat) (c : tree) : bool := is_ambig c && memn i te.

Lemma ae_any_false te cs : forall i0, ae_any te i0 cs = false -> Forall2 (fun a l => In a l) cs (ae_alts te i0 cs).
Proof.
  induction cs as [|c cs IH]; simpl; intros i0 H; constructor; apply orb_false_iff in H; destruct H as (H1 & H2); auto.
  rewrite H1. left; auto.
Qed.

Lemma ae_alts_sel te cs : forall i0 f,
  Forall2 (fun a l => In a l) f (ae_alts te i0 cs) ->
  (forall f', XL f f' -> XL cs f') /\
  (forall j, if lifted te (i0 + j) (nth j cs Nn) then In (nth j f Nn) (kids (nth j cs Nn))
             else nth j f Nn = nth j cs Nn) /\
  (forall P : tree -> Prop, (forall c, is_ambig c = true -> P c -> Forall P (kids c)) -> Forall P cs -> Forall P f).
Proof.
  induction cs as [|c cs IH]; simpl; intros i0 f H.
  - inversion H; subst. repeat split; auto. intros j. unfold lifted. destruct j; reflexivity.
  - inversion H as [|a ? f0 ? Ha Hf]; subst. destruct (IH _ _ Hf) as (I1 & I2 & I3). repeat split.
    + intros f' Hf'. inversion Hf'; subst. constructor; [|apply I1; auto].
      unfold lifted in *. destruct (is_ambig c && memn i0 te) eqn:E.
      * apply andb_true_iff in E. destruct E as (E & _). apply is_ambig_true in E. destruct E as (ks & ->).
        apply X_ambig. eauto.
      * destruct Ha as [<-|[]]; auto.
    + intros [|j]; simpl.
      * rewrite Nat.add_0_r. unfold lifted. destruct (is_ambig c && memn i0 te); [|destruct Ha as [<-|[]]]; auto.
      * replace (i0 + S j) with (S i0 + j) by lia. apply I2.
    + intros P HP HPcs. inversion HPcs as [|? ? Hc Hcs]; subst. constructor; [|apply I3; auto].
      destruct (is_ambig c && memn i0 te) eqn:E.
      * apply andb_true_iff in E. destruct E as (E & _). specialize (HP c E Hc). rewrite Forall_forall in HP; auto.
      * destruct Ha as [<-|[]]; auto.
Qed.

Lemma ae_alts_pick te cs : forall i0 f', XL cs f' ->
  exists f, Forall2 (fun a l => In a l) f (ae_alts te i0 cs) /\ XL f f'.
Proof.
  induction cs as [|c cs IH]; simpl; intros i0 f' H.
  - inversion H; subst. exists []; split; constructor.
  - inversion H as [|? c' ? fr Hc Hr]; subst. destruct (IH (S i0) _ Hr) as (f & Hf & Hx).
    destruct (is_ambig c && memn i0 te) eqn:E.
    + apply andb_true_iff in E. destruct E as (E & _). apply is_ambig_true in E. destruct E as (ks & ->).
      apply X_ambig in Hc. destruct Hc as (k & Hk & Hc). exists (k :: f). split; constructor; auto.
    + exists (c :: f). split; constructor; simpl; auto.
Qed.

Lemma nth_map_flatten cs i : nth i (map flatten_ambig cs) Nn = flatten_ambig (nth i cs Nn).
Proof. change Nn with (flatten_ambig Nn) at 1. apply map_nth. Qed.

Lemma ae_X r te cs t' :
  name_ok r -> (forall i, inlined r i -> memn i te = true) ->
  (forall i, inlined r i -> A2 (nth i cs Nn)) -> Forall ne cs ->
  (X (ae te (plain r) cs) t' <-> exists cs', XL cs cs' /\ t' = plain r cs').
Proof.
  intros Hn Hte HA2 Hne. unfold ae.
  set (cs1 := map flatten_ambig cs).
  assert (Hne1 : Forall ne cs1).
  { unfold cs1. clear -Hne. induction Hne; simpl; constructor; auto. apply ne_flatten; auto. }
  assert (HA1 : forall i, inlined r i -> A1 (nth i cs1 Nn)).
  { intros i Hi. unfold cs1. rewrite nth_map_flatten. apply A2_flatten; auto. }
  assert (HXL : forall cs', XL cs1 cs' <-> XL cs cs') by (intros; apply XL_flatten).
  (* a selection of alternatives has no _ambig left at the inlined positions, and no empty _ambig *)
  assert (Hsel : forall f, Forall2 (fun a l => In a l) f (ae_alts te 0 cs1) ->
            (forall i, inlined r i -> is_ambig (nth i f Nn) = false) /\ Forall inh f).
  { intros f Hf. destruct (ae_alts_sel _ _ _ _ Hf) as (_ & S2 & S3). split.
    - intros i Hi. specialize (S2 i). simpl in S2. unfold lifted in S2. rewrite (Hte i Hi), andb_true_r in S2.
      destruct (is_ambig (nth i cs1 Nn)) eqn:E; [|rewrite S2; auto].
      specialize (HA1 i Hi E). rewrite Forall_forall in HA1. apply HA1; auto.
    - apply (Forall_impl _ ne_inh), (S3 ne); auto. intros c _. apply ne_kids_t. }
  destruct (ae_any te 0 cs1) eqn:Hany.
  - rewrite X_ambig. split.
    + intros (k & Hk & Hx). apply in_map_iff in Hk. destruct Hk as (f & <- & Hf). apply In_product in Hf.
      destruct (ae_alts_sel _ _ _ _ Hf) as (S1 & _). destruct (Hsel f Hf) as (Hna & Hinh).
      apply plain_X in Hx; auto. destruct Hx as (f' & Hf' & ->). exists f'; split; auto. apply HXL. auto.
    + intros (cs' & Hcs & ->). apply HXL in Hcs. destruct (ae_alts_pick te cs1 0 cs' Hcs) as (f & Hf & Hx).
      exists (plain r f). split. apply in_map. apply In_product; auto.
      destruct (Hsel f Hf) as (Hna & Hinh). apply plain_X; eauto.
  - destruct (Hsel cs1 (ae_any_false _ _ _ Hany)) as (Hna & Hinh). rewrite plain_X; auto.
    split; intros (cs' & H1 & H2); exists cs'; split; auto; apply HXL; auto.
Qed.

(* AmbiguousIntermediateExpander *)
(* the alternatives of a children list whose first element may be an '_iambig' node *)
Definition cil (ks : list tree) : list (list tree) :=
  match ks with
  | k0 :: rest =>
      if is_iambig k0
      then match ci k0 with [] => [ks] | col => map (fun l => l ++ rest) col end
      else [ks]
  | [] => [[]]
  end.

Lemma ci_Nd d gcs : ci (Nd d gcs) = flat_map (fun gc => cil (kids gc)) gcs.
Proof.
  induction gcs as [|gc gcs IH]; [reflexivity|].
  simpl flat_map. rewrite <- IH. destruct gc as [| |d' [|k0 rest]]; reflexivity.
Qed.

Lemma cil_nonempty ks : cil ks <> [].
Proof.
  destruct ks as [|k0 rest]; simpl; try discriminate.
  destruct (is_iambig k0); try discriminate. destruct (ci k0); simpl; discriminate.
Qed.

Lemma aie_cil nb cs : (cil cs = [cs] /\ aie nb cs = nb cs) \/ aie nb cs = Nd AMBIG (map nb (cil cs)).
Proof.
  destruct cs as [|c0 rest]; [auto|]. unfold cil, aie. destruct (is_iambig c0); auto. destruct (ci c0); auto.
  right. rewrite map_map. reflexivity.
Qed.

Lemma aie_X nb cs t' : X (aie nb cs) t' <-> exists l, In l (cil cs) /\ X (nb l) t'.
Proof.
  destruct (aie_cil nb cs) as [(-> & ->)| ->].
  - split; [intros H; exists cs; simpl; auto | intros (l & [<-|[]] & H); auto].
  - rewrite X_ambig. split.
    + intros (k & Hk & Hx). apply in_map_iff in Hk. destruct Hk as (l & <- & Hl). eauto.
    + intros (l & Hl & Hx). exists (nb l). split; auto. apply in_map; auto.
Qed.

(* amb_cb without its outer wrapper: the plain chain, under AmbiguousExpander iff some index may be lifted *)
Definition ae_cb (r : xrule) : list tree -> tree :=
  match ae_spec r with [] => plain r | te => ae te (plain r) end.

Lemma amb_cb_eq r cs : amb_cb r cs = aie (ae_cb r) cs.
Proof. reflexivity. Qed.

Lemma ae_cb_X r l t' :
  name_ok r -> Forall ne l -> (forall i, inlined r i -> A2 (nth i l Nn)) ->
  (X (ae_cb r l) t' <-> exists l', XL l l' /\ t' = plain r l').
Proof.
  intros Hn Hne HA. unfold ae_cb. destruct (ae_spec r) as [|i0 te] eqn:E.
  - apply plain_X; [auto| |apply (Forall_impl _ ne_inh); auto].
    intros i Hi. apply inlined_props in Hi. rewrite E in Hi. destruct Hi as (_ & _ & Hi); discriminate.
  - apply ae_X; auto. intros i Hi. apply inlined_props in Hi. rewrite E in Hi. tauto.
Qed.

Lemma amb_cb_X r cs t' :
  name_ok r ->
  (forall l, In l (cil cs) -> Forall ne l /\ forall i, inlined r i -> A2 (nth i l Nn)) ->
  (X (amb_cb r cs) t' <-> exists l l', In l (cil cs) /\ XL l l' /\ t' = plain r l').
Proof.
  intros Hn Hl. rewrite amb_cb_eq, aie_X. split.
  - intros (l & Hin & Hx). destruct (Hl l Hin) as (Hne & HA). apply ae_cb_X in Hx; auto. destruct Hx as (l' & ? & ?). eauto.
  - intros (l & l' & Hin & Hx & ->). destruct (Hl l Hin) as (Hne & HA). exists l; split; auto. apply ae_cb_X; eauto.
Qed.

(* no '_iambig' node and no '_ambig' without alternatives, at any depth *)
Fixpoint gdb (t : tree) : bool :=
  match t with
  | Nd d ks =>
      (fix go (ks : list tree) : bool := match ks with [] => true | k :: r => gdb k && go r end) ks
      && negb (String.eqb d IAMBIG) && (if String.eqb d AMBIG then nonnil ks else true)
  | _ => true
  end.
Definition gd (t : tree) : Prop := gdb t = true.

Lemma gdb_Nd d ks :
  gdb (Nd d ks) = forallb gdb ks && negb (String.eqb d IAMBIG) && (if String.eqb d AMBIG then nonnil ks else true).
Proof. reflexivity. Qed.

Lemma gd_Nd d ks : gd (Nd d ks) <->
  Forall gd ks /\ String.eqb d IAMBIG = false /\ (String.eqb d AMBIG = true -> ks <> []).
Proof.
  unfold gd. rewrite gdb_Nd, !andb_true_iff, forallb_forall, Forall_forall, negb_true_iff.
  split; intros ((H1 & H2) & H3) || intros (H1 & H2 & H3); repeat split; auto.
  - intros E. rewrite E in H3. destruct ks; [discriminate | discriminate].
  - destruct (String.eqb d AMBIG); auto. destruct ks; auto. exfalso; apply H3; auto.
Qed.

Lemma gd_ne t : gd t -> ne t.
Proof.
  induction t as [| |d ks IH] using tree_ind2; intros H; try reflexivity.
  apply gd_Nd in H. destruct H as (H1 & _ & H3). apply ne_Nd; auto.
  clear H3. induction IH; inversion H1; subst; constructor; auto.
Qed.

Lemma gd_not_iambig t : gd t -> is_iambig t = false.
Proof. destruct t; auto. intros H. apply gd_Nd in H. unfold is_iambig; simpl. tauto. Qed.

Lemma gd_kids t : gd t -> Forall gd (kids t).
Proof. destruct t; simpl; auto. intros H. apply gd_Nd in H. tauto. Qed.

Lemma gd_leaf_Nn : gd Nn. Proof. reflexivity. Qed.

Lemma gd_nth l i : Forall gd l -> gd (nth i l Nn).
Proof.
  intros H. destruct (Nat.lt_ge_cases i (length l)).
  - rewrite Forall_forall in H. apply H. apply nth_In; auto.
  - rewrite nth_overflow; auto. reflexivity.
Qed.

Lemma gd_child_filter ti an cs : Forall gd cs -> Forall gd (child_filter ti an cs).
Proof.
  intros H. unfold child_filter. apply Forall_app. split; [|apply Forall_repeat; reflexivity].
  induction ti as [|[[i ex] nn] ti IH]; simpl; auto. apply Forall_app. split; auto.
  unfold cf_piece. apply Forall_app. split. apply Forall_repeat; reflexivity.
  destruct ex. apply gd_kids. apply gd_nth; auto. constructor; auto. apply gd_nth; auto.
Qed.

Definition names_ok (r : xrule) : Prop :=
  String.eqb (x_name r) AMBIG = false /\ String.eqb (x_name r) IAMBIG = false.

Lemma gd_plain r cs : names_ok r -> Forall gd cs -> gd (plain r cs).
Proof.
  intros (Hn1 & Hn2) H. unfold plain.
  assert (HF : Forall gd (filtered r cs)).
  { unfold filtered. destruct (has_filter r); auto. apply gd_child_filter; auto. }
  assert (HN : gd (Nd (x_name r) (filtered r cs))).
  { apply gd_Nd. repeat split; auto. rewrite Hn1; discriminate. }
  destruct (esc_on r); auto. destruct (filtered r cs) as [|f [|? ?]]; auto. inversion HF; auto.
Qed.

Lemma gd_ambig t : gd t -> is_ambig t = true -> kids t <> [].
Proof. intros H. apply ne_ambig. apply gd_ne; auto. Qed.

Lemma gd_collapse_ambig ts : Forall gd ts -> Forall gd (collapse_ambig ts).
Proof. apply Forall_collapse_ambig. intros k Hk. destruct (is_ambig k); auto. apply gd_kids; auto. Qed.

Lemma gd_flatten c : gd c -> gd (flatten_ambig c).
Proof.
  intros H. destruct (is_ambig c) eqn:Ha; [|rewrite flatten_not_ambig; auto].
  pose proof (gd_ambig _ H Ha) as Hne. destruct (is_ambig_true _ Ha) as (ks & ->). rewrite flatten_ambig_Nd.
  apply gd_Nd in H. destruct H as (Hk & _ & _). apply gd_Nd. repeat split; auto.
  - apply gd_collapse_ambig; auto.
  - intros _. apply collapse_ambig_nonempty; auto. intros k Hin. rewrite Forall_forall in Hk. apply gd_ambig; auto.
Qed.

Lemma gd_ae r te cs : names_ok r -> Forall gd cs -> gd (ae te (plain r) cs).
Proof.
  intros Hn H. unfold ae. set (cs1 := map flatten_ambig cs).
  assert (H1 : Forall gd cs1).
  { unfold cs1. clear -H. induction H; simpl; constructor; auto. apply gd_flatten; auto. }
  destruct (ae_any te 0 cs1); [|apply gd_plain; auto].
  apply gd_Nd. repeat split; auto.
  - apply Forall_forall. intros k Hk. apply in_map_iff in Hk. destruct Hk as (f & <- & Hf).
    apply In_product in Hf. apply gd_plain; auto.
    destruct (ae_alts_sel _ _ _ _ Hf) as (_ & _ & S3). apply (S3 gd); auto. intros c _. apply gd_kids.
  - intros _ E. apply map_eq_nil in E. revert E. apply product_nonempty.
    clear -H1. generalize 0. induction H1 as [|c cs1 Hc _ IH]; simpl; intros i0; constructor; auto.
    destruct (is_ambig c && memn i0 te) eqn:Ea; [|discriminate].
    apply andb_true_iff in Ea. apply gd_ambig; tauto.
Qed.

Lemma gd_amb_cb r cs : names_ok r -> (forall l, In l (cil cs) -> Forall gd l) -> gd (amb_cb r cs).
Proof.
  intros Hn H.
  assert (Hf1 : forall l, In l (cil cs) -> gd (ae_cb r l)).
  { intros l Hl. unfold ae_cb. destruct (ae_spec r); [apply gd_plain | apply gd_ae]; auto. }
  rewrite amb_cb_eq. destruct (aie_cil (ae_cb r) cs) as [(E & ->)| ->].
  - apply Hf1. rewrite E. left; auto.
  - apply gd_Nd. repeat split; auto.
    + apply Forall_map, Forall_forall. exact Hf1.
    + intros _ E. apply map_eq_nil in E. exact (cil_nonempty cs E).
Qed.

Lemma X_call_collapse ts t' :
  X (call_ambig (collapse_ambig ts)) t' <-> exists t, In t ts /\ X t t'.
Proof.
  assert (H : forall data, X (call_ambig data) t' <-> exists k, In k data /\ X k t').
  { intros data. unfold call_ambig. destruct data as [|x [|y data]]; try apply X_ambig.
    split. intros H; exists x; simpl; auto. intros (k & [<-|[]] & H); auto. }
  rewrite H. apply X_collapse_ambig.
Qed.

Lemma gd_call_collapse ts : ts <> [] -> Forall gd ts -> gd (call_ambig (collapse_ambig ts)).
Proof.
  intros Hne H. pose proof (gd_collapse_ambig ts H) as H1.
  assert (H2 : collapse_ambig ts <> []).
  { apply collapse_ambig_nonempty; auto. intros k Hin. rewrite Forall_forall in H. apply gd_ambig; auto. }
  unfold call_ambig. destruct (collapse_ambig ts) as [|x [|y l]]; try congruence.
  - inversion H1; auto.
  - apply gd_Nd. repeat split; auto; discriminate.
Qed.

Lemma A2_call_collapse ts : Forall A2 ts -> A2 (call_ambig (collapse_ambig ts)).
Proof.
  intros H.
  assert (H1 : Forall A1 (collapse_ambig ts)).
  { apply (Forall_collapse_ambig A2 A1); auto. intros k Hk. destruct (is_ambig k) eqn:Ha; auto. apply A0_A1; auto. }
  unfold call_ambig. destruct (collapse_ambig ts) as [|x [|y rest]]; try (intros _; exact H1).
  inversion H1; subst. apply A1_A2; auto.
Qed.

Definition optP {A} (P : A -> Prop) (o : option A) : Prop := match o with Some a => P a | None => True end.

Section NodeInd.
  Variables (P : node -> Prop) (Q : packed -> Prop).
  Hypothesis HT : forall ty v, P (TokN ty v).
  Hypothesis HS : forall l fams, Forall Q fams -> P (SymN l fams).
  Hypothesis HP : forall r lf rt, optP P lf -> optP P rt -> Q (Pack r lf rt).
  Fixpoint node_ind2 (n : node) : P n :=
    match n with
    | TokN ty v => HT ty v
    | SymN l fams =>
        HS l fams ((fix go (fs : list packed) : Forall Q fs :=
                      match fs with [] => Forall_nil _ | p :: r => Forall_cons _ (packed_ind2 p) (go r) end) fams)
    end
  with packed_ind2 (p : packed) : Q p :=
    match p with
    | Pack r lf rt =>
        HP r lf rt
           (match lf as o return optP P o with Some n => node_ind2 n | None => I end)
           (match rt as o return optP P o with Some n => node_ind2 n | None => I end)
    end.
End NodeInd.

Definition prule (p : packed) : xrule := match p with Pack r _ _ => r end.

(* the children list handed to the rule callback / kept as a list under an intermediate parent *)
Definition pchildren (p : packed) : list tree :=
  match p with
  | Pack _ l rt =>
      (match l with Some ln => val_items (tn ln) | None => [] end) ++
      (match rt with Some rn => [val_tree (tn rn)] | None => [] end)
  end.

Lemma tp_eq b p : tp b p = if b then VL (pchildren p) else VT (amb_cb (prule p) (pchildren p)).
Proof. destruct p; reflexivity. Qed.

Lemma tn_SymN l fams :
  tn (SymN l fams) =
    let data := map (tp (lbl_inter l)) fams in
    if lbl_inter l
    then match data with [d] => d | _ => VT (Nd IAMBIG (map (fun c => Nd INTER (val_items c)) data)) end
    else VT (call_ambig (collapse_ambig (map val_tree data))).
Proof. reflexivity. Qed.

Lemma dn_SymN l fams :
  dn (SymN l fams) =
    flat_map (fun p => match l with
                       | LSym _ => map (fun ks => [DNode (prule p) ks]) (dp p)
                       | LInter _ _ => dp p
                       end) fams.
Proof.
  simpl. induction fams as [|p fams IH]; simpl; auto.
Qed.

Lemma dp_eq r l rt :
  dp (Pack r l rt) = app_product (match l with Some ln => dn ln | None => [[]] end)
                                 (match rt with Some rn => dn rn | None => [[]] end).
Proof. reflexivity. Qed.

Lemma wfnb_SymN l fams : wfnb (SymN l fams) = nonnil fams && forallb (wfpb l) fams.
Proof. reflexivity. Qed.

Lemma shape_DNode r ks : shape (DNode r ks) = plain r (map shape ks).
Proof. reflexivity. Qed.

Lemma esym_eqb_eq a b : esym_eqb a b = true -> a = b.
Proof.
  destruct a, b; unfold esym_eqb; simpl. rewrite !andb_true_iff. intros ((H1 & H2) & H3).
  apply String.eqb_eq in H1. apply Bool.eqb_prop in H2. apply Bool.eqb_prop in H3. congruence.
Qed.

Lemma xrule_eqb_eq a b : xrule_eqb a b = true -> a = b.
Proof.
  destruct a, b; unfold xrule_eqb; simpl. rewrite !andb_true_iff. intros ((((((H1 & H2) & H3) & H4) & H5) & H6) & H7).
  apply String.eqb_eq in H1. apply String.eqb_eq in H2. apply Bool.eqb_prop in H3. apply Bool.eqb_prop in H4.
  apply Bool.eqb_prop in H5. apply (list_eqb_eq _ esym_eqb_eq) in H6. apply (list_eqb_eq _ Bool.eqb_prop) in H7.
  congruence.
Qed.

Lemma rule_okb_names r : rule_okb r = true ->
  names_ok r /\ (starts_us (x_origin r) = true -> esc_on r = false).
Proof.
  unfold rule_okb, names_ok. rewrite !andb_true_iff, !negb_true_iff, orb_true_iff, !negb_true_iff.
  intros ((H1 & H2) & H3). repeat split; auto. intros E. destruct H3; congruence.
Qed.

Lemma wfnb_SymN_inv l fams : wfnb (SymN l fams) = true -> fams <> [] /\ forall p, In p fams -> wfpb l p = true.
Proof.
  rewrite wfnb_SymN, andb_true_iff, forallb_forall. intros (Hnn & Hwf). split; auto. destruct fams; [discriminate | congruence].
Qed.

Definition arity (l : label) (r : xrule) : nat :=
  match l with LSym _ => length (x_exp r) | LInter _ k => k end.

Lemma wfpb_inv l r lf rt : wfpb l (Pack r lf rt) = true ->
  rule_okb r = true /\
  match l with LSym a => x_origin r = a | LInter r' _ => r = r' end /\
  match arity l r with
  | 0 => lf = None /\ rt = None
  | S k' =>
      (exists rn, rt = Some rn /\ sym_matches (nth k' (x_exp r) dummy_sym) rn = true /\ wfnb rn = true) /\
      match k' with
      | 0 => lf = None
      | S _ => exists fs, lf = Some (SymN (LInter r k') fs) /\ wfnb (SymN (LInter r k') fs) = true
      end
  end.
Proof.
  simpl. fold (arity l r). rewrite !andb_true_iff. intros ((Hok & Hlab) & Hk). split; auto. split.
  - destruct l; [apply String.eqb_eq; auto|]. rewrite !andb_true_iff in Hlab. apply xrule_eqb_eq. tauto.
  - destruct (arity l r) as [|k']; [destruct lf, rt; try discriminate; auto|].
    apply andb_true_iff in Hk. destruct Hk as (Hrt & Hlf). split.
    + destruct rt as [rn|]; [|discriminate]. apply andb_true_iff in Hrt. eauto.
    + destruct k', lf as [[|[|r2 k2] fs]|]; try discriminate; auto.
      rewrite !andb_true_iff, Nat.eqb_eq in Hlf. destruct Hlf as ((Hr2 & ->) & Hwl).
      apply xrule_eqb_eq in Hr2. subst r2. eauto.
Qed.

Lemma wfpb_head l p : wfpb l p = true ->
  rule_okb (prule p) = true /\ match l with LSym a => x_origin (prule p) = a | LInter r _ => prule p = r end.
Proof. destruct p as [r lf rt]. intros H. apply wfpb_inv in H. tauto. Qed.

Definition POS (r : xrule) (l : list tree) : Prop :=
  forall i, i < length l -> should_expand (nth i (x_exp r) dummy_sym) = true -> A2 (nth i l Nn).

(* a tree tr standing for the derivations dr (each a singleton sequence) *)
Definition TF (tr : tree) (dr : list (list dtree)) : Prop :=
  gd tr /\ (forall t', X tr t' <-> exists d, In [d] dr /\ t' = shape d)
  /\ dr <> [] /\ (forall ds, In ds dr -> exists d, ds = [d]).

(* a children list cs of arity k under rule r standing for the derivation sequences dl *)
Definition LF (r : xrule) (k : nat) (cs : list tree) (dl : list (list dtree)) : Prop :=
  (forall l, In l (cil cs) -> Forall gd l /\ length l = k /\ POS r l) /\
  (forall cs', (exists l, In l (cil cs) /\ XL l cs') <-> exists ds, In ds dl /\ cs' = map shape ds) /\
  dl <> [].

Lemma cil_snoc xs t : xs <> [] \/ is_iambig t = false -> cil (xs ++ [t]) = map (fun l => l ++ [t]) (cil xs).
Proof.
  destruct xs as [|k0 rest]; [intros [?|H]; [congruence | simpl; rewrite H; reflexivity] | intros _]. simpl.
  destruct (is_iambig k0); auto. destruct (ci k0) as [|l0 col]; auto.
  simpl. rewrite map_map, <- app_assoc. f_equal. apply map_ext. intros l. rewrite app_assoc. reflexivity.
Qed.

Lemma XL_snoc l t cs' : XL (l ++ [t]) cs' <-> exists a b, cs' = a ++ [b] /\ XL l a /\ X t b.
Proof.
  split.
  - intros H. apply Forall2_app_inv_l in H. destruct H as (a & b & Ha & Hb & ->).
    inversion Hb as [|? y ? ? Hy Hn]; subst. inversion Hn; subst. eauto.
  - intros (a & b & -> & Ha & Hb). apply Forall2_app; auto.
Qed.

Lemma LF_snoc r k xs dl tr dr :
  LF r k xs dl -> TF tr dr -> (should_expand (nth k (x_exp r) dummy_sym) = true -> A2 tr) ->
  LF r (S k) (xs ++ [tr]) (app_product dl dr).
Proof.
  intros (L1 & L2 & L3) (Hgd & HX & Hne & Hs) HA.
  unfold LF. rewrite cil_snoc by (right; apply gd_not_iambig; auto). split; [|split].
  - intros l Hl. apply in_map_iff in Hl. destruct Hl as (l0 & <- & Hl0). destruct (L1 _ Hl0) as (G & Hlen & Hpos).
    rewrite app_length, Hlen. simpl. split; [apply Forall_app; auto|]. split; [lia|].
    intros i Hi Hse. rewrite app_length in Hi. simpl in Hi. destruct (Nat.lt_ge_cases i (length l0)).
    + rewrite app_nth1 by auto. apply Hpos; auto.
    + assert (i = k) by lia. subst i. rewrite app_nth2 by lia. rewrite Hlen, Nat.sub_diag. simpl. auto.
  - intros cs'. split.
    + intros (l & Hl & Hx). apply in_map_iff in Hl. destruct Hl as (l0 & <- & Hl0).
      apply XL_snoc in Hx. destruct Hx as (a & b & -> & Ha & Hb).
      destruct (proj1 (L2 a)) as (ds & Hds & ->); eauto.
      apply HX in Hb. destruct Hb as (d & Hd & ->).
      exists (ds ++ [d]). split. apply In_app_product. eauto. rewrite map_app. reflexivity.
    + intros (ds & Hds & ->). apply In_app_product in Hds. destruct Hds as (x & y & -> & Hx & Hy).
      destruct (Hs _ Hy) as (d & ->).
      destruct (proj2 (L2 (map shape x))) as (l0 & Hl0 & Hxl); eauto.
      exists (l0 ++ [tr]). split. apply in_map_iff; eauto.
      rewrite map_app. apply XL_snoc. exists (map shape x), (shape d). repeat split; auto. apply HX; eauto.
  - apply app_product_nonempty; auto.
Qed.

Lemma LF_nil r : LF r 0 [] (app_product [[]] [[]]).
Proof.
  unfold LF. simpl. split; [|split; [|discriminate]].
  - intros l [<-|[]]. repeat split; auto. intros i Hi; simpl in Hi; lia.
  - intros cs'. split.
    + intros (l & [<-|[]] & H). inversion H; subst. exists []; simpl; auto.
    + intros (ds & [<-|[]] & ->). exists []; split; simpl; auto. constructor.
Qed.

(* facts about a node in right-child position *)
Definition NIF (n : node) : Prop := tn n = VT (val_tree (tn n)) /\ TF (val_tree (tn n)) (dn n).

Definition Pn (n : node) : Prop :=
  wfnb n = true ->
  match n with
  | TokN _ _ => NIF n
  | SymN (LSym a) _ => NIF n /\ (starts_us a = true -> A2 (val_tree (tn n)))
  | SymN (LInter r k) _ => LF r k (val_items (tn n)) (dn n)
  end.

Definition Qp (p : packed) : Prop :=
  forall l, wfpb l p = true -> LF (prule p) (arity l (prule p)) (pchildren p) (dp p).

Lemma Pn_TokN ty v : Pn (TokN ty v).
Proof.
  intros _. unfold NIF, TF. simpl. repeat split; try discriminate.
  - intros H. apply X_Tk in H. subst. exists (DTok ty v). simpl; auto.
  - intros (d & [E|[]] & ->). inversion E; subst. apply X_Tk; auto.
  - intros ds [<-|[]]. eauto.
Qed.

Lemma right_child_facts s rn :
  Pn rn -> wfnb rn = true -> sym_matches s rn = true ->
  NIF rn /\ (should_expand s = true -> A2 (val_tree (tn rn))).
Proof.
  intros HP Hwf Hm. specialize (HP Hwf). destruct rn as [ty v|[a|r k] fams]; simpl in Hm.
  - split; auto. intros _ Ha. discriminate.
  - destruct HP as (H1 & H2). split; auto. intros Hse. apply H2.
    apply andb_true_iff in Hm. destruct Hm as (_ & Hm). apply String.eqb_eq in Hm. subst.
    unfold should_expand in Hse. apply andb_true_iff in Hse. tauto.
  - discriminate.
Qed.

Lemma Qp_Pack r lf rt : optP Pn lf -> optP Pn rt -> Qp (Pack r lf rt).
Proof.
  intros Hl Hr l Hwf. apply wfpb_inv in Hwf. destruct Hwf as (_ & _ & Hk). simpl prule. rewrite dp_eq.
  destruct (arity l r) as [|k'].
  - destruct Hk as (-> & ->). apply LF_nil.
  - destruct Hk as ((rn & -> & Hm & Hwr) & Hlf).
    destruct (right_child_facts _ _ Hr Hwr Hm) as ((Htn & HTF) & HA).
    destruct k' as [|k''].
    + subst lf. apply (LF_snoc r 0 [] _ _ _ (LF_nil r)); auto.
    + destruct Hlf as (fs & -> & Hwl). apply LF_snoc; auto.
Qed.

Lemma val_items_tp_true p : val_items (tp true p) = pchildren p.
Proof. rewrite tp_eq. reflexivity. Qed.

Lemma cil_iambig_items (xss : list (list tree)) l : xss <> [] ->
  (In l (cil [Nd IAMBIG (map (Nd INTER) xss)]) <-> exists xs, In xs xss /\ In l (cil xs)).
Proof.
  intros Hne.
  assert (Hia : forall x, is_iambig (Nd IAMBIG x) = true) by reflexivity.
  assert (Hci : ci (Nd IAMBIG (map (Nd INTER) xss)) = flat_map cil xss).
  { rewrite ci_Nd. clear. induction xss as [|xs xss IH]; simpl; auto. rewrite IH. reflexivity. }
  unfold cil at 1. rewrite Hia, Hci.
  destruct (flat_map cil xss) as [|l0 col] eqn:E.
  - exfalso. destruct xss as [|xs xss]; [congruence|]. simpl in E. apply app_eq_nil in E. destruct E as (E & _).
    eapply cil_nonempty; eauto.
  - rewrite <- E. rewrite in_map_iff. split.
    + intros (x & <- & Hx). rewrite app_nil_r. apply in_flat_map in Hx. exact Hx.
    + intros Hx. exists l. rewrite app_nil_r. split; auto. apply in_flat_map. exact Hx.
Qed.

Lemma tn_inter_multi lb p1 p2 fams : lbl_inter lb = true ->
  val_items (tn (SymN lb (p1 :: p2 :: fams))) = [Nd IAMBIG (map (Nd INTER) (map pchildren (p1 :: p2 :: fams)))].
Proof.
  intros Hi. rewrite tn_SymN. cbv zeta. rewrite Hi. simpl. rewrite !val_items_tp_true. do 4 f_equal.
  rewrite !map_map. apply map_ext. intros p. rewrite val_items_tp_true. reflexivity.
Qed.

Lemma cil_inter_items lb fams l : lbl_inter lb = true -> fams <> [] ->
  (In l (cil (val_items (tn (SymN lb fams)))) <-> exists p, In p fams /\ In l (cil (pchildren p))).
Proof.
  intros Hi Hne.
  destruct fams as [|p1 [|p2 fams]]; [congruence| |].
  - rewrite tn_SymN. cbv zeta. rewrite Hi. simpl map. cbv iota. rewrite val_items_tp_true. split.
    + intros H; exists p1; split; simpl; auto.
    + intros (p & [<-|[]] & H); auto.
  - rewrite tn_inter_multi by auto. rewrite cil_iambig_items by discriminate. split.
    + intros (xs & Hxs & Hl). apply in_map_iff in Hxs. destruct Hxs as (p & <- & Hp). eauto.
    + intros (p & Hp & Hl). exists (pchildren p). split; auto. apply in_map; auto.
Qed.

(* a rule of an inlined symbol keeps its node (rule_okb), so its callback nests _ambig at most two deep *)
Lemma A2_amb_cb r cs : name_ok r -> esc_on r = false -> A2 (amb_cb r cs).
Proof.
  intros Hn Hesc.
  assert (Hplain : forall l0, A0 (plain r l0)).
  { intros l0. unfold plain. rewrite Hesc. unfold A0. rewrite is_ambig_Nd. auto. }
  assert (Hf1 : forall l0, A1 (ae_cb r l0)).
  { intros l0. unfold ae_cb. destruct (ae_spec r); [apply A0_A1; auto|].
    unfold ae. destruct (ae_any _ _ _); [|apply A0_A1; auto]. intros _. apply Forall_map, Forall_forall. auto. }
  rewrite amb_cb_eq. destruct (aie_cil (ae_cb r) cs) as [(_ & ->)| ->]; [apply A1_A2; auto|].
  intros _. apply Forall_map, Forall_forall. auto.
Qed.

Lemma TF_amb_cb r cs dl : names_ok r -> LF r (length (x_exp r)) cs dl ->
  TF (amb_cb r cs) (map (fun ks => [DNode r ks]) dl).
Proof.
  intros Hn (L1 & L2 & L3). split; [|split; [|split]].
  - apply gd_amb_cb; auto. intros l Hl. apply (L1 l Hl).
  - intros t'. rewrite amb_cb_X.
    + split.
      * intros (l & l' & Hl & Hxl & ->). destruct (proj1 (L2 l')) as (ds & Hds & ->); eauto.
        exists (DNode r ds). split; auto. apply in_map_iff; eauto.
      * intros (d & Hd & ->). apply in_map_iff in Hd. destruct Hd as (ds & E & Hds). inversion E; subst.
        destruct (proj2 (L2 (map shape ds))) as (l & Hl & Hxl); eauto.
    + apply Hn.
    + intros l Hl. destruct (L1 _ Hl) as (G & Hlen & Hpos). split; [apply (Forall_impl _ gd_ne); auto|].
      intros i Hi. apply inlined_props in Hi. destruct Hi as (Hi1 & Hi2 & _). apply Hpos; auto. lia.
  - intros E. apply map_eq_nil in E. auto.
  - intros ds Hds. apply in_map_iff in Hds. destruct Hds as (ks & <- & _). eauto.
Qed.

Lemma TF_union {A} (f : A -> tree) (g : A -> list (list dtree)) xs :
  xs <> [] -> (forall x, In x xs -> TF (f x) (g x)) -> TF (call_ambig (collapse_ambig (map f xs))) (flat_map g xs).
Proof.
  intros Hne H. split; [|split; [|split]].
  - apply gd_call_collapse; [destruct xs; [congruence|discriminate]|].
    apply Forall_map, Forall_forall. intros x Hx. apply (H x Hx).
  - intros t'. rewrite X_call_collapse. split.
    + intros (t & Ht & Hx). apply in_map_iff in Ht. destruct Ht as (x & <- & Hin).
      apply (H x Hin) in Hx. destruct Hx as (d & Hd & ->). exists d. split; auto. apply in_flat_map; eauto.
    + intros (d & Hd & ->). apply in_flat_map in Hd. destruct Hd as (x & Hin & Hd).
      exists (f x). split; [apply in_map; auto|]. apply (H x Hin). eauto.
  - destruct xs as [|x xs]; [congruence|]. simpl. intros E. apply app_eq_nil in E.
    destruct (H x (or_introl eq_refl)) as (_ & _ & Hn & _). tauto.
  - intros ds Hds. apply in_flat_map in Hds. destruct Hds as (x & Hin & Hd). apply (H x Hin); auto.
Qed.

Lemma Pn_sym a fams : Forall Qp fams -> Pn (SymN (LSym a) fams).
Proof.
  intros HQ Hwf. apply wfnb_SymN_inv in Hwf. destruct Hwf as (Hne & Hwf). rewrite Forall_forall in HQ.
  assert (Htn : tn (SymN (LSym a) fams)
                = VT (call_ambig (collapse_ambig (map (fun p => amb_cb (prule p) (pchildren p)) fams)))).
  { rewrite tn_SymN. cbv zeta. simpl lbl_inter. cbv iota. rewrite map_map. do 3 f_equal.
    apply map_ext. intros p. rewrite tp_eq. reflexivity. }
  assert (Hnames : forall p, In p fams -> names_ok (prule p) /\ (starts_us a = true -> esc_on (prule p) = false)).
  { intros p Hp. destruct (wfpb_head _ _ (Hwf p Hp)) as (Hok & <-). apply rule_okb_names; auto. }
  split.
  - unfold NIF. rewrite Htn. simpl val_tree. split; auto. rewrite dn_SymN.
    apply (TF_union (fun p => amb_cb (prule p) (pchildren p)) (fun p => map (fun ks => [DNode (prule p) ks]) (dp p))); auto.
    intros p Hp. apply TF_amb_cb; [apply Hnames; auto|]. apply (HQ p Hp (LSym a)); auto.
  - (* an inlined symbol keeps its rule's node, so _ambig nests at most two deep *)
    intros Hus. rewrite Htn. simpl val_tree. apply A2_call_collapse, Forall_map, Forall_forall. intros p Hp.
    destruct (Hnames p Hp) as ((Hn1 & _) & Hesc). apply A2_amb_cb; auto.
Qed.

Lemma Pn_inter r k fams : Forall Qp fams -> Pn (SymN (LInter r k) fams).
Proof.
  intros HQ Hwf. apply wfnb_SymN_inv in Hwf. destruct Hwf as (Hne & Hwf). rewrite Forall_forall in HQ.
  assert (HLF : forall p, In p fams -> LF r k (pchildren p) (dp p)).
  { intros p Hp. pose proof (HQ p Hp (LInter r k) (Hwf p Hp)) as H.
    rewrite (proj2 (wfpb_head _ _ (Hwf p Hp))) in H. exact H. }
  assert (Hcil : forall l0, In l0 (cil (val_items (tn (SymN (LInter r k) fams))))
                            <-> exists p, In p fams /\ In l0 (cil (pchildren p))).
  { intros l0. apply cil_inter_items; auto. }
  rewrite dn_SymN. split; [|split].
  - intros l0 Hl0. apply Hcil in Hl0. destruct Hl0 as (p & Hp & Hl). apply (HLF p Hp); auto.
  - intros cs'. split.
    + intros (l0 & Hl0 & Hx). apply Hcil in Hl0. destruct Hl0 as (p & Hp & Hl).
      destruct (HLF p Hp) as (_ & L2 & _). destruct (proj1 (L2 cs')) as (ds & Hds & ->); eauto.
      exists ds; split; auto. apply in_flat_map. eauto.
    + intros (ds & Hds & ->). apply in_flat_map in Hds. destruct Hds as (p & Hp & Hds).
      destruct (HLF p Hp) as (_ & L2 & _). destruct (proj2 (L2 (map shape ds))) as (l0 & Hl0 & Hx); eauto.
      exists l0; split; auto. apply Hcil. eauto.
  - destruct fams as [|p fams]; [congruence|]. simpl. intros E. apply app_eq_nil in E.
    destruct (HLF p (or_introl eq_refl)) as (_ & _ & L3). tauto.
Qed.

Theorem Pn_all n : Pn n.
Proof.
  apply (node_ind2 Pn Qp). apply Pn_TokN. intros [a|r k]; [apply Pn_sym | apply Pn_inter]. apply Qp_Pack.
Qed.

Lemma root_okb_sym n : root_okb n = true -> exists a fams, n = SymN (LSym a) fams /\ wfnb n = true.
Proof. destruct n as [|[a|] fams]; simpl; try discriminate. eauto. Qed.

Lemma root_NIF n : root_okb n = true -> NIF n.
Proof.
  intros H. destruct (root_okb_sym n H) as (a & fams & -> & Hwf). apply (Pn_all _ Hwf).
Qed.

Lemma In_derivs n d : (forall ds, In ds (dn n) -> exists d0, ds = [d0]) -> (In d (derivs n) <-> In [d] (dn n)).
Proof.
  intros Hs. unfold derivs. rewrite in_concat. split.
  - intros (ds & Hds & Hd). destruct (Hs _ Hds) as (d0 & ->). destruct Hd as [<-|[]]. auto.
  - intros H. exists [d]; simpl; auto.
Qed.

Theorem B_expand_exact n : root_okb n = true ->
  forall t, In t (expand (to_tree_explicit n)) <-> In t (map shape (derivs n)).
Proof.
  intros H t. destruct (root_NIF n H) as (_ & (_ & HX & _ & Hs)). unfold to_tree_explicit.
  change (In t (expand (val_tree (tn n)))) with (X (val_tree (tn n)) t). rewrite HX, in_map_iff. split.
  - intros (d & Hd & ->). exists d; split; auto. apply In_derivs; auto.
  - intros (d & <- & Hd). exists d; split; auto. apply In_derivs; auto.
Qed.

(* the explicit tree has no '_iambig' left and no '_ambig' without alternatives; the forest has a derivation *)
Theorem B_tree_tidy n : root_okb n = true -> gdb (to_tree_explicit n) = true /\ derivs n <> [].
Proof.
  intros H. destruct (root_NIF n H) as (_ & (Hgd & _ & Hne & Hs)). split. exact Hgd.
  destruct (dn n) as [|ds dl] eqn:E; [congruence|]. destruct (Hs ds (or_introl eq_refl)) as (d & ->).
  unfold derivs. rewrite E. simpl. discriminate.
Qed.

(* CollapseAmbiguities *)
Fixpoint cl (isamb : bool) (rs : list (res (list tree))) : res (list (list tree)) :=
  match rs with
  | [] => Ok []
  | r :: rest =>
      rbind r (fun a =>
        match a with
        | [] => if isamb then rbind (cl isamb rest) (fun b => Ok (a :: b)) else AssertFail
        | _ => rbind (cl isamb rest) (fun b => Ok (a :: b))
        end)
  end.

Lemma collapse_Nd d ks :
  collapse (Nd d ks) =
    rbind (cl (String.eqb d AMBIG) (map collapse ks))
          (fun ls => if String.eqb d AMBIG then Ok (List.concat ls) else Ok (map (Nd d) (product ls))).
Proof.
  simpl. f_equal. induction ks as [|k ks IH]; simpl; auto. rewrite IH. reflexivity.
Qed.

Lemma cl_ok isamb ks ls :
  Forall (fun k => forall l, collapse k = Ok l -> l = expand k) ks ->
  cl isamb (map collapse ks) = Ok ls -> ls = map expand ks.
Proof.
  intros H; revert ls; induction H as [|k ks Hk _ IH]; simpl; intros ls E.
  - inversion E; auto.
  - destruct (collapse k) as [a| |] eqn:Ek; simpl in E; try discriminate.
    rewrite (Hk a eq_refl) in *.
    assert (E' : rbind (cl isamb (map collapse ks)) (fun b => Ok (expand k :: b)) = Ok ls).
    { destruct (expand k); auto. destruct isamb; auto. discriminate. }
    destruct (cl isamb (map collapse ks)) as [b| |]; simpl in E'; try discriminate.
    inversion E'; subst. f_equal. apply IH; auto.
Qed.

Theorem collapse_ok_is_expand t l : collapse t = Ok l -> l = expand t.
Proof.
  revert l. induction t as [ty v| |d ks IH] using tree_ind2; intros l E.
  - inversion E; auto. - inversion E; auto.
  - rewrite collapse_Nd in E. destruct (cl (String.eqb d AMBIG) (map collapse ks)) as [ls| |] eqn:Ec; simpl in E; try discriminate.
    apply cl_ok in Ec; auto. subst ls. rewrite expand_Nd. destruct (String.eqb d AMBIG); inversion E; auto.
Qed.

Lemma inh_expand_nonempty t : inh t -> expand t <> [].
Proof. intros (t' & H) E. unfold X in H. rewrite E in H. destruct H. Qed.

Theorem collapse_total t : noempty t = true -> collapse t = Ok (expand t).
Proof.
  induction t as [ty v| |d ks IH] using tree_ind2; intros Hne; auto.
  rewrite collapse_Nd, expand_Nd. pose proof (ne_kids _ _ Hne) as Hk.
  assert (E : cl (String.eqb d AMBIG) (map collapse ks) = Ok (map expand ks)).
  { clear Hne. induction IH as [|k ks Hk1 _ IH2]; simpl; auto. inversion Hk; subst.
    rewrite (Hk1 H1). simpl. rewrite (IH2 H2). simpl.
    destruct (expand k) eqn:Ek; auto. exfalso. apply (inh_expand_nonempty k); auto. apply ne_inh; auto. }
  rewrite E. simpl. destruct (String.eqb d AMBIG); auto.
Qed.

Theorem collapse_explicit n : root_okb n = true ->
  collapse (to_tree_explicit n) = Ok (expand (to_tree_explicit n)).
Proof.
  intros H. apply collapse_total. apply gd_ne. apply B_tree_tidy; auto.
Qed.

(* F6 / F6b: the utility as it was in the snapshot fails on None placeholders (witness trees are the explicit
   trees of  start: [A] b / b: A? "c"  on "ac"  and of  start: q A / ?q: [A] | b / b: B*  on "a") *)
Definition f6_tree : tree :=
  Nd AMBIG [Nd "start" [Tk "A" "a"; Nd "b" []]; Nd "start" [Nn; Nd "b" [Tk "A" "a"]]].
Definition f6b_tree : tree :=
  Nd "start" [Nd AMBIG [Nd "b" []; Nn]; Tk "A" "a"].

Theorem collapse_none_refuted :
  collapse_old false false f6_tree = AssertFail
  /\ expand f6_tree = [Nd "start" [Tk "A" "a"; Nd "b" []]; Nd "start" [Nn; Nd "b" [Tk "A" "a"]]]
  /\ collapse_old true false f6b_tree = AssertFail
  /\ expand f6b_tree = [Nd "start" [Nd "b" []; Tk "A" "a"]; Nd "start" [Nn; Tk "A" "a"]]
  /\ collapse f6_tree = Ok (expand f6_tree) /\ collapse f6b_tree = Ok (expand f6b_tree).
Proof. repeat split; vm_compute; reflexivity. Qed.
