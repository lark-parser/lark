(* Proofs about the PropagatePositions model Pos/MetaSpan.v: meta_span. *)
From Coq Require Import ZArith List Bool Lia.
From LV Require Import Pos.MetaSpan Pos.PropPosModel.
Import ListNotations.

Definition last_error {X} (l : list X) : option X := hd_error (rev l).
Definition first_start (l : list (trip * trip)) : option trip := option_map fst (hd_error l).
Definition last_end (l : list (trip * trip)) : option trip := option_map snd (last_error l).

Section Lists.
Context {X V : Type}.

Lemma Forall2_diag (R : X -> X -> Prop) l : Forall (fun x => R x x) l -> Forall2 R l l.
Proof. induction 1; constructor; auto. Qed.

Lemma Forall2_impl (R R' : X -> V -> Prop) xs vs :
  (forall x v, R x v -> R' x v) -> Forall2 R xs vs -> Forall2 R' xs vs.
Proof. intros H. induction 1; constructor; auto. Qed.

Lemma flat_nil_in (g : X -> list V) l x : flat_map g l = [] -> In x l -> g x = [].
Proof.
  induction l as [|y l IH]; intros H Hx; [destruct Hx|]. cbn in H. apply app_eq_nil in H.
  destruct H. destruct Hx as [<- | Hx]; auto.
Qed.

Lemma last_error_snoc (l : list X) x : last_error (l ++ [x]) = Some x.
Proof. unfold last_error. rewrite rev_app_distr. reflexivity. Qed.

Lemma last_error_inv (l : list X) y : last_error l = Some y -> exists r, l = r ++ [y].
Proof.
  unfold last_error. intros H. exists (rev (tl (rev l))). rewrite <- (rev_involutive l) at 1.
  destruct (rev l) as [|z r]; [discriminate|]. injection H as ->. reflexivity.
Qed.

End Lists.

Lemma first_start_app a b : a <> [] -> first_start (a ++ b) = first_start a.
Proof. destruct a; [congruence|reflexivity]. Qed.

Lemma last_end_app a b : b <> [] -> last_end (a ++ b) = last_end b.
Proof.
  intros H. destruct (exists_last H) as (b' & x & ->). unfold last_end.
  rewrite app_assoc, !last_error_snoc. reflexivity.
Qed.

Lemma span_nonempty ts : ts <> [] -> exists s e, first_start ts = Some s /\ last_end ts = Some e.
Proof.
  intros H. destruct (exists_last H) as (r & u & ->). exists (fst (hd u r)), (snd u). unfold last_end.
  rewrite last_error_snoc. split; [destruct r; reflexivity|reflexivity].
Qed.

Lemma or_else_not_none {X} (x y : option X) : y <> None -> or_else x y <> None.
Proof. destruct x; [discriminate|auto]. Qed.

Lemma first_view_in l f : first_view l = Some f -> exists c, In c l /\ view c = Some f.
Proof.
  induction l as [|c l IH]; [discriminate|]. cbn [first_view].
  destruct (view c) as [m|] eqn:E.
  - intros [= <-]. exists c. split; [left; reflexivity|exact E].
  - intros H. destruct (IH H) as (c' & Hin & Hv). exists c'. split; [right; exact Hin|exact Hv].
Qed.

Lemma first_view_none l : first_view l = None <-> Forall (fun c => view c = None) l.
Proof.
  induction l as [|c r IH]; cbn [first_view]; [split; auto|].
  destruct (view c) eqn:E.
  - split; [discriminate|]. intros H. inversion H; congruence.
  - rewrite IH. split; [intros; constructor; auto|intros H; inversion H; auto].
Qed.

Lemma first_view_app a b : first_view (a ++ b) = or_else (first_view a) (first_view b).
Proof.
  induction a as [|c a IH]; [reflexivity|]. cbn [app first_view]. destruct (view c); [reflexivity|exact IH].
Qed.

(* the two halves of PropagatePositions.__call__: what is written from the first / the last child that
   offers a meta *)
Definition widen_start (res f : meta) : meta :=
  let s := or_else (m_cstart f) (m_start f) in mkMeta (or_else (m_start res) s) (m_end res) s (m_cend res).
Definition widen_end (res l : meta) : meta :=
  let e := or_else (m_cend l) (m_end l) in mkMeta (m_start res) (or_else (m_end res) e) (m_cstart res) e.
Definition half (w : meta -> meta -> meta) (res : meta) (src : option meta) : meta :=
  match src with Some f => w res f | None => res end.

Lemma propagate_halves res ch :
  propagate res ch = half widen_end (half widen_start res (first_view ch)) (first_view (rev ch)).
Proof. reflexivity. Qed.

Lemma first_view_rev_none l : first_view l = None <-> first_view (rev l) = None.
Proof.
  rewrite !first_view_none. split; intros H; [|rewrite <- (rev_involutive l)]; apply Forall_rev, H.
Qed.

Lemma first_view_full l f : Forall full_shaped l -> first_view l = Some f -> m_start f <> None /\ m_end f <> None.
Proof.
  induction 1 as [|c r Hc _ IH]; [discriminate|]. cbn [first_view].
  destruct c as [s e|m|]; cbn [view].
  - intros [= <-]. cbn. split; discriminate.
  - destruct (m_empty m) eqn:E; [exact IH|]. intros [= <-]. exact (Hc E).
  - exact IH.
Qed.

(* every meta PropagatePositions writes is full when the children's are: the getattr defaults never raise *)
Lemma propagate_full m ch : full_meta m -> Forall full_shaped ch -> full_meta (propagate m ch).
Proof.
  intros Hm Hf. unfold propagate.
  pose proof (first_view_full ch) as F. pose proof (first_view_full (rev ch)) as L.
  specialize (fun f => F f Hf). specialize (fun f => L f (Forall_rev Hf)).
  pose proof (first_view_rev_none ch) as N.
  destruct (first_view ch) as [f|]; destruct (first_view (rev ch)) as [l|].
  - destruct (F f eq_refl) as (F1 & _). destruct (L l eq_refl) as (_ & L2).
    intros _. split; apply or_else_not_none, or_else_not_none; assumption.
  - destruct N as (_ & N). specialize (N eq_refl). discriminate.
  - destruct N as (N & _). specialize (N eq_refl). discriminate.
  - exact Hm.
Qed.

(* [s] offers exactly the span of the token list [ts] (container fields when present, else its own),
   and nothing when there is no token *)
Definition offers (s : shaped) (ts : list (trip * trip)) : Prop :=
  match view s with
  | Some f => ts <> [] /\ or_else (m_cstart f) (m_start f) = first_start ts /\
              or_else (m_cend f) (m_end f) = last_end ts
  | None => ts = []
  end.

Lemma offers_tok se : offers (SHTok (fst se) (snd se)) [se].
Proof. unfold offers. cbn. repeat split. discriminate. Qed.

Lemma offers_tree m ts :
  offers (SHTree m) ts <->
  if m_empty m then ts = []
  else ts <> [] /\ or_else (m_cstart m) (m_start m) = first_start ts /\ or_else (m_cend m) (m_end m) = last_end ts.
Proof. unfold offers. cbn [view]. destruct (m_empty m); reflexivity. Qed.

Section Spans.
Context {X V : Type} (tk : X -> list (trip * trip)) (sh : V -> shaped).
Notation R := (fun x v => offers (sh v) (tk x)).

Lemma first_view_span xs vs : Forall2 R xs vs ->
  match first_view (map sh vs) with
  | Some f => flat_map tk xs <> [] /\ or_else (m_cstart f) (m_start f) = first_start (flat_map tk xs)
  | None => flat_map tk xs = []
  end.
Proof.
  induction 1 as [|x v xs vs H _ IH]; [reflexivity|]. cbn [map first_view flat_map]. unfold offers in H.
  destruct (view (sh v)) as [f|].
  - destruct H as (Hne & Hs & _). rewrite first_start_app by exact Hne. split; [|exact Hs].
    intros E. apply app_eq_nil in E. tauto.
  - rewrite H. exact IH.
Qed.

Lemma last_view_span xs vs : Forall2 R xs vs ->
  match first_view (rev (map sh vs)) with
  | Some l => flat_map tk xs <> [] /\ or_else (m_cend l) (m_end l) = last_end (flat_map tk xs)
  | None => flat_map tk xs = []
  end.
Proof.
  induction 1 as [|x v xs vs H _ IH]; [reflexivity|]. cbn [map rev flat_map]. rewrite first_view_app.
  destruct (first_view (rev (map sh vs))) as [l|]; cbn [or_else first_view].
  - destruct IH as (Hne & He). rewrite last_end_app by exact Hne. split; [|exact He].
    intros E. apply app_eq_nil in E. tauto.
  - rewrite IH, app_nil_r. unfold offers in H. destruct (view (sh v)) as [f|]; [|exact H].
    destruct H as (Hne & _ & He). split; assumption.
Qed.

(* PropagatePositions.__call__ in terms of the tokens below the children: nothing is written when there
   are none; otherwise the container fields become their span and the own fields are filled in if unset *)
Lemma propagate_span res xs vs : Forall2 R xs vs ->
  let ts := flat_map tk xs in
  propagate res (map sh vs) =
  match ts with
  | [] => res
  | _ :: _ => mkMeta (or_else (m_start res) (first_start ts)) (or_else (m_end res) (last_end ts))
                     (first_start ts) (last_end ts)
  end.
Proof.
  intros H. pose proof (first_view_span xs vs H) as F. pose proof (last_view_span xs vs H) as L.
  cbv zeta. unfold propagate.
  destruct (first_view (map sh vs)) as [f|]; destruct (first_view (rev (map sh vs))) as [l|].
  - destruct F as (Hne & ->), L as (_ & ->). destruct (flat_map tk xs); [congruence|reflexivity].
  - destruct F. congruence.
  - destruct L. congruence.
  - rewrite F. reflexivity.
Qed.

Lemma offers_propagate res xs vs : Forall2 R xs vs ->
  (flat_map tk xs = [] -> m_empty res = true) ->
  offers (SHTree (propagate res (map sh vs))) (flat_map tk xs).
Proof.
  intros H He. rewrite (propagate_span res xs vs H). cbv zeta. apply offers_tree.
  destruct (flat_map tk xs) as [|t r]; [rewrite (He eq_refl); reflexivity|].
  destruct (span_nonempty (t :: r)) as (s & e & -> & ->); [discriminate|].
  unfold m_empty. cbn. destruct (m_start res); repeat split; discriminate.
Qed.
End Spans.

(* Well-formed callback trees inside the class where the property holds:
   every child was produced by a recorded callback or is a token / None; a node builder that
   returns one of its children returns an existing one; and (exclusion of finding F23) when the
   returned child is a bare Token, the rule matched no other token. *)
Inductive good : ptree -> Prop :=
| g_tok se : good (PTok se)
| g_none : good PNone
| g_fresh o cs : Forall good cs -> good (PNode None o cs)
| g_pass k o cs : Forall good cs -> k < length cs ->
    build (nth k cs PNone) <> SHNone ->
    (forall s e, build (nth k cs PNone) = SHTok s e -> flat_map toks cs = toks (nth k cs PNone)) ->
    good (PNode (Some k) o cs).

Section Ind.
Variable P : ptree -> Prop.
Hypothesis Htok : forall se, P (PTok se).
Hypothesis Hleaf : forall m, P (PLeaf m).
Hypothesis Hnone : P PNone.
Hypothesis Hnode : forall sel o cs, Forall P cs -> P (PNode sel o cs).
Fixpoint ptree_ind' (p : ptree) : P p :=
  match p with
  | PTok se => Htok se
  | PLeaf m => Hleaf m
  | PNone => Hnone
  | PNode sel o cs =>
      Hnode sel o cs ((fix go (l : list ptree) : Forall P l :=
                         match l with
                         | [] => Forall_nil P
                         | x :: r => Forall_cons x (ptree_ind' x) (go r)
                         end) cs)
  end.
End Ind.

Definition Inv (p : ptree) : Prop := offers (build p) (toks p) /\ full_shaped (build p).

Lemma Inv_kids_span cs : Forall Inv cs -> Forall2 (fun x v => offers (build v) (toks x)) cs cs.
Proof. intros H. apply Forall2_diag. eapply Forall_impl; [|exact H]. intros c Hc. apply Hc. Qed.

Lemma good_Inv p : good p -> Inv p.
Proof.
  induction p as [se|m| |sel o cs IH] using ptree_ind'; intros G.
  - split; [apply offers_tok|exact I].
  - inversion G.
  - split; [reflexivity|exact I].
  - assert (Hcs : Forall Inv cs).
    { inversion G; subst; rewrite Forall_forall in *; auto. }
    pose proof (Inv_kids_span cs Hcs) as Hsp.
    assert (Hfull : Forall full_shaped (map build cs)).
    { apply Forall_map. eapply Forall_impl; [|exact Hcs]. intros c Hc. apply Hc. }
    unfold Inv. cbn [build toks].
    inversion G as [| |o' cs' Gc|k o' cs' Gc Hk Hnn Htk]; subst.
    + split; [apply (offers_propagate toks build); [exact Hsp|reflexivity]|].
      apply propagate_full; [intros [=]|exact Hfull].
    + assert (Hin : In (nth k cs PNone) cs) by (apply nth_In; exact Hk).
      assert (Hik : Inv (nth k cs PNone)) by (rewrite Forall_forall in Hcs; auto).
      rewrite (map_nth build cs PNone k : nth k (map build cs) SHNone = _). unfold Inv in Hik.
      destruct (build (nth k cs PNone)) as [s e|m|] eqn:Eb; [| |congruence].
      * rewrite (Htk s e eq_refl). exact Hik.
      * (* tree: own fields kept, container widened; if the rule matched no token, child k matched none either *)
        destruct Hik as (Ho & Hf). split; [|apply propagate_full; assumption].
        apply (offers_propagate toks build); [exact Hsp|]. intros E.
        rewrite (flat_nil_in toks cs _ E Hin) in Ho. apply offers_tree in Ho.
        destruct (m_empty m); [reflexivity|destruct Ho; congruence].
Qed.

Lemma good_kids_span sel o cs : good (PNode sel o cs) -> Forall2 (fun x v => offers (build v) (toks x)) cs cs.
Proof.
  intros G. apply Inv_kids_span. assert (Gc : Forall good cs) by (inversion G; assumption).
  eapply Forall_impl; [|exact Gc]. exact good_Inv.
Qed.

(* C06 meta_span: a fresh tree node's own meta (and its container fields) span exactly from the
   start of the first to the end of the last token its rule matched - filtered tokens included,
   recursively through inlined rules; a rule that matched no token leaves the meta empty *)
Theorem meta_span o cs :
  good (PNode None o cs) ->
  exists m, build (PNode None o cs) = SHTree m /\
    m_start m = first_start (flat_map toks cs) /\ m_end m = last_end (flat_map toks cs) /\
    m_cstart m = m_start m /\ m_cend m = m_end m /\
    (m_empty m = true <-> flat_map toks cs = []).
Proof.
  intros G. cbn [build]. eexists; split; [reflexivity|].
  rewrite (propagate_span toks build empty_meta cs cs (good_kids_span _ _ _ G)). cbv zeta.
  destruct (flat_map toks cs) as [|t r] eqn:E; [repeat split; auto|].
  destruct (span_nonempty (t :: r)) as (s & e & -> & ->); [discriminate|].
  cbn. repeat split; discriminate.
Qed.

(* an inlined [?rule] that returns a sub-tree keeps that tree's own span and widens only the
   container fields, which is what the parent reads *)
Theorem meta_passthrough k o cs m :
  good (PNode (Some k) o cs) -> build (nth k cs PNone) = SHTree m -> m_empty m = false ->
  exists m', build (PNode (Some k) o cs) = SHTree m' /\
    m_start m' = m_start m /\ m_end m' = m_end m /\
    m_cstart m' = first_start (flat_map toks cs) /\ m_cend m' = last_end (flat_map toks cs).
Proof.
  intros G Eb Hne. pose proof (good_kids_span _ _ _ G) as Hsp.
  inversion G as [| | |k' o' cs' Gc Hk Hnn Htk]; subst.
  assert (Hin : In (nth k cs PNone) cs) by (apply nth_In; exact Hk).
  destruct (good_Inv (nth k cs PNone)) as (Ho & Hf); [rewrite Forall_forall in Gc; auto|].
  rewrite Eb in Ho, Hf. destruct (Hf Hne) as (S1 & S2).
  apply offers_tree in Ho. rewrite Hne in Ho. destruct Ho as (Hk0 & _).
  cbn [build]. rewrite (map_nth build cs PNone k : nth k (map build cs) SHNone = _), Eb.
  eexists; split; [reflexivity|]. rewrite (propagate_span toks build m cs cs Hsp). cbv zeta.
  destruct (flat_map toks cs) as [|t r] eqn:E; [elim Hk0; exact (flat_nil_in toks cs _ E Hin)|].
  cbn. destruct (m_start m); [|congruence]. destruct (m_end m); [|congruence]. repeat split.
Qed.

(* Necessity of the token clause of [good] (finding F23): for [start: atom "x"], [?atom: "(" NUM ")"]
   on the input "(1)x" the inlined rule returns the bare NUM token, the filtered "(" is forgotten,
   and the parent's meta starts at offset 1 instead of 0. *)
Local Open Scope Z_scope.
Definition f23_tree : ptree :=
  PNode None OOther
    [PNode (Some 1%nat) OOther [PTok ((0, 1, 1), (1, 1, 2)); PTok ((1, 1, 2), (2, 1, 3)); PTok ((2, 1, 3), (3, 1, 4))];
     PTok ((3, 1, 4), (4, 1, 5))].

Lemma meta_span_inlined_token_refuted :
  exists o cs m, f23_tree = PNode None o cs /\ build (PNode None o cs) = SHTree m /\
    m_start m = Some (1, 1, 2) /\ first_start (flat_map toks cs) = Some (0, 1, 1).
Proof. do 3 eexists. split; [reflexivity|]. vm_compute. repeat split. Qed.

(* Children's spans are ordered, disjoint and nested in the parent's.
   Token streams in text order are [ordered] (for the lexer's own tokens C06 lexer_coords states this as
   [chain]); a child's matched tokens are a
   contiguous segment b of the parent's a ++ b ++ c, and by meta_span every span is
   (start of first, end of last) of its segment. *)
Definition tpos (t : trip) : Z := fst (fst t).

Fixpoint ordered (l : list (trip * trip)) : Prop :=
  match l with
  | [] => True
  | x :: r => tpos (fst x) <= tpos (snd x) /\
              match r with [] => True | y :: _ => tpos (snd x) <= tpos (fst y) end /\ ordered r
  end.

Lemma ordered_head_le x r y : ordered (x :: r) -> In y r -> tpos (snd x) <= tpos (fst y) /\ tpos (snd x) <= tpos (snd y).
Proof.
  revert x. induction r as [|z r IH]; intros x H Hin; [destruct Hin|].
  destruct H as (Hx & Hxz & Hr). pose proof Hr as (Hz & _ & _).
  destruct Hin as [<- | Hin]; [lia|].
  destruct (IH z Hr Hin). lia.
Qed.

Lemma ordered_tail x r : ordered (x :: r) -> ordered r.
Proof. intros (_ & _ & H). exact H. Qed.

Lemma ordered_app_r a b : ordered (a ++ b) -> ordered b.
Proof. induction a as [|x a IH]; [auto|]. intros H. apply IH. exact (ordered_tail _ _ H). Qed.

Lemma ordered_app_l a b : ordered (a ++ b) -> ordered a.
Proof.
  induction a as [|x a IH]; [intros; exact I|]. cbn [app ordered]. intros (H1 & H2 & H3).
  split; [exact H1|]. split; [destruct a; [exact I|exact H2]|auto].
Qed.

Lemma ordered_each l x : ordered l -> In x l -> tpos (fst x) <= tpos (snd x).
Proof.
  induction l as [|y l IH]; intros H Hx; [destruct Hx|]. destruct Hx as [<- | Hx]; [apply H|].
  exact (IH (ordered_tail _ _ H) Hx).
Qed.

Lemma ordered_app_le a b x y : ordered (a ++ b) -> In x a -> In y b -> tpos (snd x) <= tpos (fst y).
Proof.
  induction a as [|z a IH]; intros H Hx Hy; [destruct Hx|].
  destruct Hx as [<- | Hx].
  - apply (ordered_head_le z (a ++ b) y H). apply in_or_app. right. exact Hy.
  - apply IH; auto. exact (ordered_tail _ _ H).
Qed.

Lemma ordered_within b x y : ordered b -> hd_error b = Some x -> last_error b = Some y ->
  tpos (fst x) <= tpos (snd y) /\ (forall z, In z b -> tpos (fst x) <= tpos (fst z) /\ tpos (snd z) <= tpos (snd y)).
Proof.
  intros H Hh Hl. destruct b as [|x' r]; [discriminate|]. injection Hh as ->.
  pose proof (ordered_each _ x H (or_introl eq_refl)) as Hx.
  assert (A1 : forall z, In z (x :: r) -> tpos (fst x) <= tpos (fst z)).
  { intros z [<- | Hz]; [lia|]. pose proof (ordered_app_le [x] r x z H (or_introl eq_refl) Hz). lia. }
  assert (A2 : forall z, In z (x :: r) -> tpos (snd z) <= tpos (snd y)).
  { destruct (last_error_inv _ _ Hl) as (r' & E). rewrite E in *. intros z Hz.
    assert (Hy : tpos (fst y) <= tpos (snd y)).
    { apply (ordered_each _ y H), in_or_app. right. left. reflexivity. }
    apply in_app_or in Hz. destruct Hz as [Hz | [<- | []]]; [|lia].
    pose proof (ordered_app_le r' [y] z y H Hz (or_introl eq_refl)). lia. }
  split; [specialize (A2 x (or_introl eq_refl)); lia|]. intros z Hz. split; auto.
Qed.

Theorem spans_ordered_nested a b c s e s' e' :
  ordered (a ++ b ++ c) ->
  first_start (a ++ b ++ c) = Some s -> last_end (a ++ b ++ c) = Some e ->
  first_start b = Some s' -> last_end b = Some e' ->
  tpos s <= tpos s' /\ tpos s' <= tpos e' /\ tpos e' <= tpos e /\
  (forall x, In x a -> tpos (snd x) <= tpos s') /\ (forall y, In y c -> tpos e' <= tpos (fst y)).
Proof.
  intros H Hs He Hs' He'.
  unfold first_start, last_end in *.
  destruct (hd_error (a ++ b ++ c)) as [t0|] eqn:E0; [|discriminate]. injection Hs as <-.
  destruct (last_error (a ++ b ++ c)) as [t1|] eqn:E1; [|discriminate]. injection He as <-.
  destruct (hd_error b) as [u0|] eqn:F0; [|discriminate]. injection Hs' as <-.
  destruct (last_error b) as [u1|] eqn:F1; [|discriminate]. injection He' as <-.
  destruct (ordered_within _ _ _ H E0 E1) as (_ & Hall).
  assert (Hb : ordered b) by (apply ordered_app_r, ordered_app_l in H; exact H).
  destruct (ordered_within _ _ _ Hb F0 F1) as (Hse & _).
  assert (Iu0 : In u0 b) by (destruct b; [discriminate|injection F0 as ->; left; reflexivity]).
  assert (Iu1 : In u1 b).
  { destruct (last_error_inv _ _ F1) as (r & ->). apply in_or_app. right. left. reflexivity. }
  split; [apply Hall; apply in_or_app; right; apply in_or_app; left; exact Iu0|].
  split; [exact Hse|].
  split; [apply Hall; apply in_or_app; right; apply in_or_app; left; exact Iu1|].
  split.
  - intros x Hx. apply (ordered_app_le a (b ++ c) x u0 H Hx). apply in_or_app. left. exact Iu0.
  - intros y Hy. apply ordered_app_r in H. apply (ordered_app_le b c u1 y H Iu1 Hy).
Qed.
