(* C19, stretch: the token-level round trip in full.  For rule sets of the class, a matcher that returns only
   supported matches and returns one whenever one exists, and literals for all filtered terminals:
   reconstruction of every tree the parser can return succeeds, its token sequence is accepted with that tree,
   and for an unambiguous rule set every parse of it gives that tree. *)
From Coq Require Import String Ascii List Arith Bool Lia.
From LV Require Import Base.Prelude Cfg.Grammar Recons.Recons Recons.Recons_proofs Recons.ReconsCheck
     Recons.ReconsCheck_proofs Recons.Complete_proofs.
Import ListNotations.

Lemma height_child d cs c : In c cs -> height c < height (Node d cs).
Proof.
  simpl. induction cs as [|x cs IH]; intros H; [contradiction|]. simpl. destruct H as [->|H].
  - lia.
  - specialize (IH H). lia.
Qed.

Section Full.
  Variable us : nat -> bool.
  Variable P : list prule.
  Hypothesis Hc : cls us P.
  Hypothesis Hx : cls_extra us P.
  Variable lit : nat -> option string.
  Hypothesis Hlit : forall r n, In r P -> In (Tm n true) (p_exp r) -> lit n <> None.
  Hypothesis Hdisj : forall r n fo, In r P -> In (Tm n fo) (p_exp r) ->
                     forall r', In r' P -> p_origin r' <> n /\ p_alias r' <> Some n.

  Notation rules := (rules us P).
  Notation rule_names := (rule_names P).
  Notation recons_sym := (recons_sym us P).
  Notation wf := (wf P).
  Notation wf_args := (wf_args P).

  Definition ptree (t : stree) : Prop :=
    exists pr ds, wf (DNode pr ds) /\ uncollapsed us (DNode pr ds) /\ shape us (DNode pr ds) = t.
  Definition is_term_name (n : nat) : Prop := exists r fo, In r P /\ In (Tm n fo) (p_exp r).
  Definition child_ok (c : stree) : Prop :=
    match c with Tok n _ => is_term_name n | Node _ _ => ptree c end.

  Lemma uncollapsed_shape pr ds : uncollapsed us (DNode pr ds) ->
    shape us (DNode pr ds) = Node (sym_name pr) (kids us (DNode pr ds)).
  Proof. intros (_ & Hu). apply shape_node; auto. Qed.

  Lemma child_ok_uncollapsed pr ds : wf (DNode pr ds) -> uncollapsed us (DNode pr ds) ->
    child_ok (shape us (DNode pr ds)).
  Proof.
    intros Hwf Hun. pose proof (uncollapsed_shape _ _ Hun) as E. rewrite E. cbn [child_ok].
    exists pr, ds. split; [exact Hwf|split; [exact Hun|exact E]].
  Qed.

  Definition Kd (d : dtree) : Prop :=
    match d with
    | DTok _ _ => True
    | DNode pr _ => Forall child_ok (kids us d) /\ (us (p_origin pr) = false -> child_ok (shape us d))
    end.

  Lemma kids_children :
    (forall d, wf d -> Kd d) /\
    (forall ss ds, wf_args ss ds ->
       forall pr, In pr P -> (forall s, In s ss -> In s (p_exp pr)) -> Forall child_ok (kids_go us ss ds)).
  Proof.
    apply wf_mutind.
    - intros; exact I.
    - intros pr ds HinP Hargs HK. pose proof (wf_node P _ _ HinP Hargs) as Hwf.
      assert (H1 : Forall child_ok (kids us (DNode pr ds))) by (rewrite kids_eq; apply (HK pr); auto).
      split; auto. intros Hus.
      destruct (p_expand1 pr && negb (has_alias pr)) eqn:E.
      + remember (kids us (DNode pr ds)) as ks eqn:Ek. destruct ks as [|k [|k2 ks]].
        * apply child_ok_uncollapsed; auto. split; auto. intros _ _. rewrite <- Ek. simpl. lia.
        * unfold shape, wrap. rewrite E, <- Ek. inversion H1; auto.
        * apply child_ok_uncollapsed; auto. split; auto. intros _ _. rewrite <- Ek. simpl. lia.
      + apply child_ok_uncollapsed; auto. split; auto.
        intros He Ha. unfold has_alias in E. rewrite He, Ha in E. discriminate.
    - constructor.
    - intros n fo t ss ds _ IH pr HinP Hsub. cbn [kids_go contrib]. apply Forall_app. split.
      + destruct fo; [constructor|]. cbn [kids]. constructor; [|constructor].
        exists pr, false. split; auto. apply Hsub. left; auto.
      + apply (IH pr); auto. intros; apply Hsub; right; auto.
    - intros a r ds0 ss ds <- _ (H1 & H2) _ IH pr HinP Hsub. cbn [kids_go contrib]. apply Forall_app. split.
      + destruct (us (p_origin r)) eqn:E; auto.
      + apply (IH pr); auto. intros; apply Hsub; right; auto.
  Qed.

  Lemma ptree_node t : ptree t -> exists pr ds, wf (DNode pr ds) /\ uncollapsed us (DNode pr ds) /\
                                   t = Node (sym_name pr) (kids us (DNode pr ds)) /\ In pr P.
  Proof.
    intros (pr & ds & Hwf & Hun & <-). exists pr, ds. repeat split; auto; try apply Hun.
    - apply uncollapsed_shape; auto.
    - apply (wf_root _ _ _ Hwf).
  Qed.

  Lemma ptree_children data cs : ptree (Node data cs) -> Forall child_ok cs.
  Proof.
    intros Hp. destruct (ptree_node _ Hp) as (pr & ds & Hwf & _ & E & _). inversion E; subst.
    apply (proj1 kids_children (DNode pr ds) Hwf).
  Qed.

  (* WriteTokensTransformer does not fail on matches of parser trees *)
  Definition Wnode (u : utree) : Prop :=
    match u with
    | ULeaf _ => True
    | UNode r _ => In (r_origin r) rule_names -> Forall child_ok (leaves u) -> exists items, write lit u = OList (Ok items)
    end.

  Lemma node_name_not_term d cs n : ptree (Node d cs) -> is_term_name n -> d <> n.
  Proof.
    intros Hp (r & fo & Hr & Hs). destruct (ptree_node _ Hp) as (pr & ds & _ & _ & E & Hin). inversion E; subst.
    destruct (Hdisj _ _ _ Hr Hs pr Hin) as (H1 & H2). unfold sym_name. destruct (p_alias pr); congruence.
  Qed.

  Lemma walk_ok : forall ss args, uargs_gen Wnode (map recons_sym (filter kept ss)) args ->
    (forall s, In s ss -> exists r, In r P /\ In s (p_exp r)) ->
    Forall child_ok (flat_map leaves args) ->
    exists items, walk lit ss (map (write lit) args) = Ok items.
  Proof.
    induction ss as [|s ss IH]; intros args Hu Hsub Hch.
    - simpl in Hu. inversion Hu; subst. exists []. reflexivity.
    - assert (Hsub' : forall s0, In s0 ss -> exists r, In r P /\ In s0 (p_exp r)) by (intros; apply Hsub; right; auto).
      destruct (Hsub s (or_introl eq_refl)) as (r0 & Hr0 & Hs0).
      destruct s as [n fo|a].
      + destruct fo.
        * simpl in Hu. destruct (IH args Hu Hsub' Hch) as (items & Hw).
          simpl. destruct (lit n) as [v|] eqn:El; [|exfalso; eapply Hlit; eauto].
          rewrite Hw. simpl. eauto.
        * simpl in Hu. inversion Hu as [|t c ss0 args' Hm Hu'|]; subst.
          cbn [flat_map leaves app] in Hch. inversion Hch as [|? ? Hc0 Hch']; subst.
          destruct (IH args' Hu' Hsub' Hch') as (items & Hw).
          unfold cmatch in Hm. apply Nat.eqb_eq in Hm.
          destruct c as [ty text|d cs'].
          -- simpl in Hm. subst ty. simpl. rewrite Nat.eqb_refl, Hw. simpl. eauto.
          -- exfalso. simpl in Hm. apply (node_name_not_term d cs' n Hc0); eauto. exists r0, false. auto.
      + simpl in Hu. unfold Recons.recons_sym in Hu. fold recons_sym in Hu.
        destruct (is_nonterminal us P a) eqn:Enon.
        * inversion Hu as [| |a0 r' args0 ss0 args' Ho Hv Hu']; subst.
          cbn [flat_map] in Hch. apply Forall_app in Hch. destruct Hch as (Hch0 & Hch').
          assert (Hname : In (r_origin r') rule_names) by (apply is_nonterminal_iff in Enon; tauto).
          destruct (Hv Hname Hch0) as (l1 & Hw1).
          destruct (IH args' Hu' Hsub' Hch') as (l2 & Hw2).
          cbn [map walk discarded]. rewrite Hw1. cbn [rbind]. rewrite Hw2. cbn [rbind]. eauto.
        * inversion Hu as [|t c ss0 args' Hm Hu'|]; subst.
          cbn [flat_map leaves app] in Hch. inversion Hch as [|? ? Hc0 Hch']; subst.
          destruct (IH args' Hu' Hsub' Hch') as (items & Hw).
          unfold cmatch in Hm. apply Nat.eqb_eq in Hm.
          assert (Ha : In a rule_names) by (eapply (c_closed Hc); eauto).
          destruct c as [ty text|d cs'].
          -- exfalso. simpl in Hm. subst ty. simpl in Hc0. destruct Hc0 as (r1 & fo & Hr1 & Hs1).
             unfold Recons.rule_names in Ha. apply in_map_iff in Ha. destruct Ha as (r2 & E2 & Hr2).
             destruct (Hdisj _ _ _ Hr1 Hs1 r2 Hr2) as (H1 & _). congruence.
          -- simpl in Hm. subst d. simpl. rewrite Nat.eqb_refl, Hw. simpl. eauto.
  Qed.

  Lemma unit_ok (V : utree -> Prop) nm args :
    (exists r', In r' P /\ (p_origin r' = nm \/ p_alias r' = Some nm)) ->
    uargs_gen V [T nm] args -> Forall child_ok (flat_map leaves args) ->
    exists items, walk lit [Nt nm] (map (write lit) args) = Ok items.
  Proof.
    intros (r' & Hr' & Hnm) Hu Hch.
    inversion Hu as [|t c ss0 args' Hm Hu'|]; subst. inversion Hu'; subst.
    cbn [flat_map leaves app] in Hch. inversion Hch as [|? ? Hc0 _]; subst.
    unfold cmatch in Hm. apply Nat.eqb_eq in Hm. destruct c as [ty text|d cs'].
    - exfalso. simpl in Hm. subst ty. simpl in Hc0. destruct Hc0 as (r1 & fo & Hr1 & Hs1).
      destruct (Hdisj _ _ _ Hr1 Hs1 r' Hr') as (H1 & H2). destruct Hnm; congruence.
    - simpl in Hm. subst d. simpl. rewrite Nat.eqb_refl. eauto.
  Qed.

  Lemma write_ok : forall u, uvalid rules u -> Wnode u.
  Proof.
    apply uvalid_ind2. intros r args Hin Hu Hname Hch. cbn [leaves] in *. cbn [write].
    apply (rules_kind us P) in Hin.
    assert (Hw : exists items, walk lit (r_orig r) (map (write lit) args) = Ok items).
    { destruct Hin as [pr HinP _ _ _ | pr HinP _ _ | pr HinP Hal | pr al HinP Hal];
        cbn [regular Recons.regular unit_rule r_origin r_exp r_orig] in *.
      - apply walk_ok; auto. intros s Hs. exists pr. auto.
      - apply (unit_ok Wnode); auto. exists pr. split; auto. unfold sym_name. destruct (p_alias pr); auto.
      - apply (unit_ok Wnode); auto. exists pr. auto.
      - apply (unit_ok Wnode); auto. exists pr. auto. }
    destruct Hw as (items & ->). eauto.
  Qed.

  Variable M : stree -> option utree.
  (* only asked of trees the parser can return *)
  Hypothesis M_ok : forall t u, ptree t -> M t = Some u -> exists data cs, t = Node data cs /\ supported us P u data cs.
  Hypothesis M_complete : forall data cs, (exists u, supported us P u data cs) -> M (Node data cs) <> None.

  Lemma recon_succeeds : forall f t, ptree t -> height t <= f -> exists toks, recon lit M f t = Ok toks.
  Proof.
    induction f as [|f IH]; intros t Hp Hh; destruct (ptree_node _ Hp) as (pr & ds & Hwf & Hun & -> & HinP).
    - simpl in Hh. lia.
    - set (data := sym_name pr) in *. set (cs := kids us (DNode pr ds)) in *.
      pose proof (ptree_children _ _ Hp) as Hch.
      destruct (match_exists us P Hc Hx pr ds Hwf Hun) as (u0 & Hs0).
      destruct (M (Node data cs)) as [u|] eqn:EM; [|exfalso; eapply M_complete; eauto].
      destruct (M_ok _ _ Hp EM) as (data' & cs' & E & Hsup). inversion E; subst data' cs'. clear E.
      destruct Hsup as (r & args & -> & Hin & Hu & Hl & _).
      destruct (rfr_kind us P _ _ Hin) as (pr' & HinP' & -> & Hsn). cbn [regular r_exp leaves] in *.
      destruct (walk_ok (p_exp pr') args) as (items & Hw); auto.
      { exact (uargs_gen_impl _ _ write_ok _ _ Hu). }
      { intros s Hs. exists pr'. auto. }
      { rewrite Hl. exact Hch. }
      assert (Ew : write lit (UNode (regular us P pr') args) = OList (Ok items)).
      { cbn [write regular r_orig]. rewrite Hw. reflexivity. }
      pose proof (write_items lit _ _ Ew) as Hit. rewrite Forall_forall in Hit. cbn [leaves] in Hit. rewrite Hl in Hit.
      cbn [recon]. rewrite EM, Ew.
      eexists. apply expand_eq. intros c Hc'. destruct c as [n s|d cs0]; auto.
      specialize (Hit _ Hc'). simpl in Hit. rewrite Forall_forall in Hch.
      apply IH; [apply (Hch _ Hit)|]. pose proof (height_child data cs _ Hit). lia.
  Qed.

  Theorem recons_token_roundtrip_p start pr0 ds0 :
    wf (DNode pr0 ds0) -> p_origin pr0 = start -> ~ In start (expand1s P) -> us start = false ->
    exists fuel toks, recon lit M fuel (shape us (DNode pr0 ds0)) = Ok toks /\
      parses us P start toks (shape us (DNode pr0 ds0)) /\
      (unambiguous P start -> forall t', parses us P start toks t' -> t' = shape us (DNode pr0 ds0)).
  Proof.
    intros Hwf0 Hs0 Hne Hus.
    assert (Hp : ptree (shape us (DNode pr0 ds0))).
    { exists pr0, ds0. repeat split; auto; [rewrite Hs0; auto|].
      intros He _. exfalso. apply Hne. rewrite <- Hs0. apply In_expand1s. exists pr0. split; auto.
      apply (wf_root _ _ _ Hwf0). }
    destruct (recon_succeeds (height (shape us (DNode pr0 ds0))) _ Hp (le_n _)) as (toks & Hr).
    exists (height (shape us (DNode pr0 ds0))), toks. split; auto.
    apply (sound_roundtrip us P Hc); auto.
    apply (recon_sound_on us P Hc lit M ptree) with (3 := Hp) (4 := Hr); auto.
    intros data cs d cs0 Hq Hin. pose proof (ptree_children _ _ Hq) as Hch. rewrite Forall_forall in Hch.
    exact (Hch _ Hin).
  Qed.
End Full.

(* the same with the matcher hypothesis asked of every tree *)
Theorem recons_token_roundtrip us P (Hc : cls us P) (Hx : cls_extra us P) lit
  (Hlit : forall r n, In r P -> In (Tm n true) (p_exp r) -> lit n <> None)
  (Hdisj : forall r n fo, In r P -> In (Tm n fo) (p_exp r) ->
           forall r', In r' P -> p_origin r' <> n /\ p_alias r' <> Some n)
  M (M_ok : forall t u, M t = Some u -> exists data cs, t = Node data cs /\ supported us P u data cs)
  (M_complete : forall data cs, (exists u, supported us P u data cs) -> M (Node data cs) <> None)
  start pr0 ds0 :
  wf P (DNode pr0 ds0) -> p_origin pr0 = start -> ~ In start (expand1s P) -> us start = false ->
  exists fuel toks, recon lit M fuel (shape us (DNode pr0 ds0)) = Ok toks /\
    parses us P start toks (shape us (DNode pr0 ds0)) /\
    (unambiguous P start -> forall t', parses us P start toks t' -> t' = shape us (DNode pr0 ds0)).
Proof.
  apply (recons_token_roundtrip_p us P Hc Hx lit Hlit Hdisj M); auto.
Qed.
