(* C03, Earley / resolve leg: the tree ForestToParseTree(resolve) builds with lark's chain
   callbacks is [shape] of a derivation stored in the forest, which (Forest/ExplicitBuild)
   is a well-formed derivation of the grammar whose lexemes tile the input. *)
From Coq Require Import ZArith String Ascii List Bool Arith Lia.
From LV Require Import Base.Prelude Cfg.Grammar Forest.Sppf Forest.Sppf_proofs Forest.Prio Forest.Prio_proofs
  Forest.ExplicitBuild Forest.ExplicitBuild_proofs
  Shape.Chain Shape.Spec Shape.Chain_proofs Shape.Shape_proofs Shape.Cnf Shape.Cnf_proofs Shape.EarleyLeg.
Import ListNotations.

Section SDtreeInd.
  Variable P : Sppf.dtree -> Prop.
  Hypothesis Hl : forall a b c, P (DLeaf a b c).
  Hypothesis Hn : forall r cs, Forall P cs -> P (Sppf.DNode r cs).
  Fixpoint sdtree_ind' (t : Sppf.dtree) : P t :=
    match t with
    | DLeaf a b c => Hl a b c
    | Sppf.DNode r cs => Hn r cs ((fix go l : Forall P l :=
                                     match l with [] => Forall_nil P | x :: r' => Forall_cons x (sdtree_ind' x) (go r') end) cs)
    end.
End SDtreeInd.

Section Bridge.
  Variable X : Type.
  Variable cb : rinfo -> list X -> option X.
  Variable tokf : string -> string -> X.
  Variable keyf : bool -> packed -> key.
  Notation resolve_cb := (resolve_cb X cb tokf keyf).
  Notation resolve_cb_p := (resolve_cb_p X cb tokf keyf).
  Notation eval_f := (eval_f X cb tokf).

  Lemma resolve_cb_sym l fams :
    resolve_cb (Sym l fams) =
    match best_by (keyf (l_inter l)) fams with
    | None => Some []
    | Some p => wrap_cb X cb (l_inter l) p (resolve_cb_p p)
    end.
  Proof.
    set (Fv := fun p : packed => wrap_cb X cb (l_inter l) p (resolve_cb_p p)).
    change (resolve_cb (Sym l fams)) with
      (match ksort (map (fun p => (keyf (l_inter l) p, Fv p)) fams) with [] => Some [] | (_, t) :: _ => t end).
    set (L := ksort (map (fun p => (keyf (l_inter l) p, Fv p)) fams)).
    assert (H : hd_error L = option_map (fun a => (keyf (l_inter l) a, Fv a)) (best_by (keyf (l_inter l)) fams)).
    { unfold L. rewrite hd_ksort, kbest_map. reflexivity. }
    destruct (best_by (keyf (l_inter l)) fams) as [p|]; cbn [option_map] in H.
    - destruct L as [|[k t] L']; [discriminate|]. cbn in H. injection H as _ ->. reflexivity.
    - destruct L as [|[k t] L']; [reflexivity|discriminate].
  Qed.

  Lemma resolve_cb_bridge :
    (forall s, resolve_cb s = all_some (map eval_f (resolve_with keyf s))) /\
    (forall p, resolve_cb_p p = all_some (map eval_f (resolve_with_p keyf p))).
  Proof.
    apply sym_packed_ind.
    - intros a b c. reflexivity.
    - intros l fams IH. rewrite resolve_cb_sym, resolve_with_sym.
      destruct (best_by (keyf (l_inter l)) fams) as [p|] eqn:E; [|reflexivity].
      pose proof (best_by_in _ _ _ E) as Hp. rewrite Forall_forall in IH. rewrite (IH p Hp).
      unfold wrap_cb, wrap. destruct (l_inter l); [reflexivity|].
      cbn [map all_some EarleyLeg.eval_f].
      destruct (all_some (map eval_f (resolve_with_p keyf p))) as [vs|]; [|reflexivity].
      destruct (cb (p_rule p) vs); reflexivity.
    - intros r lft rgt IHl IHr. cbn [EarleyLeg.resolve_cb_p]. rewrite resolve_with_pack, map_app, all_some_app.
      f_equal.
      + destruct lft as [s|]; [apply IHl; reflexivity|reflexivity].
      + destruct rgt as [s|]; [apply IHr; reflexivity|reflexivity].
  Qed.
End Bridge.

Section Table.
  Variable rules : list rrec.
  Variable mp : bool.
  Hypothesis Htable : Forall (fun r => rule_wf r mp = true /\ inline_ok r = true) rules.

  Lemma rule_at_ok r : rule_wf (rule_at rules r) mp = true /\ inline_ok (rule_at rules r) = true.
  Proof.
    unfold rule_at. destruct (nth_in_or_default (Z.to_nat (r_id r)) rules dflt_rule) as [H| ->].
    - rewrite Forall_forall in Htable. apply Htable. exact H.
    - split; [destruct mp|]; reflexivity.
  Qed.

  Lemma eval_f_chain t : eval_f stree (chain_cb rules mp) Tok t = eval_chain mp (to_dtree rules t).
  Proof.
    induction t as [a b c|r cs IH] using sdtree_ind'; [reflexivity|].
    cbn [EarleyLeg.eval_f to_dtree Cnf.eval_chain]. rewrite map_map, (map_ext_Forall _ _ IH). reflexivity.
  Qed.

  Lemma eval_chain_shape t : wf_dtree mp (to_dtree rules t) = true ->
    eval_f stree (chain_cb rules mp) Tok t = shape mp (to_dtree rules t).
  Proof. intros Hwf. rewrite eval_f_chain. apply Cnf_proofs.eval_chain_shape. exact Hwf. Qed.

  Variable nt_ix : string -> nat.
  Variable t_ix : string -> nat.
  Hypothesis nt_inj : forall a b, nt_ix a = nt_ix b -> a = b.
  Hypothesis t_inj : forall a b, t_ix a = t_ix b -> a = b.
  Notation G := (cfg_grammar rules nt_ix t_ix).
  Notation lexeme := EarleyLeg.lexeme.
  Notation to_dt := (to_dt rules nt_ix t_ix).
  Notation cfg_of := (cfg_of nt_ix t_ix).
  Notation lx_match := (lx_match t_ix).

  Variable F : nlabel lexeme -> family lexeme -> Prop.
  Notation unf := (unf rules nt_ix t_ix F).
  Notation unf_p := (unf_p rules nt_ix t_ix F).

  Lemma unf_den :
    (forall s lbl, unf s lbl -> forall ds, In ds (derivs s) -> den lexeme F lbl (map to_dt ds)) /\
    (forall p lbl, unf_p p lbl -> forall ds, In ds (derivs_p p) ->
                   den lexeme F lbl (pack lexeme lbl (cfg_of (rule_at rules (p_rule p))) (map to_dt ds))).
  Proof.
    apply sym_packed_ind.
    - intros a b c lbl (i & j & ->) ds [<-|[]]. simpl. constructor.
    - intros l fams IH lbl (Hi & Hlbl & Hf) ds Hin. rewrite derivs_sym in Hin.
      apply in_flat_map in Hin. destruct Hin as (p & Hp & Hin). apply in_map_iff in Hin.
      destruct Hin as (ds' & <- & Hds').
      assert (Hup : unf_p p lbl).
      { clear -Hp Hf. induction fams as [|q fams IHf]; [destruct Hp|]. simpl in Hf. destruct Hf as [Hq Hf].
        destruct Hp as [->|Hp]; auto. }
      rewrite Forall_forall in IH. specialize (IH p Hp lbl Hup ds' Hds').
      unfold wrap. rewrite Hi. destruct lbl; simpl in *; try tauto; exact IH.
    - intros r lft rgt IHl IHr lbl (lo & ro & HF & Hl & Hr) ds Hin. rewrite derivs_pack in Hin.
      apply in_cross_inv in Hin. destruct Hin as (a & b & -> & Ha & Hb). rewrite map_app.
      cbn [p_rule]. eapply den_fam; [exact HF| |].
      + destruct lft as [s|], lo as [l'|]; try tauto.
        * constructor. apply (IHl s eq_refl l' Hl a Ha).
        * simpl in Ha. destruct Ha as [<-|[]]. constructor.
      + destruct rgt as [s|], ro as [l'|]; try tauto.
        * constructor. apply (IHr s eq_refl l' Hr b Hb).
        * simpl in Hb. destruct Hb as [<-|[]]. constructor.
  Qed.

  Lemma wfd_wf t : forall sy, wfd G lexeme lx_match (to_dt t) sy -> wf_dtree mp (to_dtree rules t) = true.
  Proof.
    induction t as [a b c|r cs IH] using sdtree_ind'; intros sy Hw; [reflexivity|].
    cbn [EarleyLeg.to_dt] in Hw. inversion Hw as [|r0 ks Hin HF2]; subst.
    cbn [to_dtree wf_dtree]. destruct (rule_at_ok r) as [H1 H2]. rewrite H1, H2. cbn [andb].
    unfold EarleyLeg.cfg_of in HF2. cbn [rhs] in HF2.
    apply andb_true_iff. split.
    - clear Hw Hin H1 H2. revert HF2 IH. generalize (r_exp (rule_at rules r)) as exp.
      induction cs as [|c cs IHc]; intros [|s exp] HF2 IH; inversion HF2; subst; [reflexivity|]. simpl.
      apply andb_true_iff. split; [|inversion IH; subst; eapply IHc; eauto].
      match goal with H : wfd _ _ _ (to_dt c) _ |- _ => rename H into Hc end.
      destruct c as [r' cs'|a b c']; cbn [EarleyLeg.to_dt to_dtree child_ok] in *; inversion Hc; subst.
      + unfold cfg_sym in *. destruct (s_term s); [discriminate|]. simpl.
        match goal with H : NT _ = NT _ |- _ => injection H as Heq end.
        unfold EarleyLeg.cfg_of in Heq. cbn [lhs] in Heq. apply nt_inj in Heq. rewrite Heq. apply String.eqb_refl.
      + unfold cfg_sym in *. destruct (s_term s); [|discriminate]. simpl.
        match goal with H : T _ = T _ |- _ => injection H as Heq end.
        apply t_inj in Heq. rewrite Heq. apply String.eqb_refl.
    - clear Hw Hin H1 H2. revert HF2 IH. generalize (map (cfg_sym nt_ix t_ix) (r_exp (rule_at rules r))) as syms.
      induction cs as [|c cs IHc]; intros syms HF2 IH; [reflexivity|].
      inversion HF2; subst. inversion IH; subst. simpl. apply andb_true_iff. split; eauto.
  Qed.

  Variable tlen : lexeme -> nat.
  Variable occurs : lexeme -> nat -> bool.
  Hypothesis HFok : forall lbl f, F lbl f -> fam_ok G lexeme lx_match tlen occurs lbl f.

  Theorem earley_resolve_is_shape_of_derivation s a i j :
    wfb s = true -> unf s (NSym lexeme a i j) ->
    exists t,
      resolve s = [t] /\
      wfd G lexeme lx_match (to_dt t) (NT a) /\
      tiles lexeme tlen occurs i j (yield lexeme (to_dt t)) /\
      wf_dtree mp (to_dtree rules t) = true /\
      earley_resolve rules mp s = option_map (fun v => [v]) (shape mp (to_dtree rules t)).
  Proof.
    intros Hwf Hu.
    pose proof (resolve_in_derivs s Hwf) as Hin.
    pose proof (proj1 unf_den s _ Hu _ Hin) as Hden.
    pose proof (A_sound_gen G lexeme lx_match tlen occurs F HFok _ _ Hden) as Hs.
    simpl in Hs. destruct Hs as (d & Hd & Hw & Ht).
    destruct (resolve s) as [|t [|t2 rest]] eqn:Er; simpl in Hd; try discriminate.
    injection Hd as <-. exists t. split; [reflexivity|]. split; [exact Hw|]. split; [exact Ht|].
    pose proof (wfd_wf t _ Hw) as Hwd. split; [exact Hwd|].
    unfold earley_resolve. rewrite (proj1 (resolve_cb_bridge stree (chain_cb rules mp) Tok pkey) s).
    fold (resolve s). rewrite Er. cbn [map all_some]. rewrite (eval_chain_shape t Hwd).
    destruct (shape mp (to_dtree rules t)); reflexivity.
  Qed.
End Table.
