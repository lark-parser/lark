(* Proofs about Inst/Instance.v: the coherence invariant of the lazy cells and history
   independence of every operation. *)
From Coq Require Import ZArith List Bool String Arith Lia.
From LV Require Import Base.Prelude Sys.IndenterBase Gen.IndenterHoles Sys.Indenter Inst.IndSteps Inst.Instance.
Import ListNotations.

Section Proofs.
Variable Conf Sc CB : Type.
Variable mk_scanner : Conf -> Sc.
Variable mk_callback : Conf -> CB.
Variable mk_search : Conf -> Sc.
Variables LexSt Err Text : Type.
Variable at_end : LexSt -> bool.
Variable ntfuel : LexSt -> nat.
Variable init_ls : Text -> nat -> LexSt.
Variable iter : Conf -> Sc -> CB -> LexSt -> iter_res LexSt Err.
Variable search : Sc -> Text -> nat -> option nat.
Variable sc_want : Text -> nat -> list tok -> bool.
Variable sc_end : Text -> nat -> list tok -> pend Err -> option nat.

Notation lcell := (lcell Sc CB).
Notation inst := (inst Sc CB).
Notation iconf := (iconf Conf).
Notation force_scanner := (force_scanner mk_scanner mk_callback).
Notation force_search := (force_search (CB:=CB) mk_search).
Notation next_token := (next_token mk_scanner mk_callback at_end iter).
Notation nt_pure := (nt_pure mk_scanner mk_callback at_end iter).
Notation ppull := (ppull mk_scanner mk_callback at_end ntfuel iter).
Notation ppull_pure := (ppull_pure mk_scanner mk_callback at_end ntfuel iter).
Notation pull_stream := (pull_stream mk_scanner mk_callback at_end ntfuel iter).
Notation pull_pure := (pull_pure mk_scanner mk_callback at_end ntfuel iter).
Notation scan_loop := (scan_loop mk_scanner mk_callback mk_search at_end ntfuel init_ls iter search sc_want sc_end).
Notation scan_pure := (scan_pure mk_scanner mk_callback mk_search at_end ntfuel init_ls iter search sc_want sc_end).
Notation run_op := (run_op mk_scanner mk_callback mk_search at_end ntfuel init_ls iter search sc_want sc_end).
Notation op_pure := (op_pure mk_scanner mk_callback mk_search at_end ntfuel init_ls iter search sc_want sc_end).
Notation run_hist := (run_hist mk_scanner mk_callback mk_search at_end ntfuel init_ls iter search sc_want sc_end).

Definition coherent1 (c : Conf) (l : lcell) : Prop :=
  (c_scanner l = None \/ c_scanner l = Some (mk_scanner c)) /\
  (c_callback l = None \/ c_callback l = Some (mk_callback c)) /\
  (c_search l = None \/ c_search l = Some (mk_search c)) /\
  (c_scanner l <> None -> c_callback l <> None).

Definition coherent (cf : iconf) (s : inst) : Prop := forall i, coherent1 (lexconf cf i) (cells s i).

Lemma coherent1_cell0 c : coherent1 c (cell0 Sc CB).
Proof. repeat split; cbn; auto. Qed.

Lemma coherent_fresh cf : coherent cf (fresh Sc CB).
Proof using LexSt Err Text iter search. intros i. apply coherent1_cell0. Qed.

Lemma force_scanner_coh c l : coherent1 c l ->
  exists l', force_scanner c l = (l', mk_scanner c) /\ coherent1 c l' /\ c_callback l' = Some (mk_callback c).
Proof.
  intros H. pose proof H as (A & B & C & D). unfold Instance.force_scanner.
  destruct (c_scanner l) as [s|].
  - (* already published: it is the builder's scanner, and the callback table was published before it *)
    destruct A as [A|[= ->]]; [discriminate|].
    destruct B as [B|B]; [elim D; [discriminate|exact B]|]. eauto.
  - eexists. split; [reflexivity|]. split; [|reflexivity]. repeat split; cbn; auto. discriminate.
Qed.

Lemma force_search_coh c l : coherent1 c l ->
  exists l', force_search c l = (l', mk_search c) /\ coherent1 c l'.
Proof.
  intros H. pose proof H as (A & B & C & D). unfold Instance.force_search.
  destruct (c_search l) as [s|].
  - destruct C as [C|[= ->]]; [discriminate|]. eauto.
  - eexists. split; [reflexivity|]. repeat split; cbn; auto.
Qed.

(* next_token computes the pure function and keeps the cell coherent - for every fuel, hence for
   every prefix of its loop *)
Lemma next_token_coh fuel : forall c l ls, coherent1 c l ->
  exists l', next_token fuel c l ls = (l', nt_pure fuel c ls) /\ coherent1 c l'.
Proof.
  induction fuel; intros c l ls H; cbn.
  - eauto.
  - destruct (at_end ls); [eauto|].
    destruct (force_scanner_coh c l H) as (l1 & E & H1 & CB1). rewrite E, CB1.
    destruct (iter c (mk_scanner c) (mk_callback c) ls); eauto.
Qed.

Lemma coherent_set_cell cf s i l : coherent cf s -> coherent1 (lexconf cf i) l -> coherent cf (set_cell s i l).
Proof.
  intros H Hl j. unfold set_cell; cbn. destruct (Nat.eqb j i) eqn:E; auto.
  apply Nat.eqb_eq in E. now subst.
Qed.

Lemma coherent_set_ind cf s st : coherent cf s -> coherent cf (set_ind s st).
Proof. intros H j. apply H. Qed.

Lemma ppull_coh fuel cf want : forall s ist ls acc, coherent cf s ->
  exists s', ppull fuel cf want s ist ls acc
             = (let '(i', a', e') := ppull_pure fuel cf want ist ls acc in (s', i', a', e'))
             /\ coherent cf s'.
Proof.
  induction fuel; intros s ist ls acc H; cbn [Instance.ppull Instance.ppull_pure].
  - eauto.
  - destruct (next_token_coh (ntfuel ls) (lexconf cf (pick cf acc)) (cells s (pick cf acc)) ls (H _))
      as (l' & E & Hl). rewrite E.
    pose proof (coherent_set_cell cf s _ l' H Hl) as H1.
    destruct (nt_pure (ntfuel ls) (lexconf cf (pick cf acc)) ls) as [t ls'| |e ls1| |].
    + destruct (pl_feed (postlex cf) ist t) as [[outs ist1] err].
      destruct (consume want acc outs) as [acc' [st|]]; [eauto|].
      destruct err; [eauto|].
      apply IHfuel, H1.
    + destruct (pl_finish (postlex cf) ist) as [[outs ist1] fin].
      destruct (consume want acc outs) as [acc' [st|]]; eauto.
    + destruct (contextual cf) as [rt|]; [|eauto].
      destruct (next_token_coh (ntfuel ls1) (lexconf cf rt) (cells (set_cell s (pick cf acc) l') rt) ls1 (H1 _))
        as (lr & Er & Hr). rewrite Er.
      eexists. split; [reflexivity|]. now apply coherent_set_cell.
    + eauto.
    + eauto.
Qed.

(* process() has just reset the post-lexer object that the stream of configuration cf' is opened on *)
Lemma start_ist_opened (cf cf' : iconf) (s s' : inst) :
  postlex cf' = postlex cf -> ind s' = ind (open_stream cf s) -> start_ist cf' s' = reset_state.
Proof. unfold start_ist, open_stream. intros -> ->. destruct (postlex cf); reflexivity. Qed.

Lemma coherent_open (cf : iconf) (s : inst) : coherent cf s -> coherent cf (open_stream cf s).
Proof. unfold open_stream. destruct (postlex cf); auto. Qed.

Lemma coherent_close (cf : iconf) (s : inst) ist : coherent cf s -> coherent cf (close_stream cf s ist).
Proof. unfold close_stream. destruct (postlex cf); auto. Qed.

Lemma pull_stream_coh fuel cf want s ls : coherent cf s -> start_ist cf s = reset_state ->
  snd (pull_stream fuel cf want s ls) = pull_pure fuel cf want ls /\
  coherent cf (fst (pull_stream fuel cf want s ls)).
Proof.
  intros H S. unfold Instance.pull_stream, Instance.pull_pure. destruct (want []); [|auto].
  rewrite S. destruct (ppull_coh fuel cf want s reset_state ls [] H) as (s' & E & H'). rewrite E.
  destruct (ppull_pure fuel cf want reset_state ls []) as [[i' a'] e']. cbn. split; auto.
  now apply coherent_close.
Qed.

Lemma scan_loop_coh fuel pfuel cf wantm text : forall s pos j atts, coherent cf s ->
  snd (scan_loop fuel pfuel cf wantm s text pos j atts) = scan_pure fuel pfuel cf wantm text pos j atts /\
  coherent cf (fst (scan_loop fuel pfuel cf wantm s text pos j atts)).
Proof.
  induction fuel; intros s pos j atts H; cbn [Instance.scan_loop Instance.scan_pure].
  - auto.
  - destruct (force_search_coh (lexconf cf (pick cf [])) (cells s (pick cf [])) (H _)) as (l' & E & Hl).
    rewrite E. pose proof (coherent_set_cell cf s _ l' H Hl) as H1.
    destruct (search (mk_search (lexconf cf (pick cf []))) text pos) as [ms|]; [|auto].
    destruct (ppull_coh pfuel cf (sc_want text ms) _ reset_state (init_ls text ms) [] H1) as (s2 & E2 & H2).
    rewrite E2. destruct (ppull_pure pfuel cf (sc_want text ms) reset_state (init_ls text ms) []) as [[i' toks] e].
    destruct (sc_end text ms toks e).
    + destruct (wantm (S j)); auto.
    + auto.
Qed.

(* Every operation, from every coherent state: the observation is the pure function of the
   configuration and the arguments, and the state stays coherent.  Since [want]/[wantm] are
   arbitrary this covers calls that fail and generators that are abandoned after any number of
   tokens or matches. *)
Lemma run_op_coh fuel cf s o : coherent cf s ->
  snd (run_op fuel cf s o) = op_pure fuel cf o /\ coherent cf (fst (run_op fuel cf s o)).
Proof.
  intros H. pose proof (coherent_open cf s H) as H0.
  (* the BasicLexer that Lark.lex builds for one call *)
  assert (Hp : forall cf', coherent cf' (mkInst (fun _ => cell0 Sc CB) (ind (open_stream cf s))))
    by (intros cf' i; apply coherent1_cell0).
  destruct o as [text want|text want|text want|text want|text wantm|]; cbn [Instance.run_op Instance.op_pure].
  1,4: destruct (want []) eqn:W; [|unfold Instance.pull_pure; rewrite W; auto];
       destruct (pull_stream_coh fuel cf want _ (init_ls text 0) H0 (start_ist_opened cf cf s _ eq_refl eq_refl))
         as (A & B);
       destruct (pull_stream fuel cf want (open_stream cf s) (init_ls text 0)) as [s' [acc e]]; cbn in *;
       rewrite <- A; auto.
  - destruct (lex_shared cf).
    + destruct (pull_stream_coh fuel (lex_shared_cf cf) want _ (init_ls text 0) H0
                  (start_ist_opened cf _ s _ eq_refl eq_refl)) as (A & B).
      destruct (pull_stream fuel (lex_shared_cf cf) want (open_stream cf s) (init_ls text 0)) as [s' [acc e]].
      cbn in *. rewrite <- A. split; [reflexivity|exact B].
    + destruct (pull_stream_coh fuel (lex_private_cf cf) want _ (init_ls text 0) (Hp _)
                  (start_ist_opened cf _ s _ eq_refl eq_refl)) as (A & _).
      destruct (pull_stream fuel (lex_private_cf cf) want _ (init_ls text 0)) as [p' [acc e]].
      cbn in *. rewrite <- A. split; [reflexivity|exact H0].
  - destruct (pull_stream_coh fuel (lex_all_cf cf) want _ (init_ls text 0) (Hp _)
                (start_ist_opened cf _ s _ eq_refl eq_refl)) as (A & _).
    destruct (pull_stream fuel (lex_all_cf cf) want _ (init_ls text 0)) as [p' [acc e]].
    cbn in *. rewrite <- A. split; [reflexivity|exact H0].
  - destruct (postlex cf); [auto|]. destruct (can_scan cf); [|auto]. destruct (wantm 0); [|auto].
    destruct (scan_loop_coh fuel fuel cf wantm text s 0 0 [] H) as (A & B).
    destruct (scan_loop fuel fuel cf wantm s text 0 0 []) as [s' [atts fin]]. cbn in *.
    rewrite <- A. auto.
  - auto.
Qed.

Theorem coherent_inv fuel cf h : forall s, coherent cf s -> coherent cf (run_hist fuel cf s h).
Proof.
  induction h as [|o r IH]; intros s H; cbn; auto.
  apply IH. now apply run_op_coh.
Qed.

Theorem history_pure fuel cf h o :
  snd (run_op fuel cf (run_hist fuel cf (fresh Sc CB) h) o) = op_pure fuel cf o.
Proof. apply run_op_coh, coherent_inv, coherent_fresh. Qed.

Theorem history_independent fuel cf h o :
  snd (run_op fuel cf (run_hist fuel cf (fresh Sc CB) h) o) = snd (run_op fuel cf (fresh Sc CB) o).
Proof.
  rewrite history_pure. symmetry. apply run_op_coh, coherent_fresh.
Qed.

(* per-call state is fresh: the observation of a call does not even depend on which coherent
   state (e.g. of another instance with the same configuration) it starts from *)
Theorem any_coherent_state fuel cf s1 s2 o : coherent cf s1 -> coherent cf s2 ->
  snd (run_op fuel cf s1 o) = snd (run_op fuel cf s2 o).
Proof.
  intros H1 H2. destruct (run_op_coh fuel cf s1 o H1) as (A & _).
  destruct (run_op_coh fuel cf s2 o H2) as (B & _). congruence.
Qed.

End Proofs.
