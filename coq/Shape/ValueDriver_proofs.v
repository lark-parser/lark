(* the value-stack driver computes, on every input and table, the bottom-up evaluation of what LR/Driver computes *)
From Coq Require Import List Arith Bool Lia.
From LV Require Import Cfg.Grammar Shape.ValueDriver.
From LV Require LR.Driver LR.Driver_proofs.
Import ListNotations.

Section Sim.
  Variable tok : Type.
  Variable ttype : tok -> nat.
  Variable X : Type.
  Variable cb : rule -> list X -> X.
  Variable tokf : tok -> X.
  Variable P : Driver.ptable.
  Notation vfeed := (vfeed tok ttype X cb tokf P).
  Notation vmap := (vmap tok X cb tokf).
  Notation omap := (omap tok X cb tokf).
  Notation evalt := (evalt tok X cb tokf).

  Lemma vfeed_sim fuel : forall c k e, vfeed fuel (vmap c) k e = omap (Driver.feed tok ttype P fuel c k e).
  Proof.
    induction fuel as [|fuel IH]; intros [ss vs] k e; [reflexivity|].
    cbn [ValueDriver.vfeed Driver.feed vmap ValueDriver.vmap v_states v_values Driver.sstack Driver.vstack].
    destruct ss as [|q ss]; [reflexivity|].
    destruct (Driver.pt_action P q (T (ttype k))) as [[q'|r]|]; [| |reflexivity].
    - destruct (Nat.eqb q' (Driver.pt_end P)); [reflexivity|]. destruct e; reflexivity.
    - rewrite skipn_map, firstn_map, <- map_rev.
      destruct (skipn (length (rhs r)) (q :: ss)) as [|q2 ss2]; [reflexivity|].
      destruct (Driver.pt_action P q2 (NT (lhs r))) as [[q3|r3]|]; [|reflexivity|reflexivity].
      destruct (e && Nat.eqb q3 (Driver.pt_end P)); [reflexivity|].
      exact (IH (Driver.mkConfig (q3 :: q2 :: ss2) (Driver.Node r (rev (firstn (length (rhs r)) vs)) :: skipn (length (rhs r)) vs)) k e).
  Qed.

  Lemma vfeed_all_sim fuel : forall w c,
    vfeed_all tok ttype X cb tokf P fuel (vmap c) w = omap (Driver.feed_all tok ttype P fuel c w).
  Proof.
    induction w as [|k w IH]; intros c; [reflexivity|].
    cbn [ValueDriver.vfeed_all Driver.feed_all]. rewrite vfeed_sim.
    destruct (Driver.feed tok ttype P fuel c k false) as [c'| | | | |]; try reflexivity. apply IH.
  Qed.

  Theorem vparse_sim fuel w e :
    vparse tok ttype X cb tokf P fuel w e = omap (Driver.parse tok ttype P fuel w e).
  Proof.
    unfold vparse, Driver.parse.
    change (mkV X [Driver.pt_start P] []) with (vmap (Driver.init_config P)). rewrite vfeed_all_sim.
    destruct (Driver.feed_all tok ttype P fuel (Driver.init_config P) w) as [c'| | | | |]; try reflexivity.
    apply vfeed_sim.
  Qed.
End Sim.

Section TokMapProofs.
  Variable tok tok' : Type.
  Variable f : tok -> tok'.
  Variable ttype : tok -> nat.
  Variable ttype' : tok' -> nat.
  Hypothesis Hty : forall k, ttype' (f k) = ttype k.
  Variable P : Driver.ptable.
  Notation tmap := (tmap tok tok' f).
  Notation cmap := (cmap tok tok' f).
  Notation tomap := (tomap tok tok' f).

  Lemma feed_tokmap fuel : forall c k e,
    Driver.feed tok' ttype' P fuel (cmap c) (f k) e = tomap (Driver.feed tok ttype P fuel c k e).
  Proof.
    induction fuel as [|fuel IH]; intros [ss vs] k e; [reflexivity|].
    cbn [Driver.feed cmap ValueDriver.cmap Driver.sstack Driver.vstack]. rewrite Hty.
    destruct ss as [|q ss]; [reflexivity|].
    destruct (Driver.pt_action P q (T (ttype k))) as [[q'|r]|]; [| |reflexivity].
    - destruct (Nat.eqb q' (Driver.pt_end P)); [reflexivity|]. destruct e; reflexivity.
    - rewrite skipn_map, firstn_map, <- map_rev.
      destruct (skipn (length (rhs r)) (q :: ss)) as [|q2 ss2]; [reflexivity|].
      destruct (Driver.pt_action P q2 (NT (lhs r))) as [[q3|r3]|]; [|reflexivity|reflexivity].
      destruct (e && Nat.eqb q3 (Driver.pt_end P)); [reflexivity|].
      exact (IH (Driver.mkConfig (q3 :: q2 :: ss2) (Driver.Node r (rev (firstn (length (rhs r)) vs)) :: skipn (length (rhs r)) vs)) k e).
  Qed.

  Lemma feed_all_tokmap fuel : forall w c,
    Driver.feed_all tok' ttype' P fuel (cmap c) (map f w) = tomap (Driver.feed_all tok ttype P fuel c w).
  Proof.
    induction w as [|k w IH]; intros c; [reflexivity|].
    cbn [Driver.feed_all map]. rewrite feed_tokmap.
    destruct (Driver.feed tok ttype P fuel c k false) as [c'| | | | |]; try reflexivity. apply IH.
  Qed.

  Theorem parse_tokmap fuel w e :
    Driver.parse tok' ttype' P fuel (map f w) (f e) = tomap (Driver.parse tok ttype P fuel w e).
  Proof.
    unfold Driver.parse. change (Driver.init_config P) with (cmap (Driver.init_config P)) at 1.
    rewrite feed_all_tokmap.
    destruct (Driver.feed_all tok ttype P fuel (Driver.init_config P) w) as [c'| | | | |]; try reflexivity.
    apply feed_tokmap.
  Qed.

End TokMapProofs.
