(* C19, text level: the round trip under H_relex, and the refutation of H_relex (finding F12). *)
From Coq Require Import String Ascii List Arith Bool Lia.
From LV Require Import Base.Prelude Cfg.Grammar Recons.Recons Recons.Recons_proofs Recons.ReconsCheck
     Recons.ReconsCheck_proofs Recons.Text.
Import ListNotations.
Local Open Scope string_scope.

Section TextLevel.
  Variable us : nat -> bool.
  Variable P : list prule.
  Hypothesis Hc : cls us P.
  Variable lit : nat -> option string.
  Variable M : stree -> option utree.
  Hypothesis M_ok : forall t u, M t = Some u -> exists data cs, t = Node data cs /\ supported us P u data cs.
  (* the parser's lexer (whatever it is): text -> typed tokens, None when it raises *)
  Variable lex : string -> option (list token).

  Definition parses_text (start : nat) (text : string) (t : stree) : Prop :=
    exists toks, lex text = Some toks /\ parses us P start toks t.

  Lemma parses_text_of_tokens start text toks t : lex text = Some toks ->
    parses us P start toks t /\ (unambiguous P start -> forall t', parses us P start toks t' -> t' = t) ->
    parses_text start text t /\ (unambiguous P start -> forall t', parses_text start text t' -> t' = t).
  Proof.
    intros Hlex (Hp & Hu). split.
    - exists toks. split; auto.
    - intros Hun t' (toks' & El & Hp'). rewrite Hlex in El. inversion El; subst toks'. apply Hu; auto.
  Qed.

  (* H_relex is the hypothesis `lex (reconstruct_text toks) = Some toks` *)
  Theorem text_roundtrip start pr0 ds0 fuel toks :
    wf P (DNode pr0 ds0) -> p_origin pr0 = start -> ~ In start (expand1s P) ->
    recon lit M fuel (shape us (DNode pr0 ds0)) = Ok toks ->
    lex (reconstruct_text toks) = Some toks ->
    parses_text start (reconstruct_text toks) (shape us (DNode pr0 ds0)) /\
    (unambiguous P start ->
     forall t', parses_text start (reconstruct_text toks) t' -> t' = shape us (DNode pr0 ds0)).
  Proof.
    intros Hwf Hs Hne Hr Hlex. apply (parses_text_of_tokens _ _ toks _ Hlex).
    exact (recons_token_roundtrip_partial us P Hc lit M M_ok start pr0 ds0 fuel toks Hwf Hs Hne Hr).
  Qed.
End TextLevel.

(* F12: H_relex fails.  names: 0 = start, 1 = PLUS, 2 = PP;  PLUS: "+"  PP: "++"  start: PLUS PLUS | PP *)
Definition f12_us (n : nat) : bool := false.
Definition f12_r1 : prule := mkP 0 [Tm 1 false; Tm 1 false] None false.
Definition f12_r2 : prule := mkP 0 [Tm 2 false] None false.
Definition f12_P : list prule := [f12_r1; f12_r2].
Definition f12_lits : list (nat * string) := [(1, "+"); (2, "++")].
Definition f12_d0 : dtree := DNode f12_r1 [DTok 1 "+"; DTok 1 "+"].
Definition f12_tree : stree := Node 0 [Tok 1 "+"; Tok 1 "+"].
Definition f12_u : utree :=
  UNode (mkR 0 [T 1; T 1] [Tm 1 false; Tm 1 false]) [ULeaf (Tok 1 "+"); ULeaf (Tok 1 "+")].
Definition f12_ms : list mrec := [(f12_tree, f12_u, [WChild (Tok 1 "+"); WChild (Tok 1 "+")])].
Definition f12_toks : list token := [(1, "+"); (1, "+")].

Theorem H_relex_refuted :
  class_b f12_us f12_P = true /\ table_ok f12_us f12_P f12_ms = true /\
  wf f12_P f12_d0 /\ shape f12_us f12_d0 = f12_tree /\
  recon (lookup_lit f12_lits) (lookup_match f12_ms) 2 f12_tree = Ok f12_toks /\
  reconstruct_text f12_toks = "++" /\
  minilex f12_lits (reconstruct_text f12_toks) = Some [(2, "++")] /\
  minilex f12_lits (reconstruct_text f12_toks) <> Some f12_toks /\
  parses f12_us f12_P 0 [(2, "++")] (Node 0 [Tok 2 "++"]) /\
  Node 0 [Tok 2 "++"] <> f12_tree.
Proof.
  repeat split; try (vm_compute; reflexivity); try discriminate.
  - constructor; [left; reflexivity|]. repeat constructor.
  - exists f12_r2, [DTok 2 "++"]. repeat split.
    constructor; [right; left; reflexivity|]. repeat constructor.
Qed.
