(* C19: the boolean checks evaluated by the harness imply the hypotheses of the theorems. *)
From Coq Require Import String Ascii List Arith Bool Lia.
From LV Require Import Base.Prelude Cfg.Grammar Recons.Recons Recons.Recons_proofs Recons.ReconsCheck.
Import ListNotations.

Lemma list_eqb_eq {A} (eqb : A -> A -> bool) (H : forall x y, eqb x y = true -> x = y) :
  forall a b, list_eqb eqb a b = true -> a = b.
Proof.
  induction a as [|x a IH]; destruct b as [|y b]; simpl; intros E; try discriminate; auto.
  apply andb_true_iff in E. destruct E as (E1 & E2). f_equal; auto.
Qed.

Lemma list_eqb_refl {A} (eqb : A -> A -> bool) (H : forall x, eqb x x = true) : forall a, list_eqb eqb a a = true.
Proof. induction a; simpl; auto. rewrite H, IHa. reflexivity. Qed.

Lemma symbol_eqb_eq x y : symbol_eqb x y = true -> x = y.
Proof. destruct (symbol_eqb_spec x y); auto; discriminate. Qed.

Lemma symbol_eqb_refl x : symbol_eqb x x = true.
Proof. destruct (symbol_eqb_spec x x); auto. Qed.

Lemma sym_eqb_eq x y : sym_eqb x y = true -> x = y.
Proof.
  destruct x as [a f|a], y as [b g|b]; simpl; intros E; try discriminate.
  - apply andb_true_iff in E. destruct E as (E1 & E2). apply Nat.eqb_eq in E1. apply eqb_prop in E2. congruence.
  - apply Nat.eqb_eq in E. congruence.
Qed.

Lemma rrule_eqb_eq x y : rrule_eqb x y = true -> x = y.
Proof.
  destruct x, y. unfold rrule_eqb. simpl. intros E.
  apply andb_true_iff in E. destruct E as (E & E3). apply andb_true_iff in E. destruct E as (E1 & E2).
  apply Nat.eqb_eq in E1. apply (list_eqb_eq _ symbol_eqb_eq) in E2. apply (list_eqb_eq _ sym_eqb_eq) in E3.
  congruence.
Qed.

Lemma memr_In r l : memr r l = true -> In r l.
Proof.
  unfold memr. rewrite existsb_exists. intros (y & Hy & E). apply rrule_eqb_eq in E. subst; auto.
Qed.

Fixpoint stree_ind2 (Q : stree -> Prop) (HT : forall n s, Q (Tok n s))
         (HN : forall d cs, Forall Q cs -> Q (Node d cs)) (t : stree) : Q t :=
  match t with
  | Tok n s => HT n s
  | Node d cs =>
      HN d cs ((fix go (l : list stree) : Forall Q l :=
                  match l with
                  | [] => Forall_nil _
                  | x :: l' => Forall_cons _ (stree_ind2 Q HT HN x) (go l')
                  end) cs)
  end.

Lemma stree_eqb_eq : forall a b, stree_eqb a b = true -> a = b.
Proof.
  apply (stree_ind2 (fun a => forall b, stree_eqb a b = true -> a = b)).
  - intros n s [m t|e es]; simpl; intros E; try discriminate.
    apply andb_true_iff in E. destruct E as (E1 & E2). apply Nat.eqb_eq in E1. apply String.eqb_eq in E2. congruence.
  - intros d cs IH [m t|e es]; simpl; intros E; try discriminate.
    apply andb_true_iff in E. destruct E as (E1 & E2). apply Nat.eqb_eq in E1. subst e. f_equal.
    revert es E2. induction IH as [|x l Hx Hl IHl]; intros [|y es] E2; try discriminate; auto.
    apply andb_true_iff in E2. destruct E2 as (Ea & Eb). f_equal; auto.
Qed.

Lemma stree_eqb_refl : forall t, stree_eqb t t = true.
Proof.
  apply stree_ind2.
  - intros n s. simpl. rewrite Nat.eqb_refl, String.eqb_refl. reflexivity.
  - intros d cs IH. simpl. rewrite Nat.eqb_refl. simpl.
    induction IH as [|x l Hx Hl IHl]; auto. rewrite Hx, IHl. reflexivity.
Qed.

Lemma uvalid_b_node Gi r args : uvalid_b Gi (UNode r args) = memr r Gi && uargs_b Gi (r_exp r) args.
Proof.
  simpl. f_equal. generalize (r_exp r). induction args as [|a args IH]; intros [|s ss]; simpl; auto.
  rewrite IH. reflexivity.
Qed.

Section Refl.
  Variable us : nat -> bool.
  Variable P : list prule.

  Definition Vnode Gi (u : utree) : Prop :=
    uvalid_b Gi u = true -> match u with ULeaf _ => True | UNode _ _ => uvalid Gi u end.

  Lemma uargs_b_sound_gen Gi : forall args, Forall (Vnode Gi) args ->
    forall ss, uargs_b Gi ss args = true -> uargs_gen (uvalid Gi) ss args.
  Proof.
    induction 1 as [|a args Ha Hl IHl]; intros [|s ss] E; simpl in E; try discriminate.
    - constructor.
    - apply andb_true_iff in E. destruct E as (Ea & Eb). destruct s as [t|n], a as [c|r' args0]; try discriminate.
      + constructor; auto.
      + apply andb_true_iff in Ea. destruct Ea as (Eo & Ev). apply Nat.eqb_eq in Eo. constructor; auto.
  Qed.

  Lemma uvalid_b_sound Gi : forall u, Vnode Gi u.
  Proof.
    apply utree_ind2; [exact (fun _ _ => I)|].
    intros r args IH E. rewrite uvalid_b_node in E. apply andb_true_iff in E. destruct E as (E1 & E2).
    constructor; [apply memr_In; auto|]. apply uargs_b_sound_gen; auto.
  Qed.

  Lemma uargs_b_sound Gi ss args : uargs_b Gi ss args = true -> uargs_gen (uvalid Gi) ss args.
  Proof. apply uargs_b_sound_gen. apply Forall_forall. intros u _. apply uvalid_b_sound. Qed.

  Lemma supported_b_sound u data cs : supported_b us P u data cs = true -> supported us P u data cs.
  Proof.
    destruct u as [c|r args]; simpl; [discriminate|]. intros E.
    apply andb_true_iff in E. destruct E as (E & E4). apply andb_true_iff in E. destruct E as (E & E3).
    apply andb_true_iff in E. destruct E as (E1 & E2).
    exists r, args. repeat split.
    - apply memr_In; auto.
    - apply uargs_b_sound; auto.
    - apply (list_eqb_eq _ stree_eqb_eq) in E3. exact E3.
    - intros Hin Hlen. apply memn_In in Hin. rewrite Hin, Hlen in E4. discriminate.
  Qed.

  Lemma class_b_sound : class_b us P = true -> cls us P.
  Proof.
    unfold class_b. intros E.
    apply andb_true_iff in E. destruct E as (E & E5). apply andb_true_iff in E. destruct E as (E & E4).
    apply andb_true_iff in E. destruct E as (E & E3). apply andb_true_iff in E. destruct E as (E1 & E2).
    unfold closed_b in E1. unfold alias_ok_b in E2. unfold uscore_plain_b in E3.
    unfold expand1_uniform_b in E4. unfold single_ok_b in E5.
    rewrite forallb_forall in E1, E2, E3, E4, E5.
    constructor.
    - intros r a Hin Ha. specialize (E1 r Hin). rewrite forallb_forall in E1. specialize (E1 _ Ha).
      apply memn_In; auto.
    - intros r al Hin Hal. specialize (E2 r Hin). rewrite Hal in E2.
      apply andb_true_iff in E2. destruct E2 as (E2 & E2c). apply andb_true_iff in E2. destruct E2 as (E2a & E2b).
      repeat split.
      + apply memn_false. apply negb_true_iff; auto.
      + apply negb_true_iff; auto.
      + intros r' Hin' Hal'. rewrite forallb_forall in E2c. specialize (E2c r' Hin'). rewrite Hal' in E2c.
        rewrite Nat.eqb_refl in E2c. simpl in E2c. apply Nat.eqb_eq; auto.
    - intros r Hin Hus. specialize (E3 r Hin). rewrite Hus in E3. simpl in E3.
      apply andb_true_iff in E3. destruct E3 as (Ea & Eb). apply negb_true_iff in Ea. apply negb_true_iff in Eb.
      split; auto. unfold has_alias in Ea. destruct (p_alias r); [discriminate|reflexivity].
    - intros r Hin Hex. specialize (E4 r Hin). apply memn_In in Hex. rewrite Hex in E4. exact E4.
    - intros r a Hin He Hnone Hf. specialize (E5 r Hin). rewrite He in E5. unfold has_alias in E5.
      rewrite Hnone, Hf in E5. simpl in E5. apply negb_true_iff; auto.
  Qed.
End Refl.

(* a finite table of recorded matches used as match_tree *)
Lemma lookup_match_In ms : forall t u, lookup_match ms t = Some u -> exists w, In (t, u, w) ms.
Proof.
  induction ms as [|((t', u'), w') ms IH]; simpl; intros t u E; [discriminate|].
  destruct (stree_eqb t t') eqn:Et.
  - inversion E; subst. apply stree_eqb_eq in Et. subst. eauto.
  - destruct (IH _ _ E) as (w & Hw). eauto.
Qed.

Definition table_ok (us : nat -> bool) (P : list prule) (ms : list mrec) : bool :=
  forallb (fun m => match m with
                    | (Node data cs, u, _) => supported_b us P u data cs
                    | _ => false
                    end) ms.

Lemma table_ok_sound us P ms : table_ok us P ms = true ->
  forall t u, lookup_match ms t = Some u -> exists data cs, t = Node data cs /\ supported us P u data cs.
Proof.
  intros H t u E. destruct (lookup_match_In _ _ _ E) as (w & Hin).
  unfold table_ok in H. rewrite forallb_forall in H. specialize (H _ Hin). simpl in H.
  destruct t as [n s|data cs]; [discriminate|]. exists data, cs. split; auto. apply supported_b_sound; auto.
Qed.
