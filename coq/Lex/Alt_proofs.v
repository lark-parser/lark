(* Proofs about Lex/Alt.v: the Scanner object over opaque alternations equals the scan of
   Lex/Lexer.v under ONE assumption per entry point; the assumption holds for a backtracking
   engine when nothing follows the alternation (Scanner.match) and for single-candidate
   alternatives when the end anchor follows it (Scanner.fullmatch on string terminals); it is
   false in general when something follows the alternation. *)
From Coq Require Import ZArith List Bool String Ascii Arith Lia Sorted Permutation.
From LV Require Import Base.Prelude Lex.LexerBase Gen.LexerSortKey Lex.Lexer Lex.LexerOrder_proofs
     Lex.Lexer_proofs Lex.Unless_proofs Lex.LexerTop_proofs Lex.Alt.
Import ListNotations.

Section BT.

Variable cand : term -> string -> nat -> list nat.

Theorem alt_match_bt_first alts text p :
  alt_match_bt cand alts text p = first_some (fun t => m_of cand t text p) alts.
Proof.
  unfold alt_match_bt, m_of. induction alts as [|t r IH]; cbn; [reflexivity|].
  rewrite find_true. destruct (hd_error (cand t text p)); [reflexivity|apply IH].
Qed.

Lemma alt_bt_first_some k alts text p :
  alt_bt cand k alts text p = first_some (fun t => find k (cand t text p)) alts.
Proof. induction alts as [|a r IH]; cbn; [|rewrite IH]; reflexivity. Qed.

Theorem alt_bt_spec k alts text p t n :
  alt_bt cand k alts text p = Some (t, n) ->
  exists pre post, alts = pre ++ t :: post /\ In n (cand t text p) /\ k n = true /\
                   (forall u j, In u pre -> In j (cand u text p) -> k j = false).
Proof.
  rewrite alt_bt_first_some. intros H. apply first_some_spec in H.
  destruct H as (pre & post & -> & Hn & Hpre). apply find_some in Hn.
  exists pre, post. repeat split; try tauto.
  intros u j Hu. apply find_none. now apply Hpre.
Qed.

Theorem alt_bt_none k alts text p :
  alt_bt cand k alts text p = None <-> forall u j, In u alts -> In j (cand u text p) -> k j = false.
Proof.
  rewrite alt_bt_first_some, first_some_none.
  split; intros H u.
  - intros j Hu. apply find_none. now apply H.
  - intros Hu. apply find_none_iff. intros j. now apply H.
Qed.

End BT.

Definition cand_str (fold : ascii -> ascii) (t : term) (text : string) (p : nat) : list nat :=
  match str_match_at fold t text p with Some n => [n] | None => [] end.

Lemma cand_str_full fold K v :
  find (fun n => Nat.eqb n (String.length v)) (cand_str fold K v 0) =
  if str_full fold K v then Some (String.length v) else None.
Proof.
  unfold cand_str, str_match_at, str_full. destruct (str_eqb fold (ci_of K) (tvalue K) v) eqn:Ef.
  - rewrite (str_eqb_length _ _ _ _ Ef), substring_0_all, Ef. cbn. now rewrite Nat.eqb_refl.
  - destruct (str_eqb fold _ _ (substring _ _ v)) eqn:E; cbn; [|reflexivity].
    destruct (Nat.eqb_spec (String.length (tvalue K)) (String.length v)) as [El|]; [|reflexivity].
    rewrite El, substring_0_all in E. congruence.
Qed.

Theorem alt_full_bt_strings fold cand c v :
  (forall K, In K c -> cand K v 0 = cand_str fold K v 0) ->
  option_map (fun x : term * nat => tname (fst x)) (alt_full_bt cand c v) =
  option_map tname (find (fun K => str_full fold K v) c).
Proof.
  unfold alt_full_bt. induction c as [|K r IH]; intros Hc; cbn; [reflexivity|].
  rewrite (Hc K (or_introl eq_refl)), cand_str_full.
  destruct (str_full fold K v); [reflexivity|]. apply IH. intros K' HK'. apply Hc. now right.
Qed.

(* "the first alternative that matches by itself" is NOT what an alternation followed by
   something reports: A: "a", B: "ab" on "ab" - A matches by itself at 0, fullmatch reports B *)
Definition altA := mkTerm "A" 0 false "a" [] 1.
Definition altB := mkTerm "B" 0 false "ab" [] 2.

Theorem alt_first_with_continuation_refuted :
  let cand := cand_str lower in
  first_some (fun t => m_of cand t "ab" 0) [altA; altB] = Some (altA, 1) /\
  alt_full_bt cand [altA; altB] "ab" = Some (altB, 2).
Proof. vm_compute. split; reflexivity. Qed.

Section Oracle.

Variable fold : ascii -> ascii.
Variable m : term -> string -> nat -> option nat.
Variable amatch : list term -> string -> nat -> option (string * nat).
Variable afull : list term -> string -> option string.
Variable cok : list term -> bool.

Hypothesis H_alt : alt_first_assumption m amatch.

(* Scanner.match over opaque alternations = the model's scan *)
Theorem sc_match_scan mres text p :
  sc_match amatch mres text p = named (scan m text mres p).
Proof.
  induction mres as [|c r IH]; cbn; [reflexivity|].
  rewrite H_alt. unfold chunk_match.
  destruct (first_some (fun t => m t text p) c) as [[t n]|]; [reflexivity|apply IH].
Qed.

Theorem scanner_object_first terms ign L text p nm n :
  cok_monotone cok -> make_lexer m cok terms ign = Some L ->
  sc_match amatch (lx_mres L) text p = Some (nm, n) ->
  exists t, tname t = nm /\
    In t (scanner_terms m (sort_terms terms)) /\ m t text p = Some n /\
    forall u, In u (scanner_terms m (sort_terms terms)) -> m u text p <> None -> doc_le t u.
Proof.
  intros Hmono HL Hs. rewrite sc_match_scan in Hs.
  destruct (scan m text (lx_mres L) p) as [[t k]|] eqn:E; [|discriminate].
  cbn in Hs. injection Hs as <- <-. exists t. split; [reflexivity|].
  eapply lexer_first_documented; eauto.
Qed.

Theorem scanner_object_none terms ign L text p :
  cok_monotone cok -> make_lexer m cok terms ign = Some L ->
  (sc_match amatch (lx_mres L) text p = None <->
   forall u, In u (scanner_terms m (sort_terms terms)) -> m u text p = None).
Proof.
  intros Hmono HL. rewrite sc_match_scan.
  destruct (make_lexer_spec _ _ _ _ _ Hmono HL) as (_ & _ & Hc). rewrite <- Hc, <- scan_none.
  now destruct (scan m text (lx_mres L) p) as [[t k]|].
Qed.

(* UnlessCallback over its own Scanner object = the model's report *)
Hypothesis H_full : alt_full_assumption fold afull.

Lemma sc_fullmatch_find mres v :
  forallb (fun K => negb (tre K)) (List.concat mres) = true ->
  sc_fullmatch afull mres v = option_map tname (find (fun K => str_full fold K v) (List.concat mres)).
Proof.
  induction mres as [|c r IH]; cbn [sc_fullmatch List.concat]; [reflexivity|].
  rewrite forallb_app, andb_true_iff. intros [Hc Hr].
  rewrite H_full by assumption. rewrite find_app_opt.
  destruct (find (fun K => str_full fold K v) c); [reflexivity|]. cbn. now apply IH.
Qed.

Lemma unless_of_strings terms X :
  forallb (fun K => negb (tre K)) (unless_of m terms X) = true.
Proof.
  apply forallb_forall. intros K HK. unfold unless_of in HK. apply filter_In in HK.
  destruct HK as [_ HK]. apply andb_true_iff in HK. tauto.
Qed.

Theorem report_object terms X v :
  cok_monotone cok ->
  match report_o m afull cok terms X v with
  | Some r => r = report fold m terms X v
  | None => scanner_mres cok (unless_of m terms X) = None
  end.
Proof.
  intros Hmono. unfold report_o, report. destruct (tre X); [|reflexivity].
  destruct (unless_of m terms X) as [|K0 u0] eqn:Eu; [reflexivity|].
  unfold scanner_init. destruct (scanner_mres cok (K0 :: u0)) as [mres|] eqn:Em; [|reflexivity].
  cbn [sc_mres]. unfold scanner_mres in Em. apply build_mres_concat in Em; [|assumption].
  rewrite sc_fullmatch_find by (rewrite Em, <- Eu; apply unless_of_strings).
  rewrite Em. destruct (find (fun K => str_full fold K v) (K0 :: u0)); reflexivity.
Qed.

End Oracle.

Theorem alt_assumptions_backtracking fold cand :
  alt_first_assumption (m_of cand) (fun c text p => named (alt_match_bt cand c text p)) /\
  ((forall K v, tre K = false -> cand K v 0 = cand_str fold K v 0) ->
   alt_full_assumption fold (fun c v => option_map (fun x : term * nat => tname (fst x)) (alt_full_bt cand c v))).
Proof.
  split.
  - intros c text p. now rewrite alt_match_bt_first.
  - intros Hs c v Hc. apply alt_full_bt_strings. intros K HK. apply Hs.
    rewrite forallb_forall in Hc. specialize (Hc K HK). now apply negb_true_iff in Hc.
Qed.
