(* Proofs about Cfg/Analysis.v: expand_rule terminates within its fuel and computes exactly the rules of
   the non-terminals reachable through first symbols (left-corner closure); the NULLABLE iteration of
   calculate_sets stops within its fuel at the set of non-terminals that derive the empty string. *)
From Coq Require Import List Arith Bool Lia.
From LV Require Import Cfg.Grammar Cfg.Analysis.
Import ListNotations.

Lemma existsb_eqb_In {A} (eqb : A -> A -> bool) :
  (forall x y, eqb x y = true <-> x = y) -> forall a l, existsb (eqb a) l = true <-> In a l.
Proof.
  intros E a l. rewrite existsb_exists. split.
  - intros (y & Hy & He). apply E in He. subst; auto.
  - intros H. exists a. split; auto. apply E; auto.
Qed.

Lemma fold_left_inv {A B} (P : A -> Prop) (f : A -> B -> A) l :
  (forall a x, In x l -> P a -> P (f a x)) -> forall a, P a -> P (fold_left f l a).
Proof.
  induction l as [|x l IH]; intros Hf a Ha; simpl; auto.
  apply IH; [intros b y Hy; apply Hf; right; exact Hy|apply Hf; [left; reflexivity|exact Ha]].
Qed.

Lemma NoDup_snoc {A} (l : list A) (x : A) : NoDup l -> ~ In x l -> NoDup (l ++ [x]).
Proof.
  induction 1 as [|y l Hy ND IH]; intros Hx; simpl.
  - repeat constructor. intros [].
  - constructor.
    + rewrite in_app_iff. simpl. intros [?|[->|[]]]; auto. apply Hx; left; auto.
    + apply IH. intros ?; apply Hx; right; auto.
Qed.

Section LC.
  Variable G : grammar.

  Inductive lc_reach (a : nat) : nat -> Prop :=
  | lc_refl : lc_reach a a
  | lc_step b r c rest : lc_reach a b -> In r G -> lhs r = b -> rhs r = NT c :: rest -> lc_reach a c.

  Lemma rules_by_origin_In a r : In r (rules_by_origin G a) <-> In r G /\ lhs r = a.
  Proof.
    unfold rules_by_origin. rewrite filter_In. split; intros [H1 H2]; split; auto.
    - apply Nat.eqb_eq; auto.
    - apply Nat.eqb_eq; auto.
  Qed.

  Lemma first_nt_In r c : In c (first_nt r) <-> exists rest, rhs r = NT c :: rest.
  Proof.
    unfold first_nt. destruct (rhs r) as [|[t|b] rest]; simpl.
    - split; [tauto | intros (x & H); discriminate].
    - split; [tauto | intros (x & H); discriminate].
    - split.
      + intros [H|[]]; subst. eauto.
      + intros (x & H); inversion H; auto.
  Qed.

  Lemma visit_spec l : forall o v o' v',
    fold_left bfs_visit l (o, v) = (o', v') ->
    incl o o' /\ incl v v' /\ (forall b, In b l -> In b v') /\
    (forall b, In b v' -> In b v \/ (In b l /\ In b o')) /\
    (forall b, In b o' -> In b o \/ In b v') /\
    (NoDup v -> NoDup v') /\
    length o' + length v = length o + length v'.
  Proof.
    induction l as [|b l IH]; intros o v o' v' H; simpl in H.
    - inversion H; subst. repeat split; auto using incl_refl; try tauto. intros b [].
    - unfold bfs_visit at 2 in H. cbn [fst snd] in H.
      destruct (in_dec Nat.eq_dec b v) as [Hin|Hnin].
      + destruct (IH _ _ _ _ H) as (A & B & C & D & E & F & L). repeat split; auto.
        * intros c [->|Hc]; auto.
        * intros c Hc. destruct (D c Hc) as [?|[? ?]]; auto. right; split; auto. right; auto.
      + destruct (IH _ _ _ _ H) as (A & B & C & D & E & F & L). repeat split.
        * intros x Hx. apply A, in_or_app; auto.
        * intros x Hx. apply B, in_or_app; auto.
        * intros c [->|Hc]; auto. apply B, in_or_app; right; left; auto.
        * intros c Hc. destruct (D c Hc) as [Hv|[? ?]].
          -- apply in_app_or in Hv. destruct Hv as [?|[->|[]]]; auto.
             right; split; [left; auto|]. apply A, in_or_app; right; left; auto.
          -- right; split; auto. right; auto.
        * intros c Hc. destruct (E c Hc) as [Ho|?]; auto.
          apply in_app_or in Ho. destruct Ho as [?|[->|[]]]; auto.
          right. apply B, in_or_app; right; left; auto.
        * intros ND. apply F. apply NoDup_snoc; auto.
        * rewrite !app_length in L. simpl in L. lia.
  Qed.

  Lemma rule_add_spec rs : forall acc r, In r (fold_left rule_add rs acc) <-> In r acc \/ In r rs.
  Proof.
    induction rs as [|x rs IH]; intros acc r; simpl.
    - tauto.
    - rewrite IH. unfold rule_add. destruct (in_dec rule_eq_dec x acc) as [Hin|Hnin].
      + split; [tauto|]. intros [?|[->|?]]; auto.
      + rewrite in_app_iff. simpl. tauto.
  Qed.

  Variable a0 : nat.
  Let U := a0 :: flat_map first_nt G.

  Definition expanded (visited : list nat) (acc : list rule) (b : nat) : Prop :=
    forall r, In r G -> lhs r = b -> In r acc /\ forall c, In c (first_nt r) -> In c visited.

  Definition bfs_inv (open visited : list nat) (acc : list rule) : Prop :=
    NoDup visited /\ incl visited U /\ incl open visited /\
    (forall b, In b visited -> lc_reach a0 b) /\
    (forall r, In r acc -> In r G /\ lc_reach a0 (lhs r)) /\
    (forall b, In b visited -> In b open \/ expanded visited acc b).

  Lemma bfs_spec fuel : forall open visited acc,
    bfs_inv open visited acc ->
    length U + length open <= fuel + length visited ->
    exists acc' visited',
      bfs G fuel open visited acc = Some acc' /\ incl visited visited' /\
      (forall r, In r acc' -> In r G /\ lc_reach a0 (lhs r)) /\
      (forall b, In b visited' -> expanded visited' acc' b).
  Proof.
    induction fuel as [|f IH]; intros open visited acc (ND & HU & HO & HR & HA & HE) Hlen.
    - assert (length visited <= length U) by (apply NoDup_incl_length; auto).
      destruct open as [|a open']; [|unfold U in *; simpl in *; lia].
      exists acc, visited. simpl. split; [|split; [|split]]; auto using incl_refl.
      intros b Hb. destruct (HE b Hb) as [[]|]; auto.
    - destruct open as [|a open'].
      + exists acc, visited. simpl. split; [|split; [|split]]; auto using incl_refl.
        intros b Hb. destruct (HE b Hb) as [[]|]; auto.
      + cbn [bfs].
        destruct (fold_left bfs_visit (flat_map first_nt (rules_by_origin G a)) (open', visited)) as [o' v'] eqn:EV.
        cbn [fst snd].
        destruct (visit_spec _ _ _ _ _ EV) as (A & B & C & D & E & F & L).
        assert (Ha : lc_reach a0 a) by (apply HR, HO; left; auto).
        destruct (IH o' v' (fold_left rule_add (rules_by_origin G a) acc)) as (acc' & vis' & E1 & E2 & E3 & E4);
          [| | exists acc', vis'; split; [exact E1 | split; [intros x Hx; apply E2, B; auto | split; assumption]]].
        * assert (I1 : NoDup v') by auto.
          assert (I2 : incl v' U).
          { intros b Hb. destruct (D b Hb) as [?|[Hl _]]; auto.
            apply in_flat_map in Hl. destruct Hl as (r & Hr & Hc).
            apply rules_by_origin_In in Hr. right. apply in_flat_map. exists r; tauto. }
          assert (I3 : incl o' v').
          { intros b Hb. destruct (E b Hb) as [?|?]; auto. apply B, HO. right; auto. }
          assert (I4 : forall b, In b v' -> lc_reach a0 b).
          { intros b Hb. destruct (D b Hb) as [?|[Hl _]]; auto.
            apply in_flat_map in Hl. destruct Hl as (r & Hr & Hc).
            apply rules_by_origin_In in Hr. apply first_nt_In in Hc. destruct Hc as (rest & Hc).
            eapply lc_step; eauto; tauto. }
          assert (I5 : forall r, In r (fold_left rule_add (rules_by_origin G a) acc) -> In r G /\ lc_reach a0 (lhs r)).
          { intros r H. apply rule_add_spec in H. destruct H as [?|Hr]; [apply HA; auto|].
            apply rules_by_origin_In in Hr. destruct Hr as [? ->]; auto. }
          assert (I6 : forall b, In b v' -> In b o' \/ expanded v' (fold_left rule_add (rules_by_origin G a) acc) b).
          { intros b Hb.
            assert (Hexp_a : expanded v' (fold_left rule_add (rules_by_origin G a) acc) a).
            { intros r Hr Hl. split.
              - apply rule_add_spec. right. apply rules_by_origin_In; auto.
              - intros c Hc. apply C. apply in_flat_map. exists r. split; auto.
                apply rules_by_origin_In; auto. }
            destruct (D b Hb) as [Hv|[_ Ho]]; auto.
            destruct (HE b Hv) as [[->|Ho]|Hx]; auto.
            right. intros r Hr Hl. destruct (Hx r Hr Hl) as [X1 X2]. split.
            - apply rule_add_spec; auto.
            - intros c Hc. apply B; auto. }
          exact (conj I1 (conj I2 (conj I3 (conj I4 (conj I5 I6))))).
        * unfold U in *; simpl in *. lia.
  Qed.

  Lemma bfs_inv_init : bfs_inv [a0] [a0] [].
  Proof.
    repeat split.
    - repeat constructor. intros [].
    - intros b [->|[]]. left; auto.
    - apply incl_refl.
    - intros b [->|[]]. constructor.
    - destruct H.
    - destruct H.
    - intros b [->|[]]. left; left; auto.
  Qed.

  Lemma expand_rule_spec :
    exists l, expand_rule G a0 = Some l /\
              forall r, In r l <-> In r G /\ lc_reach a0 (lhs r).
  Proof.
    destruct (bfs_spec (bfs_fuel G) [a0] [a0] [] bfs_inv_init) as (acc & vis & E & Hinc & Hs & Hc).
    { unfold bfs_fuel, U. simpl. lia. }
    exists acc. split; auto. intros r. split; [apply Hs|].
    intros [Hr Hreach].
    assert (Hv : forall b, lc_reach a0 b -> In b vis).
    { induction 1 as [|b r' c rest Hb IHb Hr' Hl Hrhs].
      - apply Hinc; left; auto.
      - apply (Hc b IHb r' Hr' Hl). apply first_nt_In; eauto. }
    apply (Hc _ (Hv _ Hreach) r Hr eq_refl).
  Qed.
End LC.

Theorem expand_rule_total G a : exists l, expand_rule G a = Some l.
Proof. destruct (expand_rule_spec G a) as (l & H & _); eauto. Qed.

(* Parser.predictions[a] = the rules of every non-terminal reachable from a through first symbols *)
Theorem predictions_spec G a r : In r (predictions G a) <-> In r G /\ lc_reach G a (lhs r).
Proof.
  unfold predictions. destruct (expand_rule_spec G a) as (l & -> & H). apply H.
Qed.

Corollary predictions_direct G a r : In r G -> lhs r = a -> In r (predictions G a).
Proof. intros H <-. apply predictions_spec. split; auto. constructor. Qed.

(* NULLABLE of calculate_sets: the iteration stops within its fuel at the set of non-terminals that derive
   the empty string. *)
Definition null_step (N : list nat) (r : rule) : list nat :=
  if forallb (sym_nullable N) (rhs r)
  then (if in_dec Nat.eq_dec (lhs r) N then N else N ++ [lhs r]) else N.

Lemma sweep_unfold l N : nullable_sweep l N = fold_left null_step l N.
Proof. reflexivity. Qed.

Lemma null_step_cases N r : null_step N r = N \/ null_step N r = N ++ [lhs r].
Proof. unfold null_step. destruct (forallb _ _); auto. destruct (in_dec _ _ _); auto. Qed.

Lemma null_step_len N r : length N <= length (null_step N r).
Proof. destruct (null_step_cases N r) as [-> | ->]; auto. rewrite app_length. simpl. lia. Qed.

Lemma null_fold_len l : forall N, length N <= length (fold_left null_step l N).
Proof.
  induction l as [|r l IH]; intros N; simpl; auto.
  pose proof (null_step_len N r). pose proof (IH (null_step N r)). lia.
Qed.

Lemma null_step_same N r : length (null_step N r) <= length N -> null_step N r = N.
Proof. destruct (null_step_cases N r) as [E|E]; rewrite E; auto. rewrite app_length. simpl. lia. Qed.

Lemma null_fold_same l : forall N, length (fold_left null_step l N) = length N -> fold_left null_step l N = N.
Proof.
  induction l as [|r l IH]; intros N H; simpl in *; auto.
  pose proof (null_fold_len l (null_step N r)) as L.
  assert (E : null_step N r = N) by (apply null_step_same; lia).
  rewrite E in *. apply IH, H.
Qed.

Lemma null_fold_fix l : forall N, fold_left null_step l N = N ->
  forall r, In r l -> forallb (sym_nullable N) (rhs r) = true -> In (lhs r) N.
Proof.
  induction l as [|r l IH]; intros N E r0 Hr0 Hf; simpl in *; [destruct Hr0|].
  assert (Es : null_step N r = N).
  { apply null_step_same. rewrite <- E at 2. apply null_fold_len. }
  rewrite Es in E. destruct Hr0 as [<- |Hr0]; [|eapply IH; eauto].
  unfold null_step in Es. rewrite Hf in Es. destruct (in_dec Nat.eq_dec (lhs r) N) as [|_]; auto.
  apply (f_equal (@length nat)) in Es. rewrite app_length in Es. simpl in Es. lia.
Qed.

Section Nullable.
  Variable G : grammar.
  Variable tok : Type.
  Variable tmatch : nat -> tok -> bool.
  Notation derives := (derives G tok tmatch).

  Definition null_sound (N : list nat) : Prop := forall a, In a N -> derives [NT a] [].
  Definition null_closed (N : list nat) : Prop :=
    forall r, In r G -> forallb (sym_nullable N) (rhs r) = true -> In (lhs r) N.

  Lemma sym_nullable_In N a : sym_nullable N (NT a) = true <-> In a N.
  Proof. simpl. destruct (in_dec Nat.eq_dec a N); split; auto; discriminate. Qed.

  Lemma derives_nil_of_sound N ss : null_sound N -> forallb (sym_nullable N) ss = true -> derives ss [].
  Proof.
    intros HS. induction ss as [|[t|a] ss IH]; simpl; intros H.
    - constructor.
    - discriminate.
    - apply andb_true_iff in H. destruct H as [H1 H2]. apply sym_nullable_In in H1.
      apply (derives_app G tok tmatch [NT a] ss [] []); auto.
  Qed.

  (* what the iteration keeps: only nullable non-terminals, each once, all of them heads of rules (which bounds
     the number of sweeps that add something) *)
  Definition null_inv (N : list nat) : Prop := null_sound N /\ NoDup N /\ incl N (map lhs G).

  Lemma null_step_inv N r : In r G -> null_inv N -> null_inv (null_step N r).
  Proof.
    intros Hr (HS & ND & HI). unfold null_step.
    destruct (forallb (sym_nullable N) (rhs r)) eqn:E; [|repeat split; auto].
    destruct (in_dec Nat.eq_dec (lhs r) N) as [Hin|Hnin]; repeat split; auto.
    - intros a Ha. apply in_app_or in Ha. destruct Ha as [?|[<- |[]]]; auto.
      apply derives_rule; auto. eapply derives_nil_of_sound; eauto.
    - apply NoDup_snoc; auto.
    - intros a Ha. apply in_app_or in Ha. destruct Ha as [?|[<- |[]]]; auto. apply in_map; auto.
  Qed.

  Lemma nullable_iter_props fuel : forall N,
    null_inv N -> length G < fuel + length N ->
    null_sound (nullable_iter G fuel N) /\ null_closed (nullable_iter G fuel N).
  Proof.
    induction fuel as [|f IH]; intros N HI Hlen.
    - destruct HI as (_ & ND & HI).
      assert (H : length N <= length (map lhs G)) by (apply NoDup_incl_length; auto).
      rewrite map_length in H. simpl in Hlen. lia.
    - cbn [nullable_iter]. rewrite sweep_unfold. pose proof (null_fold_len G N) as L.
      destruct (Nat.eqb_spec (length (fold_left null_step G N)) (length N)) as [Heq|Hne].
      + split; [apply HI|]. intros r. apply null_fold_fix, null_fold_same, Heq.
      + apply IH; [|lia]. apply fold_left_inv; auto. intros N' r Hr. apply null_step_inv, Hr.
  Qed.

  Lemma closed_complete_nullable N : null_closed N ->
    forall ss w, derives ss w -> w = [] -> forallb (sym_nullable N) ss = true.
  Proof.
    intros HC. induction 1 as [| t k ss w Hm Hd IH | a r ss w1 w2 Hr Hl Hd1 IH1 Hd2 IH2]; intros E; auto.
    - discriminate.
    - apply app_eq_nil in E. destruct E as [-> ->]. cbn [forallb]. apply andb_true_iff. split; auto.
      apply sym_nullable_In. rewrite <- Hl. apply HC; auto.
  Qed.

  (* NULLABLE (restricted to non-terminals) = the non-terminals deriving the empty string *)
  Theorem nullable_set_spec a : In a (nullable_set G) <-> derives [NT a] [].
  Proof.
    unfold nullable_set.
    destruct (nullable_iter_props (S (length G)) []) as (HS & HC).
    - repeat split; [intros x []|constructor|intros x []].
    - simpl. lia.
    - split; [apply HS|].
      intros Hd. pose proof (closed_complete_nullable _ HC _ _ Hd eq_refl) as H.
      cbn [forallb] in H. apply andb_true_iff in H. apply sym_nullable_In. apply H.
  Qed.
End Nullable.
