(* C17 - the global option keep_all_tokens (GrammarBuilder.global_keep_all_tokens, an input of the
   model: the `gkeep` argument of load) reaches every definition, also those that arrive through
   %import at any depth: do_import hands it to the builder of the imported module. *)
From Coq Require Import List String Bool Arith.
From LV Require Import Mod.Modules Mod.Modules_proofs.
Import ListNotations.
Local Open Scope string_scope.

(* the definition keeps all tokens (terminals carry no such option) *)
Definition keeps (d : defn) : Prop :=
  match d_opts d with ORule k _ _ _ => k = true | OTerm _ => True end.

Lemma set_def_Forall (P : defn -> Prop) d l : P d -> Forall P l -> Forall P (set_def d l).
Proof.
  intros Hd Hl. induction l as [|x r IH]; simpl. constructor; auto.
  inversion Hl; subst. destruct (String.eqb (d_name d) (d_name x)); constructor; auto.
Qed.

Lemma norm_keeps d : keeps (norm_def true d).
Proof. unfold keeps, norm_def. simpl. destruct (d_opts d); simpl; auto. apply orb_true_r. Qed.

Lemma define_keeps o d l l' : define true o d l = Ok l' -> Forall keeps l -> Forall keeps l'.
Proof.
  intros H Hl. apply define_ok in H. destruct H as (-> & _ & _).
  apply set_def_Forall; auto. apply norm_keeps.
Qed.

Lemma extend_keeps d l l' : extend d l = Ok l' -> Forall keeps l -> Forall keeps l'.
Proof.
  intros H Hl. apply extend_ok in H. destruct H as (old & base & Ef & _ & _ & _ & ->).
  destruct (d_tree d); auto. apply set_def_Forall; auto.
  change (keeps old). rewrite Forall_forall in Hl. apply Hl. apply (find_def_name _ _ _ Ef).
Qed.

Definition Inv (b : builder) : Prop := Forall keeps (b_defs b).

Lemma define_stmt_keeps o d b b' : define_stmt true o d b = Ok b' -> Inv b -> Inv b'.
Proof. intros H. apply define_stmt_spec in H. destruct H as (d' & _ & H & _). exact (define_keeps _ _ _ _ H). Qed.

Lemma extend_stmt_keeps d b b' : extend_stmt d b = Ok b' -> Inv b -> Inv b'.
Proof. intros H. apply extend_stmt_spec in H. exact (extend_keeps _ _ _ (proj1 H)). Qed.

Lemma apply_stmt_keeps ls s b b' : ls <> [] -> apply_stmt true ls s b = Ok b' -> Inv b -> Inv b'.
Proof. intros Hls. apply apply_stmt_preserves; auto. apply define_stmt_keeps. apply extend_stmt_keeps. Qed.

Lemma do_import_kept_keeps loader fs ls b imp b' :
  (forall n ls' ms gb, ls' <> [] -> loader n ls' ms = Ok gb -> Inv gb) ->
  do_import loader fs ls b imp = Ok b' ->
  exists kept, b_defs b' = (b_defs b ++ kept)%list /\ Forall keeps kept.
Proof.
  intros Hl H. destruct (do_import_spec _ _ _ _ _ _ H) as (ms & gb & kept & _ & Hg & Hk & _ & Hd & _).
  exists kept. split; auto. apply Hl in Hg; [|discriminate].
  unfold Inv in Hg. rewrite Forall_forall in *. intros d Hd'. now apply Hg, Hk.
Qed.

Theorem load_keeps fs : forall fuel ls ms b b',
  ls <> [] -> load fuel fs true ls ms b = Ok b' -> Inv b -> Inv b'.
Proof.
  induction fuel as [|f IH]; intros ls ms b b' Hls H Hb; [discriminate|].
  destruct (load_ok _ _ _ _ _ _ _ H) as (b1 & b2 & h & E1 & E2 & _ & ->). unfold Inv. simpl.
  assert (H1 : Inv b1).
  { revert E1 Hb. apply (fold_bind_preserves _ Inv). intros b0 a b3 _ Hi Hb0.
    destruct (do_import_kept_keeps _ _ _ _ _ _
                (fun n ls' ms0 gb Hne Hg => IH ls' ms0 (fresh_builder n) gb Hne Hg (Forall_nil _)) Hi)
      as (kept & Hd & Hk).
    unfold Inv. rewrite Hd. now apply Forall_app. }
  revert E2 H1. apply (fold_bind_preserves _ Inv). intros b0 a b3 _. now apply apply_stmt_keeps.
Qed.

(* the clause of import = inlining for the option: with keep_all_tokens given to the top-level builder,
   every definition an import adds (imported by name or as a dependency, at any nesting depth) has
   keep_all_tokens set - as it has when the definitions are written out in the top-level grammar *)
Theorem keep_all_reaches_imports f fs ls b imp b' :
  do_import (fun next ls0 ms0 => load f fs true ls0 ms0 (fresh_builder next)) fs ls b imp = Ok b' ->
  exists kept, b_defs b' = (b_defs b ++ kept)%list /\ Forall keeps kept.
Proof.
  apply do_import_kept_keeps. intros n ls' ms gb Hne Hg. exact (load_keeps _ _ _ _ (fresh_builder n) _ Hne Hg (Forall_nil _)).
Qed.

(* and a locally written rule gets it from the same place (_check_options) *)
Theorem keep_all_local o d l l' : define true o d l = Ok l' -> find_def (d_name d) l' = Some (norm_def true d) /\ keeps (norm_def true d).
Proof.
  intros H. apply define_ok in H. destruct H as (-> & _ & _). split; [|apply norm_keeps].
  apply (find_set_def_same (norm_def true d)).
Qed.
